(* C23 — the theorems the iteration audit relies on, one per class of site, and their composition *)
From Coq Require Import List NArith Bool Permutation Lia.
Import ListNotations.
From Cffi Require Import C25.Model C23.Order C23.AuditModel.

Theorem fold_order_independent {S A} (f : S -> A -> S) :
  (forall st x y, f (f st x) y = f (f st y) x) ->
  forall l l', Permutation l l' -> forall st, fold_left f l st = fold_left f l' st.
Proof.
  intros C l l' P. induction P; intros st; cbn; auto.
  - rewrite C. reflexivity.
  - rewrite IHP1. apply IHP2.
Qed.

Theorem singleton_order_independent {A} (l l' : list A) :
  Permutation l l' -> (length l <= 1)%nat -> l = l'.
Proof.
  intros P L. destruct l as [|a [|b l]]; cbn in L; try lia.
  - apply Permutation_nil in P. auto.
  - apply Permutation_length_1_inv in P. auto.
Qed.

(* a dict as the sequence of its keys in order of first insertion: the order is a function of the sequence of
   insertions alone (this is what "insertion-ordered" means; no hash enters) *)
Fixpoint dict_order_acc (seen : list cstr) (ins : list cstr) : list cstr :=
  match ins with
  | [] => []
  | k :: r => if existsb (fun x => match lex x k with Eq => true | _ => false end) seen
              then dict_order_acc seen r else k :: dict_order_acc (k :: seen) r
  end.
Definition dict_order (ins : list cstr) := dict_order_acc [] ins.

Lemma dict_order_acc_in seen ins k : In k (dict_order_acc seen ins) -> In k ins /\ ~ In k seen.
Proof.
  revert seen. induction ins as [|a r IH]; cbn; intros seen H; [tauto|].
  destruct (existsb _ seen) eqn:E.
  - apply IH in H. tauto.
  - destruct H as [<-|H].
    + split; auto. intros I. assert (existsb (fun x => match lex x a with Eq => true | _ => false end) seen = true); [|congruence].
      apply existsb_exists. exists a. split; auto. rewrite C25.Proofs.lex_refl. auto.
    + apply IH in H. cbn in H. tauto.
Qed.

Theorem dict_order_nodup ins : NoDup (dict_order ins).
Proof.
  unfold dict_order. generalize (@nil cstr). induction ins as [|a r IH]; intros seen; cbn; [constructor|].
  destruct (existsb _ seen); auto. constructor; auto.
  intros H. apply dict_order_acc_in in H. cbn in H. tauto.
Qed.

Section Emitter.
Variable St : Type.

Lemma consume_perm (s : step St) st d d' : step_ok St s ->
  Permutation d (contents St s st) -> Permutation d' (contents St s st) ->
  consume St (consumer_of St s) st d = consume St (consumer_of St s) st d'.
Proof.
  unfold step_ok. intros OK P P'.
  assert (Permutation d d') as PP by (eapply perm_trans; [exact P|apply Permutation_sym; exact P']).
  destruct (consumer_of St s) as [f|k|k]; cbn.
  - apply fold_order_independent; auto.
  - f_equal. apply sort_by_perm_invariant; auto. rewrite map_id.
    eapply Permutation_NoDup; [apply Permutation_sym; exact P|apply OK].
  - f_equal. apply singleton_order_independent; auto.
    rewrite (Permutation_length P). apply OK.
Qed.

(* composite: whatever order each set is delivered in, at each of its looks, the final state (the text) is the same *)
Theorem run_oracle_independent : forall (prog : list (step St)) (o o' : oracle) i st,
  Forall (step_ok St) prog -> fair o -> fair o' -> run_emitter St o i prog st = run_emitter St o' i prog st.
Proof.
  induction prog as [|s p IH]; intros o o' i st OK F F'; cbn; auto.
  inversion OK; subst.
  rewrite (consume_perm s st (o i (contents St s st)) (o' i (contents St s st))); auto.
Qed.
End Emitter.
