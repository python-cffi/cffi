(* C23 — determinism, the part that is proved: sorting by a key that is injective on the items gives a list that
   does not depend on the order in which the items were delivered (set / dict iteration order, hence hash seed).
   `sort_by key` is Python's sorted(items, key=key) for str keys (insertion sort by code-point order is the
   specification of a stable sort by a total order; the order on keys is C25's `lex`).

   Where the emitter (recompiler.py) iterates a hash-ordered container through sorted(...) this applies; the sites
   are listed and classified on the source by tools/props/c23_audit.py on every run (C23/Gen.v), the other classes
   (singleton, commuting step, insertion-ordered dict) have their theorems in C23/AuditProofs.v; that the emitted
   text is then the same in every process is established by sampling. *)
From Coq Require Import List NArith Bool Permutation Sorted.
Import ListNotations.
From Cffi Require Import C25.Model C25.Proofs.

Section SortBy.
Variable A : Type.
Variable key : A -> cstr.

Fixpoint insert_by (x : A) (l : list A) : list A :=
  match l with
  | [] => [x]
  | y :: l' => if leb_lex (key x) (key y) then x :: l else y :: insert_by x l'
  end.

Definition sort_by (l : list A) : list A := fold_right insert_by [] l.

Definition klt (a b : A) := lt_lex (key a) (key b).

Lemma insert_by_perm x l : Permutation (insert_by x l) (x :: l).
Proof.
  induction l as [|y l IH]; cbn; auto.
  destruct (leb_lex (key x) (key y)); auto.
  eapply perm_trans; [apply perm_skip, IH|]. apply perm_swap.
Qed.

Lemma sort_by_perm l : Permutation (sort_by l) l.
Proof.
  induction l as [|x l IH]; cbn; auto.
  eapply perm_trans; [apply insert_by_perm|]. apply perm_skip, IH.
Qed.

Lemma insert_by_sorted x l :
  StronglySorted klt l -> ~ In (key x) (map key l) -> StronglySorted klt (insert_by x l).
Proof.
  induction l as [|y l IH]; intros Hs Hn; cbn.
  - constructor; constructor.
  - inversion Hs as [|? ? Hs' Hall]; subst.
    unfold leb_lex. destruct (lex (key x) (key y)) eqn:E.
    + apply lex_eq in E. exfalso. apply Hn. left. auto.
    + constructor; auto. constructor; auto.
      rewrite Forall_forall in *. intros z Hz. unfold klt, lt_lex in *.
      eapply lex_trans; [exact E|]. apply Hall, Hz.
    + constructor.
      * apply IH; auto. intros Hin. apply Hn. right; exact Hin.
      * rewrite Forall_forall in *. intros z Hz.
        assert (Hz' : In z (x :: l)) by (eapply Permutation_in; [apply insert_by_perm|exact Hz]).
        destruct Hz' as [<-|Hz'].
        -- unfold klt, lt_lex. rewrite lex_antisym, E. reflexivity.
        -- apply Hall, Hz'.
Qed.

Lemma sort_by_sorted l : NoDup (map key l) -> StronglySorted klt (sort_by l).
Proof.
  induction l as [|x l IH]; intros Hnd; cbn.
  - constructor.
  - inversion Hnd; subst. apply insert_by_sorted; auto.
    intros Hin. apply H1. eapply Permutation_in; [|exact Hin].
    apply Permutation_map, sort_by_perm.
Qed.

Lemma keyed_sorted_unique : forall l l', StronglySorted klt l -> StronglySorted klt l' ->
  Permutation l l' -> l = l'.
Proof.
  induction l as [|a l IH]; intros l' S S' P.
  - apply Permutation_nil in P. auto.
  - destruct l' as [|a' l']; [apply Permutation_sym, Permutation_nil in P; discriminate|].
    inversion S as [|? ? Sl Fa]; inversion S' as [|? ? Sl' Fa']; subst.
    assert (In a (a' :: l')) as I1 by (eapply Permutation_in; eauto; left; auto).
    assert (In a' (a :: l)) as I2 by (eapply Permutation_in; [apply Permutation_sym; eauto|left; auto]).
    assert (a = a') as ->.
    { destruct I1 as [|I1]; [congruence|]. destruct I2 as [|I2]; [congruence|]. exfalso.
      rewrite Forall_forall in Fa, Fa'. apply Fa in I2. apply Fa' in I1. unfold klt, lt_lex in *.
      rewrite lex_antisym, I1 in I2. discriminate. }
    f_equal. apply IH; auto. eapply Permutation_cons_inv; eauto.
Qed.

Theorem sort_by_perm_invariant : forall l l', NoDup (map key l) -> Permutation l l' ->
  sort_by l = sort_by l'.
Proof.
  intros l l' N P. apply keyed_sorted_unique.
  - apply sort_by_sorted; auto.
  - apply sort_by_sorted. eapply Permutation_NoDup; [apply Permutation_map; eauto|auto].
  - eapply perm_trans; [apply sort_by_perm|]. eapply perm_trans; [exact P|].
    apply Permutation_sym, sort_by_perm.
Qed.

Theorem sort_by_spec : forall l, NoDup (map key l) ->
  Permutation (sort_by l) l /\ StronglySorted klt (sort_by l).
Proof. intros l N. split; [apply sort_by_perm | apply sort_by_sorted; auto]. Qed.
End SortBy.
