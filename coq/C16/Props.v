(* C16 — Array and pointer indexing, slicing and arithmetic follow the C model.
   Statements, each with its proof when nothing else uses it; the lemmas they share are in C16/Proofs.v.
   Addresses are integers modulo 2^64. *)
From Coq Require Import ZArith List Bool Lia.
Import ListNotations.
From Cffi Require Base.Wrap C03.Mem C03.MemProofs.
From Cffi Require Import C16.Gen C16.Model C16.Proofs.
Open Scope Z_scope.

(* x[i] on an array of length n: accepted iff 0 <= i < n, at address x + i*size; anything else
   (any Python int, also beyond Py_ssize_t) raises IndexError *)
Theorem C16_index_accept_iff : forall len addr isz i, len <= 2 ^ 63 ->
  (exists a, get_indexed_ptr (arr len addr isz) i = Ok a) <-> 0 <= i < len.
Proof.
  intros len addr isz i Hl. split.
  - intros [a H]. destruct (Z_le_dec 0 i); [destruct (Z_lt_dec i len); [lia|]|];
      rewrite index_array_rejected in H by lia; discriminate.
  - intros H. eexists. apply index_array_accepted; assumption.
Qed.
Print Assumptions C16_index_accept_iff.

Theorem C16_index_accepted_address : forall len addr isz i, 0 <= i < len -> len <= 2 ^ 63 ->
  get_indexed_ptr (arr len addr isz) i = Ok (wrap64 (addr + i * isz)).
Proof. exact index_array_accepted. Qed.
Print Assumptions C16_index_accepted_address.

Theorem C16_index_rejected_IndexError : forall len addr isz i, ~ (0 <= i < len) ->
  get_indexed_ptr (arr len addr isz) i = Err IndexError.
Proof. exact index_array_rejected. Qed.
Print Assumptions C16_index_rejected_IndexError.

(* x[i:j]: accepted iff no step and 0 <= i <= j <= n (bounds within Py_ssize_t) *)
Theorem C16_slice_accept_iff : forall len addr isz a b hs, len < 2 ^ 63 ->
  - 2 ^ 63 <= a < 2 ^ 63 -> - 2 ^ 63 <= b < 2 ^ 63 ->
  (exists r, getslicearg (arr len addr isz) (BInt a) (BInt b) hs = Ok r) <->
  (hs = false /\ 0 <= a <= b /\ b <= len).
Proof.
  intros len addr isz a b hs Hl Ha Hb. split.
  - intros [r H].
    destruct hs; [rewrite slice_array_rejected in H by auto; discriminate|].
    assert (~ ~ (0 <= a <= b /\ b <= len))
      by (intros N; rewrite slice_array_rejected in H by auto; discriminate).
    split; [reflexivity|lia].
  - intros [-> [H1 H2]]. eexists. apply slice_array_accepted; assumption.
Qed.
Print Assumptions C16_slice_accept_iff.

Theorem C16_slice_rejected_IndexError : forall len addr isz a b hs,
  hs = true \/ ~ (0 <= a <= b /\ b <= len) ->
  - 2 ^ 63 <= a < 2 ^ 63 -> - 2 ^ 63 <= b < 2 ^ 63 ->
  getslicearg (arr len addr isz) (BInt a) (BInt b) hs = Err IndexError.
Proof. exact slice_array_rejected. Qed.
Print Assumptions C16_slice_rejected_IndexError.

(* the property text says "anything else raises IndexError": for a bound outside Py_ssize_t the code raises
   IndexError only if _cdata_getslicearg converts PyLong_AsSsize_t's OverflowError (finding
   "slice_bound_not_ssize"); the flag regenerated from that function says whether it does *)
Theorem C16_slice_huge_bound : forall cd a b hs,
  ssize_ok a = false \/ (ssize_ok a = true /\ ssize_ok b = false) ->
  getslicearg cd (BInt a) (BInt b) hs =
  Err (if gen_slice_bound_overflow_is_indexerror then IndexError else OverflowError).
Proof.
  intros cd a b hs [H|[H1 H2]]; unfold getslicearg, bound_value.
  - rewrite H. reflexivity.
  - rewrite H1, H2. reflexivity.
Qed.
Print Assumptions C16_slice_huge_bound.

(* an accepted slice is an array view of length j-i at x + i*size, whose element k is x[i+k] *)
Theorem C16_slice_view : forall len addr isz a b, 0 <= a <= b -> b <= len -> len < 2 ^ 63 ->
  slice (arr len addr isz) (BInt a) (BInt b) false = Ok (arr (b - a) (wrap64 (addr + isz * a)) isz).
Proof.
  intros. unfold slice. rewrite slice_array_accepted by assumption. reflexivity.
Qed.
Print Assumptions C16_slice_view.

Theorem C16_slice_view_aliases : forall len addr isz a b k,
  0 <= a <= b -> b <= len -> len < 2 ^ 63 -> 0 <= k < b - a ->
  get_indexed_ptr (arr (b - a) (wrap64 (addr + isz * a)) isz) k =
  get_indexed_ptr (arr len addr isz) (a + k).
Proof.
  intros. rewrite !index_array_accepted by lia. rewrite wrap64_add_l. f_equal. f_equal. lia.
Qed.
Print Assumptions C16_slice_view_aliases.

(* a rejected index / slice / slice assignment changes nothing *)
Theorem C16_rejected_slice_touches_nothing : forall base st v a b hs ic src cd e,
  nth_error (s_views st) v = Some cd -> getslicearg cd a b hs = Err e ->
  step base st (OSlice v a b hs) = (st, RErr e) /\
  step base st (OAssSlice v a b hs ic src) = (st, RErr e).
Proof.
  intros base st v a b hs ic src cd e Hv Hg. cbn [step]. rewrite Hv. unfold slice, ass_slice. rewrite Hg.
  split; reflexivity.
Qed.
Print Assumptions C16_rejected_slice_touches_nothing.

Theorem C16_rejected_index_touches_nothing : forall base st o e st' v i,
  o = OIndexRead v i \/ (exists c, o = OIndexWrite v i c) ->
  forall cd, nth_error (s_views st) v = Some cd -> get_indexed_ptr cd i = Err e ->
  step base st o = (st', RErr e) -> st' = st.
Proof.
  intros base st o e st' v i Ho cd Hv Hg H.
  destruct Ho as [->|[c ->]]; cbn [step] in H; rewrite Hv, Hg in H; inversion H; reflexivity.
Qed.
Print Assumptions C16_rejected_index_touches_nothing.

(* slice assignment from an iterable of convertible values succeeds iff it has exactly j-i values,
   ValueError otherwise *)
Theorem C16_slice_assignment_count : forall base S n mem esc a items m esc' e,
  (forall c, In c items -> exists bs, c = Ok bs) ->
  store_items base mem esc a S n items = (m, esc', e) ->
  e = if Nat.eqb (length items) n then None else Some ValueError.
Proof.
  intros base S. induction n as [|n IH]; intros mem esc a items m esc' e Hc H; cbn [store_items] in H.
  - destruct items; inversion H; subst; reflexivity.
  - destruct items as [|c rest].
    + inversion H; subst. reflexivity.
    + destruct (Hc c (or_introl eq_refl)) as [bs ->].
      assert (forall c0, In c0 rest -> exists bs0, c0 = Ok bs0) as Hc' by (intros; apply Hc; right; auto).
      cbn [length Nat.eqb].
      destruct (mwrite base mem a bs); eapply IH; eauto.
Qed.
Print Assumptions C16_slice_assignment_count.

(* pointers: p[i] lives i*sizeof(T) bytes past p; (p+i)[j] aliases p[i+j]; (p+i)-p = i *)
Theorem C16_index_pointer : forall addr isz i, ssize_ok i = true -> addr <> 0 ->
  get_indexed_ptr (ptr addr isz) i = Ok (wrap64 (addr + i * isz)).
Proof. exact index_pointer. Qed.
Print Assumptions C16_index_pointer.

Theorem C16_add_then_index_aliases : forall addr isz i j q,
  ssize_ok i = true -> ssize_ok j = true -> ssize_ok (i + j) = true -> 0 <= isz -> addr <> 0 ->
  add_or_sub (ptr addr isz) i 1 = Ok q -> c_data q <> 0 ->
  get_indexed_ptr q j = get_indexed_ptr (ptr addr isz) (i + j).
Proof.
  intros addr isz i j q Hi Hj Hij Hs Ha Hq Hn.
  rewrite add_pointer in Hq by assumption. inversion Hq; subst q; clear Hq. cbn in Hn.
  rewrite index_pointer by assumption.
  unfold get_indexed_ptr. rewrite Hj. cbn.
  destruct (Z.eqb_spec (wrap64 (addr + i * isz)) 0); [contradiction|].
  rewrite wrap64_add_l. f_equal. f_equal. lia.
Qed.
Print Assumptions C16_add_then_index_aliases.

Theorem C16_add_then_sub : forall addr isz i q,
  ssize_ok i = true -> 1 <= isz -> - 2 ^ 63 <= i * isz < 2 ^ 63 ->
  add_or_sub (ptr addr isz) i 1 = Ok q -> ptr_sub q (ptr addr isz) = Ok i.
Proof.
  intros addr isz i q Hi Hs Hp Hq.
  rewrite add_pointer in Hq by (cbn; lia || assumption). injection Hq as <-.
  apply (ptr_sub_exact _ _ false); [reflexivity|cbn; lia|]. cbn [c_data c_isz ptr].
  rewrite to_ssize_is_wrap. apply Base.Wrap.wrap_unique; [reflexivity|exact Hp|].
  unfold wrap64. rewrite Zminus_mod_idemp_l. f_equal. ring.
Qed.
Print Assumptions C16_add_then_sub.

(* an owning pointer from ffi.new("T*") accepts only index 0 *)
Theorem C16_owned_pointer_only_zero : forall addr isz vp i,
  get_indexed_ptr (mkcd (KPtr true) addr isz vp) i =
  if i =? 0 then Ok (wrap64 addr) else Err IndexError.
Proof.
  intros. unfold get_indexed_ptr. destruct (Z.eqb_spec i 0) as [->|Hne].
  - cbn. rewrite Z.add_0_r. reflexivity.
  - destruct (ssize_ok i); [|reflexivity]. cbn.
    destruct (Z.eqb_spec i 0); [contradiction|reflexivity].
Qed.
Print Assumptions C16_owned_pointer_only_zero.

(* ffi.offsetof('T[]', i) = i*sizeof(T) exactly when that fits Py_ssize_t, OverflowError otherwise
   (items of non-zero size) ... *)
Theorem C16_offsetof : forall isz i, 0 < isz < 2 ^ 63 -> ssize_ok i = true ->
  offsetof_index isz i =
  if (- 2 ^ 63 <=? i * isz) && (i * isz <? 2 ^ 63) then Ok (i * isz) else Err OverflowError.
Proof. exact offsetof_spec. Qed.
Print Assumptions C16_offsetof.

(* ... and for items of size 0 (T = int[0], an empty struct): 0 when the overflow test is guarded;
   unguarded, the test divides by zero and the process receives SIGFPE (finding
   "offsetof_zero_size_item"); the flag is regenerated from direct_typeoffsetof *)
Theorem C16_offsetof_zero_size : forall i, ssize_ok i = true ->
  offsetof_index 0 i = if gen_offsetof_guards_zero_size then Ok 0 else Err Crash.
Proof.
  intros i Hi. unfold offsetof_index, typeoffsetof_index. rewrite Hi. cbn [negb Z.ltb Z.compare Z.eqb].
  rewrite Z.mul_0_r. reflexivity.
Qed.
Print Assumptions C16_offsetof_zero_size.

(* ffi.addressof(x, i) == x + i: whenever i*sizeof(T) fits a Py_ssize_t both operations succeed and
   return the same pointer (both directions); when it does not, addressof raises OverflowError while
   x + i wraps modulo 2^64 *)
Theorem C16_addressof_eq_add : forall cd i, 0 < c_isz cd < 2 ^ 63 -> c_voidp cd = false ->
  ssize_ok i = true -> - 2 ^ 63 <= i * c_isz cd < 2 ^ 63 ->
  addressof_index cd i = add_or_sub cd i 1 /\ exists q, add_or_sub cd i 1 = Ok q.
Proof.
  intros cd i Hs Hv Hi Hp. unfold addressof_index.
  change (typeoffsetof_index (c_isz cd) i) with (offsetof_index (c_isz cd) i).
  rewrite offsetof_complete by (lia || assumption).
  rewrite add_pointer by (lia || assumption). rewrite Hv. split; [reflexivity|eexists; reflexivity].
Qed.
Print Assumptions C16_addressof_eq_add.

Theorem C16_addressof_is_add : forall cd i q, 0 < c_isz cd < 2 ^ 63 -> c_voidp cd = false ->
  addressof_index cd i = Ok q -> add_or_sub cd i 1 = Ok q.
Proof.
  intros cd i q Hs Hv H. unfold addressof_index in H.
  destruct (typeoffsetof_index (c_isz cd) i) as [o|e] eqn:E; [|discriminate].
  pose proof (offsetof_sound _ _ _ Hs E) as Ho. inversion H; subst q o; clear H.
  assert (ssize_ok i = true) as Hi.
  { unfold typeoffsetof_index in E. destruct (ssize_ok i); [reflexivity|discriminate]. }
  rewrite add_pointer by (lia || assumption). rewrite Hv. reflexivity.
Qed.
Print Assumptions C16_addressof_is_add.

Theorem C16_addressof_overflow : forall cd i, 0 < c_isz cd < 2 ^ 63 -> ssize_ok i = true ->
  ~ (- 2 ^ 63 <= i * c_isz cd < 2 ^ 63) -> addressof_index cd i = Err OverflowError.
Proof.
  intros cd i Hs Hi Hp. unfold addressof_index.
  change (typeoffsetof_index (c_isz cd) i) with (offsetof_index (c_isz cd) i).
  rewrite offsetof_overflow by assumption. reflexivity.
Qed.
Print Assumptions C16_addressof_overflow.

(* History: starting from an owned array of n items of S bytes at [base, base + n*S), after ANY
   sequence of operations — index reads/writes, slices, slice assignments (from iterables, bytes or
   other views, also overlapping), p+i, p-i, p-q and addressof on ANY of the cdata created so far —
   in which memory is reached only through array views (the decidable guard safe_runb, evaluated along
   the run; a raw pointer produced by arithmetic can be dereferenced anywhere, as in C, and is outside
   the bounds claim): no accepted access touched a byte outside the array (escape flag still false),
   the memory has the same size, and every array view lies inside the base array. *)
Theorem C16_views_stay_inside : forall base S, 0 <= S -> forall mem n ops st' outs,
  0 <= n -> Z.of_nat (length mem) = n * S -> 0 <= base -> base + n * S < 2 ^ 64 ->
  n * S < 2 ^ 63 * Z.max S 1 ->
  safe_runb base S (initial base S mem n) ops = true ->
  run base (initial base S mem n) ops = (st', outs) ->
  s_escaped st' = false /\ length (s_mem st') = length mem /\
  Forall (view_inv base S (n * S)) (s_views st').
Proof. exact views_stay_inside. Qed.
Print Assumptions C16_views_stay_inside.

(* a store changes no byte outside the stored item and reads back *)
Theorem C16_write_frame : forall base mem a bs m j,
  mwrite base mem a bs = Some m ->
  (j < Z.to_nat (a - base) \/ Z.to_nat (a - base) + length bs <= j)%nat ->
  nth_error m j = nth_error mem j.
Proof.
  intros base mem a bs m j H Hj. destruct (mwrite_splice _ _ _ _ _ H) as (-> & Hn).
  pose proof (C03.MemProofs.splice_length _ _ _ Hn) as Hl.
  destruct (Nat.lt_ge_cases j (length mem)) as [Hlt|Hge].
  - rewrite (nth_error_nth' _ 0), (nth_error_nth' mem 0) by lia. f_equal.
    apply C03.MemProofs.nth_splice_outside; assumption.
  - rewrite (proj2 (nth_error_None _ _)), (proj2 (nth_error_None mem _)) by lia. reflexivity.
Qed.
Print Assumptions C16_write_frame.

Theorem C16_write_read_back : forall base mem a bs m,
  mwrite base mem a bs = Some m -> mread base m a (Z.of_nat (length bs)) = Some bs.
Proof.
  intros base mem a bs m H. destruct (mwrite_splice _ _ _ _ _ H) as (-> & Hn).
  unfold mwrite in H. unfold mread, inside in *. rewrite C03.MemProofs.splice_length by exact Hn.
  destruct (_ && _); [|discriminate]. rewrite Nat2Z.id. f_equal. exact (C03.MemProofs.unit_at_splice _ _ _ Hn).
Qed.
Print Assumptions C16_write_read_back.

(* non-vacuity: int32 array of 4 at 4096: x[1:3] is a 2-item view at 4100; writing view[1] changes
   bytes 8..11 only; x[4] and x[3:2] are IndexError; pointer arithmetic and addressof in between;
   the guard of the history theorem holds for this run *)
Example C16_example :
  let mem := [1;0;0;0; 2;0;0;0; 3;0;0;0; 4;0;0;0] in
  let ops := [OSlice 0 (BInt 1) (BInt 3) false; OIndexWrite 1 1 (Ok [9;9;9;9]); OIndexRead 0 2;
              OIndexRead 0 4; OSlice 0 (BInt 3) (BInt 2) false; OAdd 1 1; OAddressof 0 3; OPtrSub 3 2;
              OAssSlice 0 (BInt 0) (BInt 2) false false (SArray 1); OIndexRead 1 2] in
  run 4096 (initial 4096 4 mem 4) ops =
  (mkst [2;0;0;0; 9;9;9;9; 9;9;9;9; 4;0;0;0]
        [arr 4 4096 4; arr 2 4100 4; ptr 4104 4; ptr 4108 4] false,
   [RView 1 (arr 2 4100 4); RDone; RBytes 4104 (Some [9;9;9;9]); RErr IndexError; RErr IndexError;
    RView 2 (ptr 4104 4); RView 3 (ptr 4108 4); RInt 1; RDone; RErr IndexError])
  /\ safe_runb 4096 4 (initial 4096 4 mem 4) ops = true.
Proof. split; vm_compute; reflexivity. Qed.

(* pointer difference p - q on the arithmetic of cdata_sub as the source has it: C16/Gen.v
   gen_sub_prog is regenerated on every run (the `if (itemsize > 1)` guard, and for the `diff % itemsize`
   test and the `diff / itemsize` division whether the operands are the declared Py_ssize_t — C's signed
   semantics, truncation toward zero: Z.rem / Z.quot — or cast to size_t); Model.sub_arith interprets it.
   to_ssize (c_data v - c_data w) is the signed byte distance.  The proofs depend on the test and the
   division being the signed ones (C16_ptr_sub_example shows what the size_t casts would do). *)
Theorem C16_ptr_sub_exact : forall v w o k, c_kind v = KPtr o -> 0 < c_isz w ->
  (ptr_sub v w = Ok k <-> to_ssize (c_data v - c_data w) = k * c_isz w).
Proof. exact ptr_sub_exact. Qed.
Print Assumptions C16_ptr_sub_exact.

Theorem C16_ptr_sub_valueerror_iff_not_multiple : forall v w o, c_kind v = KPtr o -> 0 < c_isz w ->
  (ptr_sub v w = Err ValueError <-> ~ exists k, to_ssize (c_data v - c_data w) = k * c_isz w).
Proof.
  intros v w o Hk Hs. destruct (ptr_sub v w) as [k|e] eqn:E.
  - apply (ptr_sub_exact v w o k Hk Hs) in E. split; [discriminate|]. intros H. exfalso. apply H. exists k. exact E.
  - rewrite (ptr_sub_quot v w o Hk Hs) in E. cbv zeta in E.
    destruct (Z.eqb_spec (Z.rem (to_ssize (c_data v - c_data w)) (c_isz w)) 0) as [R|R]; [discriminate|].
    injection E as <-. split; [|reflexivity]. intros _ [k Hk']. apply R. rewrite Hk'. apply Z.rem_mul. lia.
Qed.
Print Assumptions C16_ptr_sub_valueerror_iff_not_multiple.

Theorem C16_ptr_sub_total : forall v w o, c_kind v = KPtr o -> 0 < c_isz w ->
  (exists k, ptr_sub v w = Ok k) \/ ptr_sub v w = Err ValueError.
Proof.
  intros v w o Hk Hs. rewrite (ptr_sub_quot v w o Hk Hs). cbv zeta. destruct (_ =? 0); eauto.
Qed.
Print Assumptions C16_ptr_sub_total.

Theorem C16_ptr_sub_voidp : forall v w o, c_kind v = KPtr o -> c_isz w <= 0 -> c_voidp w = true ->
  ptr_sub v w = Ok (to_ssize (c_data v - c_data w)).
Proof.
  intros v w o Hk Hs Hv. unfold ptr_sub. rewrite Hk, Hv, Bool.andb_false_r, sub_arith_signed.
  destruct (Z.ltb_spec 1 (c_isz w)); [lia|reflexivity].
Qed.
Print Assumptions C16_ptr_sub_voidp.

(* non-vacuity, negative k: struct of 3 bytes, q 15 bytes after p: p - q = -5, q - p = 5; 14 bytes apart:
   ValueError both ways.  With the remainder test done on size_t casts the exact multiple -15 would be
   rejected, because 2^64 - 15 is not a multiple of 3 *)
Example C16_ptr_sub_example :
  ptr_sub (ptr 4096 3) (ptr 4111 3) = Ok (-5) /\ ptr_sub (ptr 4111 3) (ptr 4096 3) = Ok 5 /\
  ptr_sub (ptr 4096 3) (ptr 4110 3) = Err ValueError /\ ptr_sub (ptr 4110 3) (ptr 4096 3) = Err ValueError /\
  ptr_sub (ptr 16 8) (ptr (2 ^ 64 - 16) 8) = Ok 4 /\
  sub_arith {| sp_guard_gt := 1; sp_mod_cast := CUnsigned; sp_div_cast := CSigned |} (-15) 3 = Err ValueError.
Proof. vm_compute. repeat split; reflexivity. Qed.
