(* C16 — proofs about the indexing / slicing / pointer-arithmetic model.  First the single operations (index,
   slice, p+i, p-q, the overflow test of direct_typeoffsetof), with Py_ssize_t read as Base.Wrap's signed
   64-bit conversion; then, in Section History, the invariant `inv` (every array view lies inside the owned
   allocation), kept by every step of a run that passes the guard safe_runb: views_stay_inside. *)
From Coq Require Import ZArith List Bool Lia.
Import ListNotations.
From Cffi Require C03.Mem C03.MemProofs.
From Cffi Require Import Base.Wrap C16.Gen C16.Model.
Open Scope Z_scope.

Lemma ssize_ok_iff : forall z, ssize_ok z = true <-> - 2 ^ 63 <= z < 2 ^ 63.
Proof.
  intros z. unfold ssize_ok. rewrite andb_true_iff, Z.leb_le, Z.ltb_lt. tauto.
Qed.

(* a non-negative number below a Py_ssize_t bound; by transitivity, so that 2^63 stays folded *)
Lemma ssize_ok_lt : forall z hi, 0 <= z -> z < hi -> hi <= 2 ^ 63 -> ssize_ok z = true.
Proof.
  intros z hi H0 H1 H2. apply ssize_ok_iff.
  split; [apply Z.le_trans with 0; [discriminate|exact H0]|exact (Z.lt_le_trans _ _ _ H1 H2)].
Qed.

Lemma ssize_ok_le : forall z hi, 0 <= z -> z <= hi -> hi < 2 ^ 63 -> ssize_ok z = true.
Proof. intros z hi H0 H1 H2. apply (ssize_ok_lt z (2 ^ 63) H0 (Z.le_lt_trans _ _ _ H1 H2)), Z.le_refl. Qed.

Lemma wrap64_small : forall z, 0 <= z < 2 ^ 64 -> wrap64 z = z.
Proof. intros. unfold wrap64. apply Z.mod_small. assumption. Qed.

Lemma wrap64_add_l : forall a b, wrap64 (wrap64 a + b) = wrap64 (a + b).
Proof. intros. unfold wrap64. apply Zplus_mod_idemp_l. Qed.

(* Py_ssize_t: Model.to_ssize is the signed 64-bit conversion of Base.Wrap *)
Lemma to_ssize_is_wrap : forall z, to_ssize z = wrap true 64 z.
Proof. intros z. symmetry. apply (wrap_signed_ltb 64). reflexivity. Qed.

Lemma to_ssize_spec : forall z, exists k, to_ssize z = z + k * 2 ^ 64 /\ - 2 ^ 63 <= to_ssize z < 2 ^ 63.
Proof.
  intros z. rewrite to_ssize_is_wrap. destruct (eqm_ex _ _ _ (wrap_eqm true 64 z)) as [k E].
  exists k. split; [exact E | exact (wrap_range true 64 z eq_refl)].
Qed.

Lemma to_ssize_unique : forall z y k, - 2 ^ 63 <= y < 2 ^ 63 -> z = y + k * 2 ^ 64 -> to_ssize z = y.
Proof.
  intros z y k Hy ->. rewrite to_ssize_is_wrap.
  apply wrap_unique; [reflexivity | exact Hy | symmetry; apply Z_mod_plus_full].
Qed.

Lemma to_ssize_congr : forall z k, to_ssize (z + k * 2 ^ 64) = to_ssize z.
Proof. intros z k. rewrite !to_ssize_is_wrap. apply wrap_congr, Z_mod_plus_full. Qed.

Lemma to_ssize_small : forall z, - 2 ^ 63 <= z < 2 ^ 63 -> to_ssize z = z.
Proof. intros z H. rewrite to_ssize_is_wrap. exact (wrap_id true 64 z eq_refl H). Qed.

Lemma to_ssize_wrap : forall z, to_ssize (wrap64 z) = to_ssize z.
Proof. intros. unfold to_ssize, wrap64. rewrite Z.mod_mod by discriminate. reflexivity. Qed.

Lemma small_multiple : forall m k, 0 < m -> Z.abs (k * m) < m -> k = 0.
Proof.
  intros m k Hm H. destruct (Z.eq_dec k 0) as [ | Hk]; [assumption | ]. rewrite Z.abs_mul in H. nia.
Qed.

(* an array cdata of len items of isz bytes at addr *)
Definition arr (len addr isz : Z) : cdata := mkcd (KArr len) addr isz false.

Theorem index_array_accepted : forall len addr isz i, 0 <= i < len -> len <= 2 ^ 63 ->
  get_indexed_ptr (arr len addr isz) i = Ok (wrap64 (addr + i * isz)).
Proof.
  intros len addr isz i Hi Hl. unfold get_indexed_ptr.
  rewrite (ssize_ok_lt i len (proj1 Hi) (proj2 Hi) Hl). clear Hl.
  cbn. destruct (Z.ltb_spec i 0); [lia|]. destruct (Z.leb_spec len i); [lia|]. reflexivity.
Qed.

Theorem index_array_rejected : forall len addr isz i, ~ (0 <= i < len) ->
  get_indexed_ptr (arr len addr isz) i = Err IndexError.
Proof.
  intros len addr isz i Hi. unfold get_indexed_ptr.
  destruct (ssize_ok i); [|reflexivity]. cbn.
  destruct (Z.ltb_spec i 0); [reflexivity|]. destruct (Z.leb_spec len i); [reflexivity|]. lia.
Qed.

Theorem slice_array_accepted : forall len addr isz a b, 0 <= a <= b -> b <= len -> len < 2 ^ 63 ->
  getslicearg (arr len addr isz) (BInt a) (BInt b) false = Ok (a, b - a).
Proof.
  intros len addr isz a b H1 H2 Hl. unfold getslicearg, bound_value.
  rewrite (ssize_ok_le a len), (ssize_ok_le b len) by (assumption || lia). clear Hl.
  destruct (Z.ltb_spec b a); [lia|]. cbn.
  destruct (Z.ltb_spec a 0); [lia|]. destruct (Z.ltb_spec len b); [lia|]. reflexivity.
Qed.

Theorem slice_array_rejected : forall len addr isz a b hs,
  hs = true \/ ~ (0 <= a <= b /\ b <= len) ->
  - 2 ^ 63 <= a < 2 ^ 63 -> - 2 ^ 63 <= b < 2 ^ 63 ->
  getslicearg (arr len addr isz) (BInt a) (BInt b) hs = Err IndexError.
Proof.
  intros len addr isz a b hs H Ha Hb. unfold getslicearg, bound_value.
  apply ssize_ok_iff in Ha, Hb. rewrite Ha, Hb.
  destruct hs; [reflexivity|]. destruct H as [H|H]; [discriminate|].
  destruct (Z.ltb_spec b a); [reflexivity|]. cbn.
  destruct (Z.ltb_spec a 0); [reflexivity|]. destruct (Z.ltb_spec len b); [reflexivity|]. lia.
Qed.

Theorem slice_missing_bound : forall cd b hs,
  getslicearg cd BNone b hs = Err IndexError /\
  (forall a, ssize_ok a = true -> getslicearg cd (BInt a) BNone hs = Err IndexError).
Proof.
  intros. split; [reflexivity|]. intros a Ha. unfold getslicearg, bound_value. rewrite Ha. reflexivity.
Qed.

(* a pointer cdata that does not own its memory, to items of isz bytes (not void * ) *)
Definition ptr (addr isz : Z) : cdata := mkcd (KPtr false) addr isz false.

Theorem add_pointer : forall cd i, ssize_ok i = true -> 0 <= c_isz cd ->
  add_or_sub cd i 1 = Ok (mkcd (KPtr false) (wrap64 (c_data cd + i * c_isz cd)) (c_isz cd) (c_voidp cd)).
Proof.
  intros cd i Hi Hs. unfold add_or_sub. rewrite Hi. cbn [negb].
  destruct (Z.ltb_spec (c_isz cd) 0); [lia|].
  rewrite Z.mul_1_r, to_ssize_small by (apply ssize_ok_iff; assumption). reflexivity.
Qed.

Theorem index_pointer : forall addr isz i, ssize_ok i = true -> addr <> 0 ->
  get_indexed_ptr (ptr addr isz) i = Ok (wrap64 (addr + i * isz)).
Proof.
  intros addr isz i Hi Ha. unfold get_indexed_ptr. rewrite Hi. cbn.
  destruct (Z.eqb_spec addr 0); [contradiction|reflexivity].
Qed.

(* the regenerated arithmetic of cdata_sub (gen_sub_prog): signed remainder test, signed division *)
Lemma sub_arith_signed d s :
  sub_arith gen_sub_prog d s =
  if 1 <? s then if negb (cmod d s =? 0) then Err ValueError else Ok (cdiv d s) else Ok d.
Proof. reflexivity. Qed.

(* with the signed test and division of gen_sub_prog the guard `itemsize > 1` is only a shortcut:
   the difference is the exact quotient of the byte distance, or ValueError *)
Lemma ptr_sub_quot v w o : c_kind v = KPtr o -> 0 < c_isz w ->
  ptr_sub v w =
  let d := to_ssize (c_data v - c_data w) in
  if Z.rem d (c_isz w) =? 0 then Ok (Z.quot d (c_isz w)) else Err ValueError.
Proof.
  intros Hk Hs. unfold ptr_sub. rewrite Hk.
  destruct (Z.leb_spec (c_isz w) 0); [lia|]. cbn [andb]. rewrite sub_arith_signed. cbv zeta. unfold cmod, cdiv.
  destruct (Z.ltb_spec 1 (c_isz w)); [destruct (Z.rem _ _ =? 0); reflexivity|].
  replace (c_isz w) with 1 by lia. rewrite Z.rem_1_r, Z.quot_1_r. reflexivity.
Qed.

Lemma ptr_sub_exact v w o k : c_kind v = KPtr o -> 0 < c_isz w ->
  (ptr_sub v w = Ok k <-> to_ssize (c_data v - c_data w) = k * c_isz w).
Proof.
  intros Hk Hs. rewrite (ptr_sub_quot v w o Hk Hs). cbv zeta.
  set (d := to_ssize (c_data v - c_data w)). set (s := c_isz w) in *.
  pose proof (Z.quot_rem' d s) as QR.
  destruct (Z.eqb_spec (Z.rem d s) 0) as [E|E]; split; intros H.
  - injection H as <-. lia.
  - rewrite H, Z.quot_mul by lia. reflexivity.
  - discriminate.
  - exfalso. apply E. rewrite H. apply Z.rem_mul. lia.
Qed.

Theorem sub_int_is_add_neg : forall cd i, ssize_ok i = true -> ssize_ok (- i) = true ->
  add_or_sub cd i (-1) = add_or_sub cd (- i) 1.
Proof.
  intros cd i H1 H2. unfold add_or_sub. rewrite H1, H2.
  replace (i * -1) with (- i) by lia. rewrite Z.mul_1_r. reflexivity.
Qed.

(* the overflow test of direct_typeoffsetof: a wrapped product that divides back to i has not wrapped *)
Lemma quot_check_exact : forall o s i k, 0 < s < 2 ^ 63 -> o = i * s + k * 2 ^ 64 ->
  Z.quot o s = i -> o = i * s.
Proof.
  intros o s i k Hs Ho Hq.
  pose proof (Z.quot_rem' o s) as D. rewrite Hq in D.
  pose proof (Z.rem_bound_abs o s ltac:(lia)) as R.
  (* 2^63 as an opaque h, 2^64 as 2 * h: the arithmetic below is over h *)
  change (2 ^ 64) with (2 * 2 ^ 63) in Ho. generalize dependent (2 ^ 63). intros h Hs Ho.
  assert (k = 0) as -> by (apply (small_multiple (2 * h)); lia). lia.
Qed.

Lemma offsetof_unfold : forall isz i, 0 < isz -> ssize_ok i = true ->
  offsetof_index isz i =
  if cdiv (to_ssize (i * isz)) isz =? i then Ok (to_ssize (i * isz)) else Err OverflowError.
Proof.
  intros isz i Hs Hi. unfold offsetof_index, typeoffsetof_index. rewrite Hi. cbn [negb].
  destruct (Z.ltb_spec isz 0); [lia|]. destruct (Z.eqb_spec isz 0); [lia|].
  destruct (cdiv (to_ssize (i * isz)) isz =? i); reflexivity.
Qed.

Theorem offsetof_complete : forall isz i, 0 < isz -> ssize_ok i = true ->
  - 2 ^ 63 <= i * isz < 2 ^ 63 -> offsetof_index isz i = Ok (i * isz).
Proof.
  intros isz i Hs Hi Hp. rewrite offsetof_unfold, to_ssize_small by assumption.
  unfold cdiv. rewrite Z.quot_mul, Z.eqb_refl by lia. reflexivity.
Qed.

(* the overflow test of direct_typeoffsetof decides exactly whether i * isz is a Py_ssize_t *)
Theorem offsetof_spec : forall isz i, 0 < isz < 2 ^ 63 -> ssize_ok i = true ->
  offsetof_index isz i =
  if (- 2 ^ 63 <=? i * isz) && (i * isz <? 2 ^ 63) then Ok (i * isz) else Err OverflowError.
Proof.
  intros isz i Hs Hi. fold (ssize_ok (i * isz)). destruct (ssize_ok (i * isz)) eqn:Hp.
  - apply offsetof_complete; [lia|exact Hi|apply ssize_ok_iff, Hp].
  - rewrite offsetof_unfold by (lia || assumption).
    destruct (Z.eqb_spec (cdiv (to_ssize (i * isz)) isz) i) as [E|E]; [|reflexivity].
    destruct (to_ssize_spec (i * isz)) as (k & Hk & B).
    rewrite (quot_check_exact _ _ _ k Hs Hk E) in B. apply ssize_ok_iff in B. congruence.
Qed.

Theorem offsetof_sound : forall isz i o, 0 < isz < 2 ^ 63 ->
  offsetof_index isz i = Ok o -> o = i * isz.
Proof.
  intros isz i o Hs H.
  assert (ssize_ok i = true) as Hi.
  { unfold offsetof_index, typeoffsetof_index in H. destruct (ssize_ok i); [reflexivity|discriminate]. }
  rewrite offsetof_spec in H by assumption. destruct (_ && _); congruence.
Qed.

Theorem offsetof_overflow : forall isz i, 0 < isz < 2 ^ 63 -> ssize_ok i = true ->
  ~ (- 2 ^ 63 <= i * isz < 2 ^ 63) -> offsetof_index isz i = Err OverflowError.
Proof.
  intros isz i Hs Hi Hp. rewrite offsetof_spec by assumption. fold (ssize_ok (i * isz)).
  destruct (ssize_ok (i * isz)) eqn:E; [apply ssize_ok_iff in E; contradiction|reflexivity].
Qed.

Lemma inside_iff : forall base mem a len,
  inside base mem a len = true <-> base <= a /\ a + len <= base + Z.of_nat (length mem).
Proof. intros. unfold inside. rewrite andb_true_iff, !Z.leb_le. tauto. Qed.

Lemma inside_nat : forall base mem a n, inside base mem a (Z.of_nat n) = true ->
  (Z.to_nat (a - base) + n <= length mem)%nat.
Proof. intros base mem a n H. apply inside_iff in H. lia. Qed.

(* accesses inside the allocation succeed; a write keeps the size.  mread and mwrite are C03's
   unit_at and splice at offset a - base *)
Lemma mread_inside : forall base mem a len, 0 <= len -> base <= a -> a + len <= base + Z.of_nat (length mem) ->
  exists bs, mread base mem a len = Some bs /\ Z.of_nat (length bs) = len.
Proof.
  intros base mem a len Hl H1 H2. assert (inside base mem a len = true) as Hi by (apply inside_iff; split; assumption).
  unfold mread. rewrite Hi. exists (C03.Mem.unit_at (Z.to_nat (a - base)) (Z.to_nat len) mem). split; [reflexivity|].
  rewrite <- (Z2Nat.id len Hl) in Hi. rewrite C03.MemProofs.unit_at_length by exact (inside_nat _ _ _ _ Hi).
  apply Z2Nat.id, Hl.
Qed.

Lemma mwrite_splice : forall base mem a bs m, mwrite base mem a bs = Some m ->
  m = C03.Mem.splice (Z.to_nat (a - base)) bs mem /\ (Z.to_nat (a - base) + length bs <= length mem)%nat.
Proof.
  intros base mem a bs m. unfold mwrite. destruct (inside base mem a (Z.of_nat (length bs))) eqn:Hi; [|discriminate].
  intros [= <-]. split; [reflexivity|exact (inside_nat _ _ _ _ Hi)].
Qed.

Lemma mwrite_inside : forall base mem a bs, base <= a -> a + Z.of_nat (length bs) <= base + Z.of_nat (length mem) ->
  exists m, mwrite base mem a bs = Some m /\ length m = length mem.
Proof.
  intros base mem a bs H1 H2.
  assert (inside base mem a (Z.of_nat (length bs)) = true) as Hi by (apply inside_iff; split; assumption).
  unfold mwrite. rewrite Hi. exists (C03.Mem.splice (Z.to_nat (a - base)) bs mem). split; [reflexivity|].
  apply C03.MemProofs.splice_length, (inside_nat _ _ _ _ Hi).
Qed.

Section History.
Variable base : Z.          (* address of the owned array *)
Variable S : Z.             (* item size *)
Hypothesis S_nonneg : 0 <= S.

Definition view_ok (nbytes : Z) (cd : cdata) : Prop :=
  exists len, c_kind cd = KArr len /\ c_isz cd = S /\ 0 <= len /\
              base <= c_data cd /\ c_data cd + len * S <= base + nbytes.

(* array views lie inside the base allocation; pointer views (results of p+i, p-i, addressof) are
   unconstrained: they are plain addresses *)
Definition view_inv (nbytes : Z) (cd : cdata) : Prop :=
  match c_kind cd with KArr _ => view_ok nbytes cd | KPtr _ => True end.

Definition inv (st : state) : Prop :=
  0 <= base /\ base + Z.of_nat (length (s_mem st)) < 2 ^ 64 /\
  Forall (view_inv (Z.of_nat (length (s_mem st)))) (s_views st).

(* what every guarded step keeps: the invariant, the escape flag, the size of the memory *)
Definition kept (st st' : state) : Prop :=
  inv st' /\ s_escaped st' = s_escaped st /\ length (s_mem st') = length (s_mem st).

Lemma kept_refl : forall st, inv st -> kept st st.
Proof. intros st H. split; [exact H|split; reflexivity]. Qed.

Lemma kept_trans : forall st1 st2 st3, kept st1 st2 -> kept st2 st3 -> kept st1 st3.
Proof. intros st1 st2 st3 (_ & E1 & L1) (I & E2 & L2). split; [exact I|split; congruence]. Qed.

Definition conv_okb (c : conv) : bool :=
  match c with Ok bs => Z.of_nat (length bs) =? S | Err _ => true end.
Definition source_okb (v : source) : bool :=
  match v with SList items => forallb conv_okb items | _ => true end.

(* Histories: ANY operation, pointer arithmetic and addressof included; the only restriction is that
   memory is reached (index, slice, slice assignment) through ARRAY views — a raw pointer obtained by
   arithmetic can be dereferenced anywhere, as in C, and is outside the property's bounds claim.
   The guard is decidable and evaluated along the run. *)
Definition is_arrb (st : state) (v : nat) : bool :=
  match nth_error (s_views st) v with
  | Some cd => match c_kind cd with KArr _ => true | KPtr _ => false end
  | None => true
  end.
Definition safe_opb (st : state) (o : op) : bool :=
  match o with
  | OIndexRead v _ => is_arrb st v
  | OIndexWrite v _ c => is_arrb st v && conv_okb c
  | OSlice v _ _ _ => is_arrb st v
  | OAssSlice v _ _ _ _ src => is_arrb st v && source_okb src
  | OAdd _ _ | OSubInt _ _ | OPtrSub _ _ | OAddressof _ _ => true
  end.
Fixpoint safe_runb (st : state) (ops : list op) : bool :=
  match ops with
  | [] => true
  | o :: r => safe_opb st o && safe_runb (fst (step base st o)) r
  end.

Lemma view_len_small : forall nbytes cd len, view_ok nbytes cd -> c_kind cd = KArr len ->
  0 < S -> nbytes < 2 ^ 63 * Z.max S 1 -> len < 2 ^ 63.
Proof.
  intros nbytes cd len [l [Hk [_ [Hl [Hb He]]]]] Hk' HS Hn. rewrite Hk in Hk'. inversion Hk'; subst l.
  rewrite Z.max_l in Hn by lia. nia.
Qed.

(* the only non-linear fact below: x items, then k more, out of len items of S bytes *)
Lemma items_range : forall x k len, 0 <= x -> 0 <= k -> x + k <= len ->
  0 <= S * x /\ S * x + k * S <= len * S.
Proof using S_nonneg.
  intros x k len Hx Hk H. split; [apply Z.mul_nonneg_nonneg; assumption|].
  replace (S * x + k * S) with ((x + k) * S) by ring. apply Z.mul_le_mono_nonneg_r; assumption.
Qed.

Lemma view_items_inside : forall nbytes cd len x k,
  0 <= base -> base + nbytes < 2 ^ 64 -> view_ok nbytes cd -> c_kind cd = KArr len ->
  0 <= x -> 0 <= k -> x + k <= len ->
  wrap64 (c_data cd + S * x) = c_data cd + S * x /\
  base <= c_data cd + S * x /\ c_data cd + S * x + k * S <= base + nbytes.
Proof using S_nonneg.
  intros nbytes cd len x k Hb Hn (len' & Hk' & _ & _ & Hlo & Hhi) Hk Hx Hk0 H.
  rewrite Hk in Hk'. injection Hk' as <-. destruct (items_range x k len Hx Hk0 H).
  assert (0 <= k * S) by (apply Z.mul_nonneg_nonneg; assumption).
  rewrite wrap64_small by lia. lia.
Qed.

Lemma index_inside : forall nbytes cd i a,
  0 <= base -> base + nbytes < 2 ^ 64 -> view_ok nbytes cd ->
  get_indexed_ptr cd i = Ok a ->
  a = c_data cd + i * S /\ base <= a /\ a + S <= base + nbytes.
Proof using S_nonneg.
  intros nbytes cd i a Hb Hn Hcd H. pose proof Hcd as (len & Hk & Hs & _).
  unfold get_indexed_ptr in H. destruct (ssize_ok i); cbn [negb] in H; [|discriminate].
  rewrite Hk, Hs in H.
  destruct (Z.ltb_spec i 0); [discriminate|]. destruct (Z.leb_spec len i); [discriminate|].
  injection H as <-.
  destruct (view_items_inside nbytes cd len i 1 Hb Hn Hcd Hk) as (Hw & Hlo & Hhi); try lia.
  rewrite (Z.mul_comm i S), Hw. lia.
Qed.

Lemma slice_inside : forall nbytes cd a b hs r,
  0 <= base -> base + nbytes < 2 ^ 64 -> view_ok nbytes cd ->
  getslicearg cd a b hs = Ok r ->
  0 <= fst r /\ 0 <= snd r /\
  wrap64 (c_data cd + S * fst r) = c_data cd + S * fst r /\
  base <= c_data cd + S * fst r /\ c_data cd + S * fst r + snd r * S <= base + nbytes.
Proof using S_nonneg.
  intros nbytes cd a b hs r Hb Hn Hcd H. pose proof Hcd as (len & Hk & _).
  unfold getslicearg in H.
  destruct (bound_value a) as [x|]; [|discriminate].
  destruct (bound_value b) as [y|]; [|discriminate].
  destruct hs; [discriminate|]. destruct (Z.ltb_spec y x); [discriminate|].
  rewrite Hk in H. destruct (Z.ltb_spec x 0); [discriminate|].
  destruct (Z.ltb_spec len y); [discriminate|]. injection H as <-. cbn [fst snd].
  split; [assumption|]. split; [lia|]. apply (view_items_inside nbytes cd len); assumption || lia.
Qed.

Lemma store_items_ok : forall n mem esc a items m esc' e,
  forallb conv_okb items = true ->
  base <= a -> a + Z.of_nat n * S <= base + Z.of_nat (length mem) ->
  store_items base mem esc a S n items = (m, esc', e) ->
  length m = length mem /\ esc' = esc.
Proof using S_nonneg.
  induction n as [|n IH]; intros mem esc a items m esc' e Hc Hlo Hhi H; cbn [store_items] in H.
  - inversion H; subst; auto.
  - destruct items as [|c rest]; [inversion H; subst; auto|].
    destruct (andb_prop _ _ Hc) as [Hc1 Hc2].
    destruct c as [bs|ex]; [|inversion H; subst; auto].
    apply (proj1 (Z.eqb_eq _ _)) in Hc1. rewrite Nat2Z.inj_succ, Z.mul_succ_l in Hhi.
    pose proof (Z.mul_nonneg_nonneg _ _ (Nat2Z.is_nonneg n) S_nonneg).
    destruct (mwrite_inside base mem a bs) as [m1 [Hw Hlen]]; [assumption|lia|]. rewrite Hw in H.
    apply IH in H; [rewrite Hlen in H; exact H|assumption|lia|rewrite Hlen; lia].
Qed.

Lemma copy_items_ok : forall n mem esc dst src k m esc' e,
  base <= dst -> dst + Z.of_nat n * S <= base + Z.of_nat (length mem) ->
  base <= src -> src + Z.of_nat k * S <= base + Z.of_nat (length mem) ->
  copy_items base mem esc dst src S n k = (m, esc', e) ->
  length m = length mem /\ esc' = esc.
Proof using S_nonneg.
  induction n as [|n IH]; intros mem esc dst src k m esc' e Hd1 Hd2 Hs1 Hs2 H; cbn [copy_items] in H.
  - inversion H; subst; auto.
  - destruct k as [|k]; [inversion H; subst; auto|].
    rewrite Nat2Z.inj_succ, Z.mul_succ_l in Hd2, Hs2.
    pose proof (Z.mul_nonneg_nonneg _ _ (Nat2Z.is_nonneg n) S_nonneg).
    pose proof (Z.mul_nonneg_nonneg _ _ (Nat2Z.is_nonneg k) S_nonneg).
    destruct (mread_inside base mem src S) as [bs [Hr Hlen]]; [assumption|assumption|lia|]. rewrite Hr in H.
    destruct (mwrite_inside base mem dst bs) as [m1 [Hw Hl1]]; [assumption|lia|]. rewrite Hw in H.
    apply IH in H; [rewrite Hl1 in H; exact H|lia|rewrite Hl1; lia|lia|rewrite Hl1; lia].
Qed.

Lemma view_ok_lookup : forall st k cd len, inv st -> nth_error (s_views st) k = Some cd ->
  c_kind cd = KArr len -> view_ok (Z.of_nat (length (s_mem st))) cd.
Proof.
  intros st k cd len [_ [_ Hv]] H Hk. rewrite Forall_forall in Hv.
  specialize (Hv cd (nth_error_In _ _ H)). unfold view_inv in Hv. rewrite Hk in Hv. exact Hv.
Qed.

Lemma is_arrb_kind : forall st v cd, is_arrb st v = true -> nth_error (s_views st) v = Some cd ->
  exists len, c_kind cd = KArr len.
Proof.
  intros st v cd H Hv. unfold is_arrb in H. rewrite Hv in H.
  destruct (c_kind cd) as [len|o]; [eexists; reflexivity|discriminate].
Qed.

Lemma safe_view : forall st v cd, inv st -> is_arrb st v = true -> nth_error (s_views st) v = Some cd ->
  view_ok (Z.of_nat (length (s_mem st))) cd.
Proof.
  intros st v cd Hinv Harr Hv. destruct (is_arrb_kind st v cd Harr Hv) as [len Hk].
  exact (view_ok_lookup st v cd len Hinv Hv Hk).
Qed.

Lemma inv_mem : forall st m esc, inv st -> length m = length (s_mem st) -> inv (mkst m (s_views st) esc).
Proof. intros st m esc Hinv Hl. unfold inv. cbn [s_mem s_views]. rewrite Hl. exact Hinv. Qed.

Lemma ass_slice_ok : forall st cd a b hs ic v st' e,
  inv st -> view_ok (Z.of_nat (length (s_mem st))) cd -> source_okb v = true ->
  ass_slice base st cd a b hs ic v = (st', e) ->
  length (s_mem st') = length (s_mem st) /\ s_views st' = s_views st /\ s_escaped st' = s_escaped st.
Proof using S_nonneg.
  intros st cd a b hs ic v st' e Hinv Hcd Hv H.
  pose proof Hinv as (Hb & Hn & _).
  unfold ass_slice in H.
  destruct (getslicearg cd a b hs) as [[x n]|ex] eqn:Eg; [|injection H as <- _; auto].
  pose proof (slice_inside _ _ _ _ _ _ Hb Hn Hcd Eg) as (Hx & Hnn & Hw & Hlo & Hhi). cbn [fst snd] in *.
  pose proof Hcd as (len & Hk & Hs & _). rewrite Hs, Hw in H.
  destruct v as [items|bs|k|].
  - (* any iterable *)
    destruct (store_items base (s_mem st) (s_escaped st) (c_data cd + S * x) S (Z.to_nat n) items)
      as [[m esc] e1] eqn:E. injection H as <- _. cbn [s_mem s_views s_escaped].
    apply store_items_ok in E; [|exact Hv|lia|rewrite Z2Nat.id by lia; lia].
    destruct E as [E1 E2]. auto.
  - (* bytes *)
    destruct (ic && (S =? 1)) eqn:Ec; [|injection H as <- _; auto].
    apply andb_prop in Ec. destruct Ec as [_ Ec]. apply Z.eqb_eq in Ec. rewrite Ec, Z.mul_1_r in Hhi.
    destruct (Z.eqb_spec (Z.of_nat (length bs)) n) as [En|En]; cbn [negb] in H;
      [|injection H as <- _; auto].
    destruct (mwrite_inside base (s_mem st) (c_data cd + S * x) bs) as [m1 [Hw1 Hl1]]; [assumption|lia|].
    rewrite Hw1 in H. injection H as <- _. cbn [s_mem s_views s_escaped]. auto.
  - (* a cdata source: an array view (a pointer is not iterable: TypeError) *)
    destruct (nth_error (s_views st) k) as [src|] eqn:Ek; [|injection H as <- _; auto].
    destruct (c_kind src) as [slen|ow] eqn:Hsk; [|injection H as <- _; auto].
    pose proof (view_ok_lookup _ _ _ _ Hinv Ek Hsk) as Hsrc.
    pose proof Hsrc as (slen' & Hsk' & _ & Hsl & _). rewrite Hsk in Hsk'. injection Hsk' as <-.
    destruct (view_items_inside _ src slen 0 slen Hb Hn Hsrc Hsk) as (_ & Hslo & Hshi); try lia.
    rewrite Z.mul_0_r, Z.add_0_r in Hslo, Hshi.
    destruct (Z.eqb_spec slen n) as [En|En].
    + subst slen. rewrite (Z.mul_comm S n) in H.
      destruct (mread_inside base (s_mem st) (c_data src) (n * S)) as [bs [Hr Hlen]];
        [apply Z.mul_nonneg_nonneg; assumption|assumption|assumption|]. rewrite Hr in H.
      destruct (mwrite_inside base (s_mem st) (c_data cd + S * x) bs) as [m1 [Hw1 Hl1]]; [assumption|lia|].
      rewrite Hw1 in H. injection H as <- _. cbn [s_mem s_views s_escaped]. auto.
    + destruct (copy_items base (s_mem st) (s_escaped st) (c_data cd + S * x) (c_data src) S
                           (Z.to_nat n) (Z.to_nat slen)) as [[m esc] e1] eqn:E.
      injection H as <- _. cbn [s_mem s_views s_escaped].
      apply copy_items_ok in E; [destruct E; auto|lia|rewrite Z2Nat.id by lia; lia|lia|
                                 rewrite Z2Nat.id by lia; lia].
  - injection H as <- _. auto.
Qed.

Lemma push_view_ok : forall st r st' out, inv st ->
  (forall cd, r = Ok cd -> view_inv (Z.of_nat (length (s_mem st))) cd) ->
  of_cd st r = (st', out) -> kept st st'.
Proof.
  intros st r st' out Hinv Hk H.
  destruct r as [cd|e]; cbn [of_cd push] in H; injection H as <- _; [|exact (kept_refl st Hinv)].
  split; [|split; reflexivity]. destruct Hinv as (Hb & Hn & Hv).
  unfold inv. cbn [s_mem s_views]. repeat split; try assumption.
  apply Forall_app. split; [assumption|]. constructor; [exact (Hk cd eq_refl)|constructor].
Qed.

Lemma push_pointer_ok : forall st r st' out, inv st ->
  (forall cd, r = Ok cd -> exists o, c_kind cd = KPtr o) ->
  of_cd st r = (st', out) -> kept st st'.
Proof.
  intros st r st' out Hinv Hk. apply push_view_ok; [exact Hinv|].
  intros cd Hcd. destruct (Hk cd Hcd) as [o Ho]. unfold view_inv. rewrite Ho. exact I.
Qed.

Lemma add_or_sub_kind : forall cd w sg q, add_or_sub cd w sg = Ok q -> exists o, c_kind q = KPtr o.
Proof.
  intros cd w sg q H. unfold add_or_sub in H. destruct (negb (ssize_ok w)); [discriminate|].
  destruct (if c_isz cd <? 0 then if c_voidp cd then Some 1 else None else Some (c_isz cd));
    [|discriminate]. injection H as <-. eexists; reflexivity.
Qed.

Lemma addressof_kind : forall cd i q, addressof_index cd i = Ok q -> exists o, c_kind q = KPtr o.
Proof.
  intros cd i q H. unfold addressof_index in H.
  destruct (typeoffsetof_index (c_isz cd) i); [|discriminate]. injection H as <-. eexists; reflexivity.
Qed.

Lemma step_ok : forall st o st' out, inv st -> safe_opb st o = true -> step base st o = (st', out) ->
  kept st st'.
Proof using S_nonneg.
  intros st o st' out Hinv Hop H.
  pose proof Hinv as (Hb & Hn & _). pose proof (kept_refl st Hinv) as Hst.
  destruct o as [v i|v i c|v a b hs|v a b hs ic src|v w|v w|v w|v i]; cbn [safe_opb] in Hop;
    cbn [step] in H.
  - (* read *)
    destruct (nth_error (s_views st) v) as [cd|] eqn:Ev; [|injection H as <- _; auto].
    pose proof (safe_view st v cd Hinv Hop Ev) as Hcd.
    destruct (get_indexed_ptr cd i) as [p|e] eqn:Eg; [|injection H as <- _; auto].
    destruct (index_inside _ _ _ _ Hb Hn Hcd Eg) as (_ & Hlo & Hhi).
    pose proof Hcd as (len & _ & Hs & _). rewrite Hs in H.
    destruct (mread_inside base (s_mem st) p S S_nonneg Hlo Hhi) as [bs [Hr _]]. rewrite Hr in H.
    injection H as <- _. auto.
  - (* write *)
    apply andb_prop in Hop. destruct Hop as [Harr Hc].
    destruct (nth_error (s_views st) v) as [cd|] eqn:Ev; [|injection H as <- _; auto].
    pose proof (safe_view st v cd Hinv Harr Ev) as Hcd.
    destruct (get_indexed_ptr cd i) as [p|e] eqn:Eg; [|injection H as <- _; auto].
    destruct (index_inside _ _ _ _ Hb Hn Hcd Eg) as (_ & Hlo & Hhi).
    destruct c as [bs|e]; [|injection H as <- _; auto]. rewrite <- (proj1 (Z.eqb_eq _ _) Hc) in Hhi.
    destruct (mwrite_inside base (s_mem st) p bs Hlo Hhi) as [m1 [Hw Hl1]]. rewrite Hw in H.
    injection H as <- _. split; [apply inv_mem; assumption|]. split; [reflexivity|exact Hl1].
  - (* slice: the new view lies inside the old one *)
    destruct (nth_error (s_views st) v) as [cd|] eqn:Ev; [|injection H as <- _; auto].
    pose proof (safe_view st v cd Hinv Hop Ev) as Hcd.
    apply (push_view_ok st (slice cd a b hs) st' out Hinv); [|exact H].
    intros q Hq. unfold slice in Hq. destruct (getslicearg cd a b hs) as [[x n]|e] eqn:Eg; [|discriminate].
    pose proof (slice_inside _ _ _ _ _ _ Hb Hn Hcd Eg) as (Hx & Hnn & Hw & Hlo & Hhi). cbn [fst snd] in *.
    pose proof Hcd as (len & _ & Hs & _). injection Hq as <-.
    exists n. cbn [c_kind c_isz c_data]. rewrite Hs, Hw. auto.
  - (* slice assignment *)
    apply andb_prop in Hop. destruct Hop as [Harr Hsrc].
    destruct (nth_error (s_views st) v) as [cd|] eqn:Ev; [|injection H as <- _; auto].
    pose proof (safe_view st v cd Hinv Harr Ev) as Hcd.
    destruct (ass_slice base st cd a b hs ic src) as [st1 e] eqn:Ea.
    destruct (ass_slice_ok _ _ _ _ _ _ _ _ _ Hinv Hcd Hsrc Ea) as (Hl & Hvw & He).
    assert (st' = st1) as -> by (destruct e; injection H as <- _; reflexivity).
    split; [|split; assumption]. destruct st1 as [m1 vs1 esc1]. cbn [s_mem s_views] in Hl, Hvw.
    subst vs1. apply inv_mem; assumption.
  - (* p + i *)
    destruct (nth_error (s_views st) v) as [cd|] eqn:Ev; [|injection H as <- _; auto].
    exact (push_pointer_ok st _ st' out Hinv (add_or_sub_kind cd w 1) H).
  - (* p - i *)
    destruct (nth_error (s_views st) v) as [cd|] eqn:Ev; [|injection H as <- _; auto].
    exact (push_pointer_ok st _ st' out Hinv (add_or_sub_kind cd w (-1)) H).
  - (* p - q *)
    assert (st' = st) as -> by
      (destruct (nth_error (s_views st) v) as [x|]; destruct (nth_error (s_views st) w) as [y|];
       try destruct (ptr_sub x y); injection H as <- _; reflexivity).
    auto.
  - (* addressof *)
    destruct (nth_error (s_views st) v) as [cd|] eqn:Ev; [|injection H as <- _; auto].
    exact (push_pointer_ok st _ st' out Hinv (addressof_kind cd i) H).
Qed.

Theorem history_invariant : forall ops st st' outs,
  inv st -> safe_runb st ops = true -> run base st ops = (st', outs) -> kept st st'.
Proof using S_nonneg.
  induction ops as [|o r IH]; intros st st' outs Hinv Hops H; cbn [run] in H.
  - injection H as <- _. exact (kept_refl st Hinv).
  - cbn [safe_runb] in Hops. apply andb_prop in Hops. destruct Hops as [Ho Hr].
    destruct (step base st o) as [st1 out] eqn:E1. cbn [fst] in Hr.
    destruct (run base st1 r) as [st2 outs2] eqn:E2.
    injection H as <- _.
    pose proof (step_ok _ _ _ _ Hinv Ho E1) as K1.
    exact (kept_trans _ _ _ K1 (IH _ _ _ (proj1 K1) Hr E2)).
Qed.

(* the state right after ffi.new("T[n]"): one owned array of n items *)
Definition initial (mem : list Z) (n : Z) : state := mkst mem [arr n base S] false.

Lemma initial_inv : forall mem n, 0 <= n -> Z.of_nat (length mem) = n * S ->
  0 <= base -> base + n * S < 2 ^ 64 -> inv (initial mem n).
Proof.
  intros mem n Hn Hl Hb Hh. unfold inv, initial. cbn [s_mem s_views]. rewrite Hl.
  repeat split; auto. constructor; [|constructor].
  unfold view_inv. cbn [c_kind arr]. exists n. cbn. repeat split; auto; lia.
Qed.

(* After ANY sequence of operations — index, slice, slice assignment (from iterables, bytes or other
   views, overlapping or not), p+i, p-i, p-q, addressof — in which memory is reached only through
   array views (safe_runb): no accepted access touched a byte outside the owned array, the memory
   kept its size, and every array view derived so far lies inside the base array. *)
Theorem views_stay_inside : forall mem n ops st' outs,
  0 <= n -> Z.of_nat (length mem) = n * S -> 0 <= base -> base + n * S < 2 ^ 64 ->
  n * S < 2 ^ 63 * Z.max S 1 ->
  safe_runb (initial mem n) ops = true -> run base (initial mem n) ops = (st', outs) ->
  s_escaped st' = false /\ length (s_mem st') = length mem /\
  Forall (view_inv (n * S)) (s_views st').
Proof.
  (* the bound on n * S is not needed *)
  intros mem n ops st' outs Hn Hl Hb Hh _ Hops H.
  destruct (history_invariant ops _ _ _ (initial_inv mem n Hn Hl Hb Hh) Hops H) as [Hi [He Hlen]].
  cbn in He, Hlen. repeat split; auto.
  destruct Hi as [_ [_ Hv]]. rewrite Hlen, Hl in Hv. exact Hv.
Qed.

End History.

