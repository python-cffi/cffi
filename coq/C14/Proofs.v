(* C14 — proofs about the regenerated extern "Python" wrapper arithmetic (Gen.v) against the backend's slot
   protocol (Model.v): agreement on the protocol, buffer safety; the widening of small results; the error/onerror
   protocol of the hand machine `invoke`; the memory of the wrapper's slots, for the exact arrival of the argument
   bytes (Props.C14_externpy_args_exact); the regenerated path facts. *)
From Coq Require Import ZArith NArith List Bool Lia ZifyBool.
Import ListNotations.
From Cffi Require Import Base.Wrap C03.Mem C03.MemProofs C14.Spec C14.Gen C14.Model.
Open Scope Z_scope.

(* the regenerated flag set of the dereference test, spelled out per type *)
Lemma backend_deref_table : forall t,
  backend_deref t = match t with
                    | XPrim n _ => name_eqb n LONG_DOUBLE
                    | XStruct _ | XUnion _ => true
                    | _ => false
                    end.
Proof.
  intros []; try reflexivity.
  unfold backend_deref, gic_deref_longdouble, gic_deref_other. cbn [andb]. apply orb_false_r.
Qed.

Lemma byref_agrees : forall t, arg_by_reference t = backend_deref t.
Proof. intro t. rewrite backend_deref_table. destruct t; reflexivity. Qed.

Lemma slot_agrees : forall i, slot_offset i = backend_slot i.
Proof. reflexivity. Qed.

Lemma store_read_agree : forall t, store_bytes t = backend_read_bytes t.
Proof. intro t. unfold store_bytes, backend_read_bytes. rewrite byref_agrees. reflexivity. Qed.

Lemma size_of_a_num_lower : forall n r, Z.max (n * 8) 8 <= size_of_a_num n r.
Proof.
  intros n r. unfold size_of_a_num.
  destruct (orb _ _); lia.
Qed.

Lemma size_of_a_lower : forall n r, Z.max (n * 8) 8 <= size_of_a n r /\ size_of_a_num n r <= size_of_a n r.
Proof.
  intros n r. unfold size_of_a. pose proof (size_of_a_num_lower n r).
  destruct (isinstance_StructOrUnion r); [destruct (sizeof r >? size_of_a_num n r) eqn:E |]; lia.
Qed.

Lemma tp_name_is_spec : forall n s lit, tp_name_is (XPrim n s) lit = true <-> n = lit.
Proof. intros. cbn. apply name_eqb_eq. Qed.

Lemma store_bytes_le8 : forall t, wf_xtype t -> is_double_complex t = false -> 0 <= store_bytes t <= 8.
Proof.
  intros t W NC. unfold store_bytes. rewrite byref_agrees, backend_deref_table.
  destruct t as [| n s | s | s | | s]; cbn in *; try lia.
  destruct (name_eqb n LONG_DOUBLE) eqn:E1; [lia |].
  destruct W as (W1 & W2 & W3).
  assert (N1 : n <> LONG_DOUBLE) by (intro Q; apply name_eqb_eq in Q; congruence).
  assert (N2 : n <> DOUBLE_COMPLEX) by (intro Q; apply name_eqb_eq in Q; unfold is_double_complex in NC; cbn in NC; congruence).
  specialize (W3 N1 N2). lia.
Qed.

Lemma result_fits : forall n r, wf_xtype r ->
  result_write_bytes r <= size_of_a n r /\ size_of_result r <= size_of_a n r.
Proof.
  intros n r W.
  pose proof (size_of_a_lower n r) as [L1 L2].
  unfold result_write_bytes, size_of_result.
  destruct r as [| nm s | s | s | | s]; cbn [isinstance_VoidType sizeof] in *; try lia.
  - (* primitive *)
    destruct W as (W1 & W2 & W3).
    destruct (name_eqb nm LONG_DOUBLE) eqn:E1; [| destruct (name_eqb nm DOUBLE_COMPLEX) eqn:E2].
    + assert (s <= 16) by (apply W2; left; apply name_eqb_eq; exact E1).
      assert (16 <= size_of_a_num n (XPrim nm s)).
      { unfold size_of_a_num, may_need_128_bits. cbn. fold LONG_DOUBLE. rewrite E1. cbn. lia. }
      lia.
    + assert (s <= 16) by (apply W2; right; apply name_eqb_eq; exact E2).
      assert (16 <= size_of_a_num n (XPrim nm s)).
      { unfold size_of_a_num, may_need_128_bits. cbn. fold LONG_DOUBLE. fold DOUBLE_COMPLEX. rewrite E1, E2. cbn. lia. }
      lia.
    + assert (s <= 8).
      { apply W3; intro H; apply name_eqb_eq in H; congruence. }
      lia.
  - (* struct *)
    unfold size_of_a in *. cbn [isinstance_StructOrUnion sizeof] in *.
    destruct (s >? size_of_a_num n (XStruct s)) eqn:E; lia.
  - (* union *)
    unfold size_of_a in *. cbn [isinstance_StructOrUnion sizeof] in *.
    destruct (s >? size_of_a_num n (XUnion s)) eqn:E; lia.
  - (* enum *) cbn in W. lia.
Qed.

Theorem externpy_buffer_safe : forall args res,
  Forall wf_xtype args -> wf_xtype res ->
  Forall (fun a => is_double_complex a = false) args ->
  let A := size_of_a (Z.of_nat (length args)) res in
  (forall i a, nth_error args i = Some a ->
       0 <= slot_offset (Z.of_nat i) /\
       slot_offset (Z.of_nat i) + store_bytes a <= A /\
       slot_offset (Z.of_nat i) + store_bytes a <= slot_offset (Z.of_nat (S i))) /\
  result_write_bytes res <= A /\ size_of_result res <= A.
Proof.
  intros args res Wa Wr NC A. split.
  - intros i a H.
    assert (Hi : (i < length args)%nat) by (apply nth_error_Some; congruence).
    pose proof (nth_error_In _ _ H) as IN.
    rewrite Forall_forall in Wa, NC.
    pose proof (store_bytes_le8 a (Wa a IN) (NC a IN)) as B.
    pose proof (size_of_a_lower (Z.of_nat (length args)) res) as [L1 L2]. fold A in L1.
    unfold slot_offset. repeat split; lia.
  - apply result_fits; exact Wr.
Qed.

(* Model.le_bytes and Model.decode are C03.Mem's encode_le and decode_le, written again *)
Lemma decode_le_bytes : forall n v, decode (le_bytes n v) = v mod 2 ^ (8 * Z.of_nat n).
Proof. exact decode_encode_le. Qed.

Lemma decode_zeros : forall m, decode (repeat 0 m) = 0.
Proof. induction m as [| m IHm]; [reflexivity |]. cbn [repeat decode]. rewrite IHm. reflexivity. Qed.

Lemma decode_app_zeros : forall l m, decode (l ++ repeat 0 m) = decode l.
Proof.
  induction l as [| b l IH]; intro m.
  - cbn [app]. apply decode_zeros.
  - cbn [app decode]. rewrite IH. reflexivity.
Qed.

Lemma firstn_le_bytes : forall n m v, firstn n (le_bytes (n + m) v) = le_bytes n v.
Proof. intros n m v. apply firstn_encode_le. lia. Qed.

Lemma le_bytes_length : forall n v, length (le_bytes n v) = n.
Proof. exact length_encode_le. Qed.

Lemma fficallback_int : forall encode k z w, fficallback encode k (RetInt z) = Some w ->
  match k with
  | RSigned s => w = if Nat.ltb s FFI_ARG && encode then le_bytes FFI_ARG (z mod 2 ^ 64)
                     else le_bytes s (z mod 2 ^ (8 * Z.of_nat s))
  | RZeroExt s => w = if Nat.ltb s FFI_ARG && encode then le_bytes s z ++ repeat 0 (FFI_ARG - s) else le_bytes s z
  | RVoid | ROther _ => False
  end.
Proof.
  intros encode k z w. unfold fficallback, fficallback_full.
  destruct k as [| s | s | s]; try discriminate; destruct (in_range _ z); try discriminate;
    destruct (_ && _); intros [= <-]; reflexivity.
Qed.

(* the integer sizes below sizeof(ffi_arg) = 8 *)
Definition small (s : nat) : Prop := s = 1%nat \/ s = 2%nat \/ s = 4%nat.

Lemma small_lt_ffi_arg : forall s, small s -> Nat.ltb s FFI_ARG = true.
Proof. intros s [-> | [-> | ->]]; reflexivity. Qed.

Theorem widening_signed : forall s v w, small s -> in_range (RSigned s) v = true ->
  fficallback true (RSigned s) (RetInt v) = Some w ->
  length w = 8%nat /\
  decode w = v mod 2 ^ 64 /\                                   (* = (unsigned long)(long)v : sign extension *)
  (if decode w <? 2 ^ 63 then decode w else decode w - 2 ^ 64) = v /\
  decode (firstn s w) = v mod 2 ^ (8 * Z.of_nat s).
Proof.
  intros s v w S R H. apply fficallback_int in H. rewrite (small_lt_ffi_arg s S) in H. cbn [andb] in H. subst w.
  split; [apply le_bytes_length |].
  assert (D : decode (le_bytes FFI_ARG (v mod 2 ^ 64)) = v mod 2 ^ 64) by (rewrite decode_le_bytes; apply Zmod_mod).
  rewrite D. split; [reflexivity |].
  assert (s <= 8)%nat by (unfold small in S; lia).
  split.
  - (* the 64-bit reading of v mod 2^64 is v, a value of the s-byte type *)
    assert (B : in_bits true (8 * Z.of_nat s) v) by (unfold in_range in R; unfold in_bits; lia).
    apply (in_bits_wider true _ 64) in B; [|unfold small in S; lia].
    etransitivity; [symmetry; exact (wrap_signed_ltb 64 v eq_refl) | exact (wrap_id true 64 v eq_refl B)].
  - replace FFI_ARG with (s + (8 - s))%nat by (unfold FFI_ARG; lia).
    rewrite firstn_le_bytes, decode_le_bytes. apply mod_mod_pow2. lia.
Qed.

Definition body_value (encode : bool) (k : rkind) (b : body) : option (list Z) :=
  match b with BReturns x => fficallback encode k x | BRaises | BArgFail => None end.

Theorem no_exception_escapes : forall encode k eb b oe buf0,
  pending (invoke encode k eb b oe buf0) = false.
Proof.
  intros. unfold invoke. fold (body_value encode k b).
  destruct (body_value encode k b); [reflexivity |].
  destruct oe; destruct (Nat.ltb 0 (rsize k)); cbn; try reflexivity;
    destruct (fficallback_full encode k x); reflexivity.
Qed.

Theorem protocol_table : forall encode k eb b oe buf0,
  let s := invoke encode k eb b oe buf0 in
  let errbuf := if Nat.ltb 0 (rsize k) then overwrite buf0 eb else buf0 in
  match body_value encode k b with
  | Some w => buf s = overwrite buf0 w /\ printed s = 0%nat                 (* the converted return value, silently *)
  | None =>
      match oe with
      | ONone => buf s = errbuf /\ printed s = 1%nat                         (* error value, one report *)
      | OReturnsNone => buf s = errbuf /\ printed s = 0%nat                  (* error value, handled by onerror *)
      | ORaises => buf s = errbuf /\ printed s = 2%nat                       (* error value, both exceptions reported *)
      | OReturns x =>
          match fficallback_full encode k x with
          | FOk w' => buf s = overwrite errbuf w' /\ printed s = 0%nat      (* onerror's value *)
          | FFail partial =>                    (* both reported; the error value is put back *)
              buf s = (if Nat.ltb 0 (rsize k) then overwrite (overwrite errbuf partial) eb else overwrite errbuf partial)
              /\ printed s = 2%nat
          end
      end
  end.
Proof.
  (* the state is kept a variable with one defining equation while the cases are split: substituted, the body of
     [invoke] would stand at each of the twelve places where the statement mentions [s] *)
  intros. subst errbuf. assert (E : s = invoke encode k eb b oe buf0) by reflexivity. clearbody s. revert E.
  unfold invoke. fold (body_value encode k b).
  destruct (body_value encode k b); [intros ->; split; reflexivity |].
  destruct oe; destruct (Nat.ltb 0 (rsize k)); cbn; try (intros ->; split; reflexivity);
    destruct (fficallback_full encode k x); intros ->; split; reflexivity.
Qed.

Lemma firstn_overwrite : forall n buf w, (n <= length w)%nat -> firstn n (overwrite buf w) = firstn n w.
Proof.
  intros. unfold overwrite. rewrite firstn_app. replace (n - length w)%nat with 0%nat by lia.
  cbn. apply app_nil_r.
Qed.

Lemma fficallback_length : forall encode k e w, fficallback encode k e = Some w ->
  (length w <= Nat.max (rsize k) FFI_ARG)%nat.
Proof.
  intros encode k e w F. destruct e as [| z | bs |].
  - destruct k; try discriminate. injection F as <-. cbn. lia.
  - apply fficallback_int in F. destruct k as [| s | s | s]; try contradiction; subst w; cbn [rsize];
      destruct (_ && _); rewrite ?app_length, ?le_bytes_length, ?repeat_length; lia.
  - destruct k as [| | | s]; try discriminate. unfold fficallback, fficallback_full in F.
    destruct (Nat.eqb_spec (length bs) s); [| discriminate]. injection F as <-. cbn [rsize]. lia.
  - destruct k; discriminate.
Qed.

(* the error value as the C caller reads it: when the result is at least one byte and err_bytes comes from
   prepare_callback_info_tuple, the first rsize bytes are the declared error value (or zeros) *)
Theorem error_value_received : forall encode k error eb b oe buf0,
  rawerr encode k error = Some eb -> (0 < rsize k)%nat ->
  body_value encode k b = None ->
  (oe = ONone \/ oe = OReturnsNone \/ oe = ORaises \/ exists x, oe = OReturns x /\ fficallback encode k x = None) ->
  c_receives k (invoke encode k eb b oe buf0) = firstn (rsize k) eb /\
  length eb = Nat.max (rsize k) FFI_ARG.
Proof.
  intros encode k error eb b oe buf0 HE Hs HB Hoe.
  assert (LEN : length eb = Nat.max (rsize k) FFI_ARG).
  { unfold rawerr in HE. destruct error as [e |].
    - destruct (fficallback encode k e) as [w |] eqn:F; [| discriminate].
      assert (eb = overwrite (repeat 0 (Nat.max (rsize k) FFI_ARG)) w) by congruence. subst eb.
      pose proof (fficallback_length _ _ _ _ F).
      unfold overwrite. rewrite app_length, skipn_length, repeat_length. lia.
    - assert (eb = repeat 0 (Nat.max (rsize k) FFI_ARG)) by congruence. subst eb. apply repeat_length. }
  split; [| exact LEN].
  pose proof (protocol_table encode k eb b oe buf0) as T. cbn zeta in T. rewrite HB in T.
  assert (Hlt : Nat.ltb 0 (rsize k) = true) by (apply Nat.ltb_lt; exact Hs). rewrite Hlt in T.
  unfold c_receives.
  destruct Hoe as [-> | [-> | [-> | [x [-> HX]]]]].
  4: unfold fficallback in HX; destruct (fficallback_full encode k x) as [w | partial]; [discriminate |].
  all: destruct T as [T _]; rewrite T; apply firstn_overwrite; lia.
Qed.

(* byte-addressed memory of the wrapper's `char a[]`; the wrapper stores argument i (its object representation, or
   the address of a by-reference argument) at slot_offset i, in order; the backend then reads backend_read_bytes
   bytes at backend_slot i. *)
Definition bmem := Z -> Z.
Definition bwrite (m : bmem) (off : Z) (bs : list Z) : bmem :=
  fun a => if (off <=? a) && (a <? off + Z.of_nat (length bs)) then nth (Z.to_nat (a - off)) bs 0 else m a.
Definition bread (m : bmem) (off : Z) (n : nat) : list Z := map (fun k => m (off + Z.of_nat k)) (seq 0 n).

Fixpoint wrapper_stores (m : bmem) (i : nat) (args : list (list Z)) : bmem :=
  match args with
  | [] => m
  | bs :: rest => wrapper_stores (bwrite m (slot_offset (Z.of_nat i)) bs) (S i) rest
  end.

Lemma map_nth_seq0 : forall (bs : list Z), map (fun k => nth k bs 0) (seq 0 (length bs)) = bs.
Proof.
  induction bs as [| b bs IH]; [reflexivity |].
  cbn [length seq map nth]. f_equal. rewrite <- seq_shift, map_map. exact IH.
Qed.

Lemma bread_bwrite_same : forall m off bs, bread (bwrite m off bs) off (length bs) = bs.
Proof.
  intros m off bs. unfold bread. rewrite <- (map_nth_seq0 bs) at 2.
  apply map_ext_in. intros k Hk. apply in_seq in Hk. unfold bwrite.
  replace ((off <=? off + Z.of_nat k) && (off + Z.of_nat k <? off + Z.of_nat (length bs))) with true by (symmetry; lia).
  replace (off + Z.of_nat k - off) with (Z.of_nat k) by lia. rewrite Nat2Z.id. reflexivity.
Qed.

Lemma stores_leave_below : forall args m i a, a < slot_offset (Z.of_nat i) ->
  wrapper_stores m i args a = m a.
Proof.
  induction args as [| bs rest IH]; intros m i a Ha; cbn [wrapper_stores]; [reflexivity |].
  rewrite IH by (unfold slot_offset in *; lia).
  unfold bwrite. replace (slot_offset (Z.of_nat i) <=? a) with false by (symmetry; lia). reflexivity.
Qed.

Lemma bread_ext : forall m m' off n, (forall a, off <= a < off + Z.of_nat n -> m a = m' a) -> bread m off n = bread m' off n.
Proof.
  intros m m' off n H. unfold bread. apply map_ext_in. intros k Hk. apply in_seq in Hk. apply H. lia.
Qed.

(* facts regenerated into C14/Gen.v (tools/props/c14_regen.py path_facts): a path that stops calling its converter
   turns its fact into `false` and breaks its obligation here *)
Lemma path_callback_args : gic_args_libffi = true /\ gic_arg_convert = true. Proof. split; reflexivity. Qed.
Lemma path_externpy_args : gic_args_externpy = true /\ gic_arg_convert = true. Proof. split; reflexivity. Qed.
Lemma path_result : gic_result = true /\ fficallback_shape = true. Proof. split; reflexivity. Qed.
Lemma path_error_value : gic_error_value = true /\ prepare_rawerr = true. Proof. split; reflexivity. Qed.
Lemma path_onerror : gic_onerror = true. Proof. reflexivity. Qed.
Lemma path_no_escape : gic_no_escape = true. Proof. reflexivity. Qed.
Lemma path_entry_ffi_callback : path_ffi_callback = true. Proof. reflexivity. Qed.
Lemma path_entry_extern_python : path_extern_python = true. Proof. reflexivity. Qed.
