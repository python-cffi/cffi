(* C14 — proofs about the REGENERATED statement tree of general_invoke_callback (C14/Gen.v: gic_prog, executed by
   C14/Model.v: exec_gic): what it computes, for every input (gic_summary), and from that its agreement with the
   hand state machine `invoke`, so that the protocol theorems speak about regenerated code.

   The tree has three blocks and each is summarised once, for every state it is entered in: the entry block falls
   into `done:` with the converted result written, or jumps to `error:` with the exception set; `done:` returns;
   from `error:` the tree does what the hand machine does when the body raised, and jumps to `done:`.  Running the
   whole tree is then three steps of run_blocks (gic_summary), with no hypothesis; gen_agrees_with_invoke here and
   Props.C14_gen_no_escape (no exception pending at the return) follow from it and from what C14/Proofs.v says
   about `invoke`. *)
From Coq Require Import ZArith NArith List Bool Lia ZifyBool.
Import ListNotations.
From Cffi Require Import Base.ListFacts C14.Spec C14.Gic C14.Gen C14.Model C14.Proofs.
Open Scope Z_scope.

Lemma run_blocks_falls : forall e whole fuel l g t s s', exec_stmt e g s = (ONormal, s') ->
  run_blocks e whole (S fuel) ((l, g) :: t) s = run_blocks e whole fuel t s'.
Proof. intros e whole fuel l g t s s' H. cbn [run_blocks]. rewrite H. reflexivity. Qed.

Lemma run_blocks_returns : forall e whole fuel l g t s s', exec_stmt e g s = (OReturned, s') ->
  run_blocks e whole (S fuel) ((l, g) :: t) s = Some s'.
Proof. intros e whole fuel l g t s s' H. cbn [run_blocks]. rewrite H. reflexivity. Qed.

Lemma run_blocks_jumps : forall e whole fuel l g t s l' s' p', exec_stmt e g s = (OGoto l', s') ->
  find_block l' whole = Some p' ->
  run_blocks e whole (S fuel) ((l, g) :: t) s = run_blocks e whole fuel p' s'.
Proof. intros e whole fuel l g t s l' s' p' H F. cbn [run_blocks]. rewrite H, F. reflexivity. Qed.

(* 8 is exec_gic's fuel; the three blocks of gic_prog use three of it *)
Lemma exec_gic_returns : forall p encode k eb b oe buf0 s,
  run_blocks (mkgenv encode k eb b oe) p 8 p (mkst buf0 false 0) = Some s -> exec_gic p encode k eb b oe buf0 = s.
Proof. intros p encode k eb b oe buf0 s H. unfold exec_gic. rewrite H. reflexivity. Qed.

Definition gic_block (n : nat) : gstmt := snd (nth n gic_prog (None, SSkip)).

Lemma gic_blocks : gic_prog = [(None, gic_block 0); (Some LDone, gic_block 1); (Some LError, gic_block 2)].
Proof. reflexivity. Qed.

(* Each block is run case by case on what decides its tests: the convention and the body for the entry block;
   onerror, whether there is a result to overwrite and whether onerror's value converts for the error block.
   In every case both sides compute. *)
Lemma entry_block : forall e s,
  exec_stmt e (gic_block 0) s =
  match g_b e with
  | BReturns x => match fficallback_full (g_encode e) (g_k e) x with
                  | FOk w => (ONormal, write s w)
                  | FFail partial => (OGoto LError, set_exc (write s partial))
                  end
  | BRaises | BArgFail => (OGoto LError, set_exc s)
  end.
Proof.
  intros [encode k eb b oe] s.
  destruct encode, b as [x | |]; lazy -[fficallback_full]; try reflexivity;
    destruct (fficallback_full _ k x); reflexivity.
Qed.

Lemma done_block : forall e s, exec_stmt e (gic_block 1) s = (OReturned, s).
Proof. reflexivity. Qed.

Lemma error_block : forall e bf,
  exec_stmt e (gic_block 2) (mkst bf true 0) =
  (OGoto LDone, invoke (g_encode e) (g_k e) (g_eb e) BRaises (g_oe e) bf).
Proof.
  intros [encode k eb b oe] bf.
  destruct oe as [| | y |]; lazy -[fficallback_full Nat.ltb rsize overwrite];
    destruct (Nat.ltb 0 (rsize k)); try reflexivity;
    destruct (fficallback_full encode k y); reflexivity.
Qed.

Lemma run_from_error : forall e fuel bf,
  run_blocks e gic_prog (S (S fuel)) [(Some LError, gic_block 2)] (mkst bf true 0) =
  Some (invoke (g_encode e) (g_k e) (g_eb e) BRaises (g_oe e) bf).
Proof.
  intros e fuel bf.
  erewrite run_blocks_jumps by (apply error_block || reflexivity).
  apply run_blocks_returns, done_block.
Qed.

Theorem gic_summary : forall encode k eb b oe buf0,
  exec_gic gic_prog encode k eb b oe buf0 =
  match b with
  | BReturns x => match fficallback_full encode k x with
                  | FOk w => write (mkst buf0 false 0) w
                  | FFail partial => invoke encode k eb BRaises oe (overwrite buf0 partial)
                  end
  | BRaises | BArgFail => invoke encode k eb BRaises oe buf0
  end.
Proof.
  intros encode k eb b oe buf0. apply exec_gic_returns. rewrite gic_blocks at 2.
  pose proof (entry_block (mkgenv encode k eb b oe) (mkst buf0 false 0)) as E. cbn [g_b g_encode g_k] in E.
  destruct b as [x | |]; [destruct (fficallback_full encode k x) as [w | partial] | |].
  1: { erewrite run_blocks_falls by exact E. apply run_blocks_returns, done_block. }
  all: erewrite run_blocks_jumps by (exact E || reflexivity); apply run_from_error.
Qed.

Lemma overwrite_shadow : forall b p w, (length p <= length w)%nat -> overwrite (overwrite b p) w = overwrite b w.
Proof.
  intros b p w H. unfold overwrite. f_equal.
  rewrite skipn_app, skipn_all2 by exact H. cbn [app].
  rewrite <- skipn_add. f_equal. lia.
Qed.

(* the bytes a failed conversion has already written: nothing, or the memset of one ffi_arg *)
Lemma partial_le8 : forall encode k x p, fficallback_full encode k x = FFail p -> (length p <= 8)%nat.
Proof.
  intros encode k x p F.
  destruct k as [| s | s | s]; destruct x as [| z | bs |]; unfold fficallback_full in F;
    repeat match type of F with
           | context [if ?c then _ else _] => destruct c
           end;
    inversion F; cbn; lia.
Qed.

(* rsize k = 0 stands for ct_size <= 0, which among the types a callback can return is void alone (ct_size = -1);
   there a failed conversion has written nothing *)
Definition wf_rkind (k : rkind) : Prop := rsize k = 0%nat -> k = RVoid.

Lemma partial_void : forall encode x p, fficallback_full encode RVoid x = FFail p -> p = [].
Proof. intros encode x p F. destruct x; cbn in F; congruence. Qed.

Lemma invoke_returns : forall encode k eb x oe buf0,
  invoke encode k eb (BReturns x) oe buf0 =
  match fficallback_full encode k x with
  | FOk w => write (mkst buf0 false 0) w
  | FFail _ => invoke encode k eb BRaises oe buf0
  end.
Proof. intros. unfold invoke, fficallback. destruct (fficallback_full encode k x); reflexivity. Qed.

(* what the start of the result area held is forgotten on the error path: the error value covers it, or, for a
   void result, there was nothing *)
Lemma invoke_raises_covers : forall encode k eb oe buf0 p,
  (if Nat.ltb 0 (rsize k) then (length p <= length eb)%nat else p = []) ->
  invoke encode k eb BRaises oe (overwrite buf0 p) = invoke encode k eb BRaises oe buf0.
Proof.
  intros encode k eb oe buf0 p H.
  (* the error path reads buf0 in one place (s2 of invoke): after that one rewrite the two sides are the same text *)
  assert (E : (if Nat.ltb 0 (rsize k) then write (set_exc (mkst (overwrite buf0 p) false 0)) eb
               else set_exc (mkst (overwrite buf0 p) false 0))
            = (if Nat.ltb 0 (rsize k) then write (set_exc (mkst buf0 false 0)) eb else set_exc (mkst buf0 false 0))).
  { unfold write, set_exc. cbn [buf pending printed].
    destruct (Nat.ltb 0 (rsize k)); [rewrite overwrite_shadow by exact H | rewrite H]; reflexivity. }
  unfold invoke. cbv beta iota zeta. rewrite E. reflexivity.
Qed.

Theorem gen_agrees_with_invoke : forall encode k eb b oe buf0,
  wf_rkind k -> (8 <= length eb)%nat ->
  exec_gic gic_prog encode k eb b oe buf0 = invoke encode k eb b oe buf0.
Proof.
  intros encode k eb b oe buf0 WF LEN. rewrite gic_summary.
  destruct b as [x | |]; [rewrite invoke_returns | reflexivity | reflexivity].
  destruct (fficallback_full encode k x) as [w | p] eqn:F; [reflexivity |].
  apply invoke_raises_covers. destruct (Nat.ltb 0 (rsize k)) eqn:Q.
  - pose proof (partial_le8 _ _ _ _ F). lia.
  - apply Nat.ltb_ge in Q. rewrite WF in F by lia. exact (partial_void _ _ _ F).
Qed.

(* the backend's slot arithmetic is the regenerated one *)
Lemma backend_slot_regenerated : forall i, backend_slot i = i * 8.
Proof. reflexivity. Qed.
