(* C14 — vocabulary shared by the regenerated code (Gen.v) and the hand model (Model.v):
   the part of cffi/model.py's type objects that recompiler._extern_python_decl looks at. *)
From Coq Require Import ZArith NArith List Bool.
Import ListNotations.
From Cffi Require Base.ListFacts.
Open Scope Z_scope.

Definition pname := list N.      (* a C type name as code points, e.g. 'long double' *)

Inductive xtype :=
| XVoid                                  (* model.VoidType *)
| XPrim (name : pname) (size : Z)        (* model.PrimitiveType: tp.name, and sizeof on the platform *)
| XStruct (size : Z)                     (* model.StructType (complete): sizeof *)
| XUnion (size : Z)                      (* model.UnionType (complete): sizeof;  both are model.StructOrUnion *)
| XPointer                               (* model.PointerType / FunctionPtrType / NamedPointerType: sizeof = 8 *)
| XEnum (size : Z).                      (* model.EnumType *)

Definition isinstance_PrimitiveType (t : xtype) : bool := match t with XPrim _ _ => true | _ => false end.
Definition isinstance_StructOrUnion (t : xtype) : bool := match t with XStruct _ | XUnion _ => true | _ => false end.
Definition isinstance_StructType (t : xtype) : bool := match t with XStruct _ => true | _ => false end.
Definition isinstance_UnionType (t : xtype) : bool := match t with XUnion _ => true | _ => false end.
Definition isinstance_VoidType (t : xtype) : bool := match t with XVoid => true | _ => false end.

Fixpoint name_eqb (a b : pname) : bool :=
  match a, b with
  | [], [] => true
  | x :: a', y :: b' => N.eqb x y && name_eqb a' b'
  | _, _ => false
  end.

(* tp.name == 'literal'  (only evaluated on PrimitiveType objects in the source, guarded by isinstance) *)
Definition tp_name_is (t : xtype) (lit : pname) : bool :=
  match t with XPrim n _ => name_eqb n lit | _ => false end.

(* sizeof(T) as the C compiler evaluates it in the generated code *)
Definition sizeof (t : xtype) : Z :=
  match t with
  | XVoid => 0
  | XPrim _ s => s
  | XStruct s => s
  | XUnion s => s
  | XPointer => 8
  | XEnum s => s
  end.

Definition LONG_DOUBLE : pname := [108;111;110;103;32;100;111;117;98;108;101]%N.                       (* 'long double' *)
Definition DOUBLE_COMPLEX : pname :=
  [95;99;102;102;105;95;100;111;117;98;108;101;95;99;111;109;112;108;101;120;95;116]%N.                 (* '_cffi_double_complex_t' *)

Lemma name_eqb_eq : forall a b, name_eqb a b = true <-> a = b.
Proof. exact ListFacts.nlist_eqb_eq. Qed.
