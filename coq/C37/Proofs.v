(* C37 — proofs: invariant (a closed lib caches nothing that needs the library), refinement of
   the cache-free specification (step_lib_spec, the one lemma here that opens step_lib), refusal after close,
   what a close leaves behind along a history (closed_later). *)
From Coq Require Import ZArith List Bool Arith Lia.
Import ListNotations.
From Cffi Require Import C37.Model.
Open Scope Z_scope.

(* the regenerated close paths do what the model of close relies on *)
Lemma inline_sets_null_ok au : inline_sets_null au = true. Proof. destruct au; reflexivity. Qed.
Lemma inline_clears_ok : inline_clears = true. Proof. reflexivity. Qed.
Lemma ool_sets_null_ok au : ool_sets_null au = true. Proof. destruct au; reflexivity. Qed.
Lemma ool_clears_ok : ool_clears = true. Proof. reflexivity. Qed.
Lemma unchecked_ok m : unchecked m = false. Proof. destruct m; reflexivity. Qed.

Lemma usable_open L : usable L = lopen L.
Proof. unfold usable. rewrite unchecked_ok. apply orb_false_r. Qed.

Lemma upd_length {A} (l : list A) i x : length (upd l i x) = length l.
Proof. revert i; induction l; destruct i; cbn; auto. Qed.

Lemma nth_error_upd_same {A} (l : list A) i x y :
  nth_error l i = Some y -> nth_error (upd l i x) i = Some x.
Proof. revert i; induction l; destruct i; cbn; intros; try discriminate; eauto. Qed.

Lemma nth_error_upd_other {A} (l : list A) i j x : i <> j -> nth_error (upd l i x) j = nth_error l j.
Proof. revert i j; induction l; destruct i, j; cbn; intros; try congruence; auto. Qed.

Lemma upd_upd {A} (l : list A) i x y : upd (upd l i x) i y = upd l i y.
Proof. revert i; induction l; destruct i; cbn; intros; f_equal; auto. Qed.

Lemma upd_same {A} (l : list A) i x : nth_error l i = Some x -> upd l i x = l.
Proof. revert i; induction l; destruct i; cbn; intros; try discriminate; f_equal; auto; congruence. Qed.

Lemma map_upd {A B} (f : A -> B) l i x : map f (upd l i x) = upd (map f l) i (f x).
Proof. revert i; induction l; destruct i; cbn; intros; f_equal; auto. Qed.

Lemma set_add_in x l : mem_in x l = true -> set_add x l = l.
Proof. unfold set_add; intros ->; reflexivity. Qed.

(* a closed lib caches nothing that needs the library: its dict holds integer constants only *)
Definition Inv_lib (L : lib) : Prop := lopen L = false -> forallb is_const (ldict L) = true.
Definition Inv (s : state) : Prop := forall i L, nth_error (libs s) i = Some L -> Inv_lib L.

Lemma consts_only l x : forallb is_const l = true -> is_const x = false -> dict_in x l = false.
Proof.
  unfold dict_in. induction l as [|a l IH]; cbn [forallb existsb]; auto.
  intros H Hx; apply andb_true_iff in H as [Ha Hl].
  rewrite IH by auto. destruct a, x; try discriminate; reflexivity.
Qed.
Lemma consts_no_var l v : forallb is_const l = true -> dict_in (NVar v) l = false.
Proof. intros H. apply consts_only; auto. Qed.
Lemma consts_no_fn l f : forallb is_const l = true -> dict_in (NFn f) l = false.
Proof. intros H. apply consts_only; auto. Qed.
Lemma consts_add l c : forallb is_const l = true -> forallb is_const (dict_add (NConst c) l) = true.
Proof. unfold dict_add; intros H; destruct dict_in; cbn; auto. Qed.

Definition abs_lib (L : lib) : alib := {| amode := lmode L; aopen := lopen L; ataken := laddr L |}.
Definition abs (s : state) : astate := {| amem := mem s; alibs := map abs_lib (libs s) |}.

(* Both modes resolve a function or (out-of-line) a variable the same way: the
   dict first, then dlsym, which needs the handle, then the dict is filled *)
Definition cached (x : name) (ex : exn) (L : lib) : lib * option exn :=
  if dict_in x (ldict L) then (L, None)
  else if usable L then (with_dict L (dict_add x (ldict L)), None)
  else (L, Some ex).

(* the cache changes nothing the specification sees, and under the invariant it answers exactly
   when the lib is open *)
Lemma cached_spec x ex L L' e : is_const x = false -> cached x ex L = (L', e) ->
  abs_lib L' = abs_lib L /\
  (Inv_lib L -> Inv_lib L' /\ e = if lopen L then None else Some ex).
Proof.
  unfold cached, Inv_lib. rewrite usable_open. intros Hx.
  destruct (dict_in x (ldict L)) eqn:D; [|destruct (lopen L) eqn:O]; intros [= <- <-];
    (split; [reflexivity|]); intros I; (split; [auto|]); cbn; try reflexivity; try congruence.
  destruct (lopen L); [reflexivity|]. rewrite consts_only in D by auto. discriminate.
Qed.

(* an access through the cache; [act]: what the library does to memory and returns once the symbol is there *)
Lemma cached_access x ex (act : list Z * out) m L m' L' r ms A' rs :
  is_const x = false ->
  (let '(L1, e) := cached x ex L in
   match e with None => let '(m1, r1) := act in (m1, L1, r1) | Some e => (m, L1, OErr e) end) = (m', L', r) ->
  (if lopen L then let '(m1, r1) := act in (m1, abs_lib L, r1) else (m, abs_lib L, OErr ex)) = (ms, A', rs) ->
  abs_lib L' = A' /\ (Inv_lib L -> m' = ms /\ r = rs /\ Inv_lib L').
Proof.
  intros Hx. destruct (cached x ex L) as [L1 e] eqn:C. apply cached_spec in C as (A & HI); [|exact Hx].
  destruct act as [m1 r1]. destruct e; destruct (lopen L); intros [= <- <- <-] [= <- <- <-]; (split; [exact A|]);
    intros I; destruct (HI I) as (I1 & [=]); subst; auto.
Qed.

(* one step of one lib against the specification: the open flag and the addresses taken move as the
   specification says whatever is cached; under the invariant, memory and result agree too *)
Lemma step_lib_spec d m L o m' L' r ms A' rs :
  step_lib d m L o = (m', L', r) -> spec_lib d m (abs_lib L) o = (ms, A', rs) ->
  abs_lib L' = A' /\ (Inv_lib L -> m' = ms /\ r = rs /\ Inv_lib L').
Proof.
  (* [fetch_fn] (below its declaredness test) and [ool_globsupport] are instances of [cached], by
     conversion; that is what the applications of [cached_access] below rely on *)
  destruct o; cbn [step_lib spec_lib]; unfold fetch_fn;
    try (destruct (nth_error _ _); [|intros [= <- <- <-] [= <- <- <-]; auto]);
    change (amode (abs_lib L)) with (lmode L); change (aopen (abs_lib L)) with (lopen L);
    change (ataken (abs_lib L)) with (laddr L).
  (* a variable in in-line mode: no cache, the property is installed on the way *)
  1-2: destruct (lmode L);
    [rewrite usable_open; cbn [inline_prop with_props lopen]; try destruct (write_var _ _ _ _);
     destruct (lopen L); intros [= <- <- <-] [= <- <- <-]; auto|].
  - apply (cached_access (NVar v) FFIError (m, OInt (nth v m 0))). reflexivity.
  - apply (cached_access (NVar v) FFIError). reflexivity.
  - apply (cached_access _ _ (m, OFn f)). reflexivity.
  - apply (cached_access _ _ (call_fn d m f z)). reflexivity.
  - (* OpConst *)
    intros [= <- <- <-] [= <- <- <-]. split; [reflexivity|]. unfold Inv_lib. cbn. auto using consts_add.
  - (* OpAddr *)
    destruct (lmode L) eqn:Md.
    + rewrite usable_open. cbn [inline_prop with_props laddr lopen].
      destruct (mem_in v (laddr L)) eqn:Mv; destruct (lopen L) eqn:O; intros [= <- <- <-] [= <- <- <-];
        unfold abs_lib, Inv_lib; cbn; rewrite ?Md, ?O, ?set_add_in by exact Mv; auto.
    + destruct (ool_globsupport L v) as [L1 e] eqn:C. apply cached_spec in C as (A & HI); [|reflexivity].
      destruct e, (lopen L) eqn:O; intros [= <- <- <-] [= <- <- <-]; rewrite A; unfold abs_lib;
        rewrite ?Md, ?O; (split; [reflexivity|]); intros I; destruct (HI I) as (I1 & [=]); subst; auto.
  - (* OpClose *)
    rewrite inline_sets_null_ok, inline_clears_ok, ool_sets_null_ok, ool_clears_ok.
    destruct (lmode L) eqn:Md; [|destruct (lopen L) eqn:O]; intros [= <- <- <-] [= <- <- <-];
      unfold abs_lib, Inv_lib; cbn; rewrite ?Md, ?O; auto.
Qed.

(* the operations that need the library *)
Definition touches (o : op) : bool :=
  match o with OpRead _ _ | OpWrite _ _ _ | OpFetch _ _ | OpCall _ _ _ => true | _ => false end.

(* the "closed" error of the mode, or AttributeError (which an undeclared name gives, open or closed) *)
Definition refusal (m : mode) (r : out) : Prop :=
  r = OErr (closed_exn m) \/ r = OErr AttributeError.

(* declared names are refused with the "closed" error, not AttributeError *)
Definition declared (d : desc) (o : op) : bool :=
  match o with
  | OpRead _ v | OpWrite _ v _ | OpAddr _ v => if nth_error (d_vars d) v then true else false
  | OpFetch _ f | OpCall _ f _ => if nth_error (d_fns d) f then true else false
  | OpConst _ c => if nth_error (d_consts d) c then true else false
  | OpClose _ => true
  end.

(* what an open library does: plain C-library semantics, independent of caches and mode (an open lib
   of either mode gives the same memory and result, Inline is picked to have a term) *)
Definition open_sem (d : desc) (m : list Z) (o : op) : list Z * out :=
  let '(m', _, r) := spec_lib d m {| amode := Inline; aopen := true; ataken := [] |} o in (m', r).

Lemma spec_lib_next d m A o ms A' rs : spec_lib d m A o = (ms, A', rs) ->
  A' = A \/ (aopen A = true /\ amode A' = amode A /\ aopen A' = true) \/
  ((exists l, o = OpClose l) /\ amode A' = amode A /\ aopen A' = false /\ ataken A' = ataken A).
Proof.
  destruct o as [l v | l v z | l f | l f z | l c | l v | l]; cbn [spec_lib].
  - destruct (nth_error (d_vars d) v); [destruct (aopen A)|]; intros [= <- <- <-]; auto.
  - destruct (nth_error (d_vars d) v) as [b|]; [destruct (aopen A); [destruct (write_var b m v z)|]|];
      intros [= <- <- <-]; auto.
  - destruct (nth_error (d_fns d) f); [destruct (aopen A)|]; intros [= <- <- <-]; auto.
  - destruct (nth_error (d_fns d) f); [destruct (aopen A); [destruct (call_fn d m f z)|]|];
      intros [= <- <- <-]; auto.
  - destruct (nth_error (d_consts d) c); intros [= <- <- <-]; auto.
  - destruct (nth_error (d_vars d) v);
      [destruct (aopen A) eqn:O; [|destruct (amode A); [destruct (mem_in v (ataken A))|]]|];
      intros [= <- <- <-]; auto.
  - intros [= <- <- <-]. right. right. eauto.
Qed.

Lemma spec_lib_closed d m A o ms A' rs : aopen A = false -> spec_lib d m A o = (ms, A', rs) ->
  touches o = true \/ (exists l v, o = OpAddr l v /\ mem_in v (ataken A) = false) ->
  refusal (amode A) rs /\ ms = m /\ (declared d o = true -> rs = OErr (closed_exn (amode A))).
Proof.
  unfold refusal. intros O S [T | (l & v & -> & Mv)]; [destruct o; try discriminate|];
    cbn [spec_lib declared] in *; rewrite O, ?Mv in S; destruct (nth_error _ _); try destruct (amode A);
    injection S as <- <- <-; auto; repeat split; auto; discriminate.
Qed.

Lemma spec_lib_open d m A o ms A' rs : aopen A = true -> spec_lib d m A o = (ms, A', rs) ->
  open_sem d m o = (ms, rs).
Proof.
  unfold open_sem. intros O. destruct o; cbn [spec_lib aopen]; rewrite ?O; try destruct (nth_error _ _);
    try destruct (write_var _ _ _ _); try destruct (call_fn _ _ _ _); intros [= <- <- <-]; reflexivity.
Qed.

Lemma step_lib_refines d m L o m' L' r :
  Inv_lib L -> step_lib d m L o = (m', L', r) ->
  spec_lib d m (abs_lib L) o = (m', abs_lib L', r) /\ Inv_lib L'.
Proof.
  intros HI H. destruct (spec_lib d m (abs_lib L) o) as [[ms A'] rs] eqn:S.
  destruct (step_lib_spec _ _ _ _ _ _ _ _ _ _ H S) as (<- & X). destruct (X HI) as (<- & <- & HI'). auto.
Qed.

(* without the invariant the lib still moves as the specification says: the mode never changes,
   only close changes the open flag, and it clears it; closed stays closed and the addresses taken
   through a closed lib stay what they were *)
Lemma step_lib_flags d m L o m' L' r : step_lib d m L o = (m', L', r) ->
  lmode L' = lmode L /\ ((forall l, o <> OpClose l) -> lopen L' = lopen L) /\
  (lopen L = false -> lopen L' = false /\ laddr L' = laddr L) /\
  (forall l, o = OpClose l -> lopen L' = false).
Proof.
  intros H. destruct (spec_lib d m (abs_lib L) o) as [[ms A'] rs] eqn:S.
  destruct (step_lib_spec _ _ _ _ _ _ _ _ _ _ H S) as (<- & _). split; [|split; [|split]].
  4: intros l ->; injection S as _ _ E _ _; auto.
  all: destruct (spec_lib_next _ _ _ _ _ _ _ S) as [E | [(O & M & O') | ((l & ->) & M & O' & T)]];
    try injection E as Em Eo Ea; cbn in *; auto; try congruence; try (split; congruence).
  intros N. destruct (N l eq_refl).
Qed.

Lemma step_lib_open_status d m L o m' L' r :
  (forall l, o <> OpClose l) -> step_lib d m L o = (m', L', r) -> lopen L' = lopen L.
Proof. intros N H. apply (step_lib_flags d m L o m' L' r H), N. Qed.

Lemma closed_stays d m L o m' L' r :
  lopen L = false -> step_lib d m L o = (m', L', r) ->
  lopen L' = false /\ laddr L' = laddr L.
Proof. intros Ho H. apply (step_lib_flags d m L o m' L' r H), Ho. Qed.

Lemma closed_lib_refuses d m L o m' L' r :
  Inv_lib L -> lopen L = false -> step_lib d m L o = (m', L', r) ->
  touches o = true \/ (exists l v, o = OpAddr l v /\ mem_in v (laddr L) = false) ->
  refusal (lmode L) r /\ m' = m /\ (declared d o = true -> r = OErr (closed_exn (lmode L))).
Proof.
  intros HI Ho H. destruct (step_lib_refines _ _ _ _ _ _ _ HI H) as (S & _).
  exact (spec_lib_closed d m (abs_lib L) _ _ _ _ Ho S).
Qed.

Lemma closed_lib_refuses_addr d m L l v m' L' r :
  Inv_lib L -> lopen L = false -> mem_in v (laddr L) = false ->
  step_lib d m L (OpAddr l v) = (m', L', r) ->
  refusal (lmode L) r /\ m' = m /\ lopen L' = false /\ laddr L' = laddr L.
Proof.
  intros HI Ho Mv H.
  destruct (closed_lib_refuses d m L _ m' L' r HI Ho H) as (R & M & _); [right; eauto|].
  destruct (closed_stays d m L _ m' L' r Ho H). auto.
Qed.

Lemma closed_lib_refuses_declared d m L o m' L' r :
  Inv_lib L -> lopen L = false -> touches o = true -> declared d o = true ->
  step_lib d m L o = (m', L', r) -> r = OErr (closed_exn (lmode L)).
Proof. intros HI Ho Ht Hd H. apply (closed_lib_refuses _ _ _ _ _ _ _ HI Ho H (or_introl Ht)), Hd. Qed.

Lemma open_lib_unchanged d m L o m' L' r :
  lopen L = true -> step_lib d m L o = (m', L', r) -> open_sem d m o = (m', r).
Proof.
  intros Ho H. assert (HI : Inv_lib L) by (intros E; congruence).
  destruct (step_lib_refines _ _ _ _ _ _ _ HI H) as (S & _). exact (spec_lib_open d m (abs_lib L) _ _ _ _ Ho S).
Qed.

Lemma inv_init m0 modes : Inv (init m0 modes).
Proof.
  intros i L H. cbn in H. rewrite nth_error_map in H.
  destruct (nth_error modes i); inversion H; subst. intros Ho; discriminate.
Qed.

Lemma step_refines d s o s' r :
  Inv s -> step d s o = (s', r) -> spec_step d (abs s) o = (abs s', r) /\ Inv s'.
Proof.
  intros HI H. unfold step in H. unfold spec_step. cbn [abs alibs amem].
  rewrite nth_error_map. destruct (nth_error (libs s) (op_lib o)) as [L|] eqn:HL; cbn [option_map].
  - destruct (step_lib d (mem s) L o) as [[m' L'] r'] eqn:Hs. inversion H; subst; clear H.
    destruct (step_lib_refines _ _ _ _ _ _ _ (HI _ _ HL) Hs) as (Hsp & HI').
    rewrite Hsp. split.
    + unfold abs; cbn. rewrite map_upd. reflexivity.
    + intros i L0 Hn. cbn in Hn. destruct (Nat.eq_dec (op_lib o) i) as [<-|Hne].
      * rewrite (nth_error_upd_same _ _ _ _ HL) in Hn. inversion Hn; subst; auto.
      * rewrite nth_error_upd_other in Hn by auto. eauto.
  - inversion H; subst. auto.
Qed.

Lemma run_refines d h : forall s s' rs,
  Inv s -> run d s h = (s', rs) -> spec_run d (abs s) h = (abs s', rs) /\ Inv s'.
Proof.
  induction h as [|o h IH]; cbn; intros s s' rs HI H.
  - inversion H; subst; auto.
  - destruct (step d s o) as [s1 r] eqn:Hs. destruct (run d s1 h) as [s2 rs2] eqn:Hr.
    inversion H; subst; clear H.
    destruct (step_refines _ _ _ _ _ HI Hs) as [Hsp HI1]. rewrite Hsp.
    destruct (IH _ _ _ HI1 Hr) as [Hsp2 HI2]. rewrite Hsp2. auto.
Qed.

Lemma abs_init m0 modes : abs (init m0 modes) = ainit m0 modes.
Proof. unfold abs, init, ainit; cbn. rewrite map_map. reflexivity. Qed.

Lemma run_inv d m0 modes h : Inv (fst (run d (init m0 modes) h)).
Proof.
  destruct (run d (init m0 modes) h) as [s' rs] eqn:H.
  apply (run_refines _ _ _ _ _ (inv_init m0 modes) H).
Qed.

(* a step rewrites the lib it is applied to, by [step_lib], and no other *)
Lemma step_libs d s o i :
  nth_error (libs (fst (step d s o))) i =
  if Nat.eqb (op_lib o) i
  then option_map (fun L => snd (fst (step_lib d (mem s) L o))) (nth_error (libs s) i)
  else nth_error (libs s) i.
Proof.
  unfold step. destruct (Nat.eqb_spec (op_lib o) i) as [<-|Hne];
    destruct (nth_error (libs s) (op_lib o)) as [L|] eqn:HL; cbn [fst option_map]; auto;
    destruct (step_lib d (mem s) L o) as [[m' L'] r]; cbn [fst snd libs].
  - apply (nth_error_upd_same _ _ _ _ HL).
  - apply nth_error_upd_other, Hne.
Qed.

(* lib [l] exists and has property [P]; the two lemmas below carry any [P] that one step of one lib keeps
   along steps and histories *)
Definition lib_at (P : lib -> Prop) (s : state) (l : nat) : Prop :=
  exists L, nth_error (libs s) l = Some L /\ P L.

Lemma step_lib_at (P : lib -> Prop) d o :
  (forall m L m' L' r, P L -> step_lib d m L o = (m', L', r) -> P L') ->
  forall s l, lib_at P s l -> lib_at P (fst (step d s o)) l.
Proof.
  intros HP s l (L & HL & PL). unfold lib_at. rewrite step_libs, HL.
  destruct (Nat.eqb (op_lib o) l); [|eauto]. cbn [option_map].
  destruct (step_lib d (mem s) L o) as [[m' L'] r] eqn:Hs. eauto.
Qed.

Lemma step_keeps_closed_addr d s o s' r l A :
  lib_at (fun L => lopen L = false /\ laddr L = A) s l -> step d s o = (s', r) ->
  lib_at (fun L => lopen L = false /\ laddr L = A) s' l.
Proof.
  intros H E. change s' with (fst (s', r)). rewrite <- E. revert H. apply step_lib_at.
  intros m L m' L' r' (Ho & <-). apply closed_stays, Ho.
Qed.

Lemma run_lib_at (P : lib -> Prop) d :
  (forall o m L m' L' r, P L -> step_lib d m L o = (m', L', r) -> P L') ->
  forall h s l, lib_at P s l -> lib_at P (fst (run d s h)) l.
Proof.
  intros HP. induction h as [|o h IH]; cbn; intros s l H; auto.
  apply (step_lib_at P d o (HP o)) in H. destruct (step d s o) as [s1 r]. cbn [fst] in H.
  apply IH in H. destruct (run d s1 h). exact H.
Qed.

Lemma run_keeps_closed_addr d h : forall s l A,
  lib_at (fun L => lopen L = false /\ laddr L = A) s l ->
  lib_at (fun L => lopen L = false /\ laddr L = A) (fst (run d s h)) l.
Proof.
  intros s l A. apply run_lib_at. intros o m L m' L' r (Ho & <-). apply closed_stays, Ho.
Qed.

Lemma run_length d h : forall s, length (libs (fst (run d s h))) = length (libs s).
Proof.
  induction h as [|o h IH]; cbn; intros; auto.
  destruct (step d s o) as [s1 r] eqn:Hs. specialize (IH s1).
  destruct (run d s1 h); cbn in *. rewrite IH. unfold step in Hs.
  destruct (nth_error (libs s) (op_lib o)); [|inversion Hs; subst; auto].
  destruct (step_lib d (mem s) l0 o) as [[? ?] ?]. inversion Hs; subst; cbn. apply upd_length.
Qed.

(* a lib that exists keeps its mode (run_lib_at), one that does not exist still does not (run_length) *)
Lemma run_modes d h : forall s i,
  Inv s -> option_map lmode (nth_error (libs (fst (run d s h))) i) = option_map lmode (nth_error (libs s) i).
Proof.
  intros s i _. destruct (nth_error (libs s) i) as [L|] eqn:E.
  - destruct (run_lib_at (fun L0 => lmode L0 = lmode L) d) with (h := h) (s := s) (l := i) as (L' & -> & M).
    + intros o m L0 m' L' r <-. apply step_lib_flags.
    + exists L; auto.
    + cbn. congruence.
  - apply nth_error_None in E. rewrite <- (run_length d h s) in E. apply nth_error_None in E. rewrite E. reflexivity.
Qed.

Lemma run_app d h1 : forall s h2,
  fst (run d s (h1 ++ h2)) = fst (run d (fst (run d s h1)) h2).
Proof.
  induction h1 as [|o h1 IH]; cbn; intros; auto.
  destruct (step d s o) as [s1 r]. specialize (IH s1 h2).
  destruct (run d s1 (h1 ++ h2)); destruct (run d s1 h1); cbn in *. auto.
Qed.

(* dlclose(lib l) after any history from the start leaves lib l closed, in its mode, and so it
   stays, with the addresses taken through it, whatever follows *)
Lemma closed_later d m0 modes h1 l h2 md au :
  nth_error modes l = Some (md, au) ->
  let s1 := fst (run d (init m0 modes) (h1 ++ [OpClose l])) in
  exists L1, nth_error (libs s1) l = Some L1 /\
    lib_at (fun L => Inv_lib L /\ lmode L = md /\ lopen L = false /\ laddr L = laddr L1)
           (fst (run d s1 h2)) l.
Proof.
  intros Hmd s1.
  assert (H : lib_at (fun L => lmode L = md) (fst (run d (init m0 modes) h1)) l).
  { apply run_lib_at.
    - intros o m L m' L' r <-. apply step_lib_flags.
    - exists (new_lib (md, au)). split; [apply map_nth_error, Hmd | reflexivity]. }
  destruct H as (L & HL & Hm). pose proof (run_inv d m0 modes h1 l L HL) as HI.
  subst s1. rewrite run_app. cbn [run]. unfold step. cbn [op_lib]. rewrite HL.
  destruct (step_lib _ _ L (OpClose l)) as [[m' L1] r] eqn:Hs. cbn [fst libs].
  pose proof (nth_error_upd_same _ _ L1 _ HL) as HL1. exists L1. split; [exact HL1|].
  apply run_lib_at.
  - intros o m L0 m0' L' r' (I & <- & Ho & <-) H. destruct (step_lib_flags _ _ _ _ _ _ _ H) as (M & _ & C & _).
    destruct (C Ho). split; [apply (step_lib_refines _ _ _ _ _ _ _ I H) | auto].
  - exists L1. split; [exact HL1|]. destruct (step_lib_flags _ _ _ _ _ _ _ Hs) as (M & _ & _ & C).
    split; [apply (step_lib_refines _ _ _ _ _ _ _ HI Hs)|]. split; [congruence|]. split; [apply (C l eq_refl) | reflexivity].
Qed.

