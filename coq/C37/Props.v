(* C37 — Closed dlopen libraries refuse further symbol access.
   [run d (init m0 modes) h] executes history h on lib objects (in-line or out-of-line, owning their dlopen handle or made
   from a caller-supplied `void *` handle: one (mode, owns-handle) pair per entry of [modes]) opened on one shared C library described by d with initial memory m0. *)
From Coq Require Import ZArith List Bool Arith.
Import ListNotations.
From Coq Require Import Lia.
From Cffi Require Import C37.Model C37.Proofs.
Open Scope Z_scope.

(* Scope: every operation goes THROUGH the lib object.  Calling a function object, or dereferencing
   a pointer, that the user fetched before the close and kept (f = lib.fn; dlclose; f()) is not an
   operation of the model: the property text excludes it ("fetching a function not fetched before
   the close") and the documentation calls it undefined. *)

(* After ffi.dlclose(lib l), at every later point of every history (whatever was cached before,
   whatever happened to the other lib objects), every variable read, variable write, function
   fetch and function call through lib l is refused (ValueError in-line / ffi.error
   out-of-line; AttributeError only for an undeclared name) and the library's memory is not
   touched. *)
Theorem C37_after_close_refused : forall d m0 modes h1 l h2 o md au,
  nth_error modes l = Some (md, au) -> op_lib o = l -> touches o = true ->
  let s := fst (run d (init m0 modes) (h1 ++ OpClose l :: h2)) in
  refusal md (snd (step d s o)) /\ mem (fst (step d s o)) = mem s.
Proof.
  intros d m0 modes h1 l h2 o md au0 Hmd Hl Ht s. subst s. change (h1 ++ OpClose l :: h2) with (h1 ++ [OpClose l] ++ h2).
  rewrite app_assoc, run_app. destruct (closed_later d m0 modes h1 l h2 md au0 Hmd) as (_ & _ & L & HL & I & <- & Ho & _).
  unfold step. rewrite Hl, HL. destruct (step_lib _ _ L o) as [[m' L'] r] eqn:Hs. cbn.
  destruct (closed_lib_refuses _ _ _ _ _ _ _ I Ho Hs (or_introl Ht)) as (Hr & -> & _). auto.
Qed.
Print Assumptions C37_after_close_refused.

(* the address of a variable not taken through this lib before the close is refused as well
   (in-line mode keeps returning the cached pointer of a variable whose address WAS taken
   before the close; that is "fetched before the close") *)
Theorem C37_after_close_addr_refused : forall d m0 modes h1 l h2 v md au L1,
  nth_error modes l = Some (md, au) ->
  let s1 := fst (run d (init m0 modes) (h1 ++ [OpClose l])) in
  nth_error (libs s1) l = Some L1 -> mem_in v (laddr L1) = false ->
  let s := fst (run d s1 h2) in
  refusal md (snd (step d s (OpAddr l v))) /\ mem (fst (step d s (OpAddr l v))) = mem s.
Proof.
  intros d m0 modes h1 l h2 v md au0 L1 Hmd s1 HL1 Hv s.
  destruct (closed_later d m0 modes h1 l h2 md au0 Hmd) as (L1' & HL1' & L & HL & I & <- & Ho & HA).
  fold s1 in HL1', HL. fold s in HL. replace L1' with L1 in HA by congruence. rewrite <- HA in Hv.
  unfold step. cbn [op_lib]. rewrite HL. destruct (step_lib _ _ L (OpAddr l v)) as [[m' L'] r] eqn:Hs. cbn.
  destruct (closed_lib_refuses _ _ _ _ _ _ _ I Ho Hs) as (Hr & -> & _); eauto.
Qed.
Print Assumptions C37_after_close_addr_refused.

(* closing again is harmless: same state, same result (None) *)
Theorem C37_close_idempotent : forall d s l,
  let s1 := fst (step d s (OpClose l)) in
  step d s1 (OpClose l) = (s1, snd (step d s (OpClose l))).
Proof.
  intros d s l.
  unfold step; cbn [op_lib]. destruct (nth_error (libs s) l) as [L|] eqn:HL; [|cbn; rewrite HL; reflexivity].
  cbn [step_lib]. rewrite inline_sets_null_ok, inline_clears_ok, ool_sets_null_ok, ool_clears_ok.
  destruct (lmode L) eqn:Hm; [|destruct (lopen L) eqn:Ho]; cbn [fst snd libs mem];
    rewrite (nth_error_upd_same _ _ _ _ HL), ?Hm, ?Ho; cbn; rewrite upd_upd; reflexivity.
Qed.
Print Assumptions C37_close_idempotent.

Theorem C37_close_returns_none : forall d s l,
  (l < length (libs s))%nat -> snd (step d s (OpClose l)) = ONone.
Proof.
  intros d s l Hl. unfold step; cbn [op_lib]. destruct (nth_error (libs s) l) as [L|] eqn:HL.
  - cbn [step_lib]. destruct (lmode L); [|destruct (lopen L)]; reflexivity.
  - apply nth_error_None in HL. lia.
Qed.
Print Assumptions C37_close_returns_none.

(* before its close, a lib behaves exactly as the C library itself (cache-free semantics
   open_sem), at any point of any history *)
Theorem C37_before_close_unchanged : forall d m0 modes h o L,
  let s := fst (run d (init m0 modes) h) in
  nth_error (libs s) (op_lib o) = Some L -> lopen L = true ->
  (mem (fst (step d s o)), snd (step d s o)) = open_sem d (mem s) o.
Proof.
  intros d m0 modes h o L s HL Ho. unfold step. rewrite HL.
  destruct (step_lib d (mem s) L o) as [[m' L'] r] eqn:Hs. cbn.
  symmetry. eapply open_lib_unchanged; eauto.
Qed.
Print Assumptions C37_before_close_unchanged.

(* only dlclose closes, and only the lib it is applied to *)
Theorem C37_only_close_closes : forall d s o i,
  (forall l, o <> OpClose l) ->
  option_map lopen (nth_error (libs (fst (step d s o))) i) = option_map lopen (nth_error (libs s) i).
Proof.
  intros d s o i Hn. rewrite step_libs. destruct (Nat.eqb (op_lib o) i); [|reflexivity].
  destruct (nth_error (libs s) i) as [L|]; [|reflexivity]. cbn. f_equal.
  destruct (step_lib d (mem s) L o) as [[m' L'] r] eqn:Hs. exact (step_lib_open_status _ _ _ _ _ _ _ Hn Hs).
Qed.
Print Assumptions C37_only_close_closes.

Theorem C37_other_libs_untouched : forall d s o i,
  i <> op_lib o -> nth_error (libs (fst (step d s o))) i = nth_error (libs s) i.
Proof.
  intros d s o i Hne. rewrite step_libs. destruct (Nat.eqb_spec (op_lib o) i); [congruence|reflexivity].
Qed.
Print Assumptions C37_other_libs_untouched.

(* the whole observable behaviour is that of the cache-free specification [spec_run]
   (open/closed flag per lib + addresses taken while open): outputs and final memory agree
   on every history *)
Theorem C37_refines_spec : forall d m0 modes h,
  snd (run d (init m0 modes) h) = snd (spec_run d (ainit m0 modes) h) /\
  mem (fst (run d (init m0 modes) h)) = amem (fst (spec_run d (ainit m0 modes) h)).
Proof.
  intros d m0 modes h.
  destruct (run d (init m0 modes) h) as [s' rs] eqn:H.
  destruct (run_refines _ _ _ _ _ (inv_init m0 modes) H) as [Hs _].
  rewrite abs_init in Hs. rewrite Hs. cbn. auto.
Qed.
Print Assumptions C37_refines_spec.

(* The close paths as they are in the source text (C37/Gen.v, regenerated on every run).
   The model's OpClose is DEFINED from these lists (Model.v: inline_sets_null, inline_clears,
   ool_sets_null, ool_clears), so every theorem above is about the current text: dropping the
   dict clearing or the handle reset from a close path breaks Proofs.v. *)
Theorem C37_gen_close_paths :
  (* in-line: FFILibrary.__cffi_close__ calls close_lib() and clears __dict__;
     dl_close_lib dlclose()s and resets dl_handle *)
  has CallCloseLib inline_close = true /\ has ClearDict inline_close = true /\
  has DlClose backend_close_lib = true /\ has SetHandleNull backend_close_lib = true /\
  (* out-of-line: ffi_dlclose resets l_libhandle and clears l_dict BEFORE it calls dlclose
     (whose failure returns early: the lib must already be closed for Python) *)
  before SetHandleNull DlClose ool_close = true /\ before ClearDict DlClose ool_close = true /\
  has DlClose ool_close = true.
Proof. vm_compute. repeat split; reflexivity. Qed.
Print Assumptions C37_gen_close_paths.

(* the handle reset is executed whenever the handle was non-NULL: the blocks of dl_close_lib and ffi_dlclose that
   contain it are guarded by the NULL test ALONE, not also by the auto-close flag — so a lib object made from a
   caller-supplied `void *` handle (ffi.dlopen(handle_cdata), auto_close = 0) is closed by ffi.dlclose() like any
   other.  The lib's "owns its handle" flag is part of the model state (lauto) and the model's close consults these
   facts (Model.v: inline_sets_null / ool_sets_null), for every value of the flag. *)
Theorem C37_gen_handle_reset_unconditional :
  backend_close_guard_auto = false /\ ool_close_guard_auto = false.
Proof. split; reflexivity. Qed.
Print Assumptions C37_gen_handle_reset_unconditional.

(* every access path tests "closed" and returns BEFORE it calls dlsym(): cdlopen_fetch (out-of-line) and
   dl_load_function / dl_read_variable / dl_write_variable (in-line).  The model's accesses are defined from
   these facts (Model.v: usable / unchecked): without the early test, dlsym(NULL, name) searches the
   process-global scope and a closed lib object would serve globally resolvable symbols — so
   C37_after_close_refused is about the current text here too. *)
Theorem C37_gen_closed_test_precedes_dlsym :
  ool_fetch_checks_first = true /\ inline_checks_first = true.
Proof. split; reflexivity. Qed.
Print Assumptions C37_gen_closed_test_precedes_dlsym.

(* non-vacuity: a history that caches a function, a variable and an address, closes, and
   tries everything again, in both modes; the other lib keeps working *)
Example C37_example :
  let d := {| d_vars := [(-128, 127); (0, 255)]; d_fns := [FGet 0%nat; FSet 1%nat]; d_consts := [42] |} in
  let h := [OpCall 0 1 7; OpRead 0 1; OpRead 1 1; OpAddr 0 0; OpFetch 0 0; OpFetch 1 0; OpWrite 1 1 300;
            OpClose 0; OpRead 0 1; OpWrite 0 0 1; OpFetch 0 0; OpCall 0 1 9; OpConst 0 0; OpAddr 0 0; OpAddr 0 1;
            OpClose 0; OpRead 1 1; OpClose 1; OpRead 1 1; OpFetch 1 0; OpAddr 1 0]%nat in
  run_case (d, [5; 6], [(Inline, false); (Ool, true)], h) =
  ([OInt 6; OInt 7; OInt 7; OPtr 0; OFn 0; OFn 0; OErr OverflowError;
    ONone; OErr ValueError; OErr ValueError; OErr ValueError; OErr ValueError; OInt 42; OPtr 0; OErr ValueError;
    ONone; OInt 7; ONone; OErr FFIError; OErr FFIError; OErr FFIError]%nat, [5; 7]).
Proof. vm_compute. reflexivity. Qed.
