(* C18 — proofs: every fast path of b_unpack selected by the (regenerated) tables computes what
   convert_to_object computes (tables_ok, decided by evaluation; fp_sound), hence ffi.unpack = element-wise
   reading, through gen_loop, the unpack loop with the generic conversion in every iteration.  The character
   kinds go through the regenerated helpers of C15/Gen.v and their lemmas in C15/WProofs.v: char16_t agrees
   with the element-wise reading exactly when no surrogate pair is adjacent, and always as UTF-16 text. *)
From Coq Require Import ZArith List Bool Lia.
Import ListNotations.
From Cffi Require Import Base.Wrap Base.ListFacts C15.WProofs C18.Model C18.Gen.
Open Scope Z_scope.

Lemma decode_le_bound : forall bs, 0 <= decode_le bs < 2 ^ (8 * Z.of_nat (length bs)).
Proof.
  induction bs as [|b r IH]; cbn [decode_le length].
  - cbn. lia.
  - rewrite Nat2Z.inj_succ.
    replace (8 * Z.succ (Z.of_nat (length r))) with (8 + 8 * Z.of_nat (length r)) by lia.
    rewrite Z.pow_add_r by lia. change (2 ^ 8) with 256.
    pose proof (Z.mod_pos_bound b 256 ltac:(lia)). nia.
Qed.

Lemma take_length_le : forall n bs, 0 <= n -> Z.of_nat (length (take n bs)) <= n.
Proof.
  intros n bs Hn. unfold take. rewrite firstn_length. lia.
Qed.

Lemma decode_take_bound : forall n bs, 0 <= n -> 0 <= decode_le (take n bs) < 2 ^ (8 * n).
Proof.
  intros n bs Hn. pose proof (decode_le_bound (take n bs)) as H.
  pose proof (take_length_le n bs Hn) as L.
  split; [lia|]. eapply Z.lt_le_trans; [apply H|].
  apply Z.pow_le_mono_r; lia.
Qed.

Lemma wrap_u_small : forall bits v, 0 <= v < 2 ^ bits -> wrap_u bits v = v.
Proof. intros. unfold wrap_u. apply Z.mod_small. lia. Qed.

(* Model.wrap_u is Base.Wrap's unsigned conversion by definition; wrap_s is the signed one *)
Lemma wrap_s_wrap : forall bits v, 0 < bits -> wrap_s bits v = wrap true bits v.
Proof. intros bits v H. symmetry. apply wrap_signed_ltb, H. Qed.

Lemma wrap_s_small_nonneg : forall v, 0 <= v < 2 ^ 63 -> wrap_s 64 v = v.
Proof. intros v H. rewrite wrap_s_wrap by reflexivity. apply (wrap_id true 64 v eq_refl). unfold in_bits. lia. Qed.

Definition is_int_ty (t : cty) : bool := negb (is_float_ty t).

(* what makes the fast path fp compute convert_to_object for items of kind k *)
Definition fp_compat (fp : fastpath) (k : kind) : bool :=
  match fp, k with
  | FP_FromLong _ t, KSigned s => is_int_ty t && is_signed_ty t && (sizeof t =? s)
  | FP_FromLong _ t, KUnsigned s =>
      is_int_ty t && negb (is_signed_ty t) && (sizeof t =? s) && (s <? sizeof_long)
  | FP_FromUnsignedLong t, KUnsigned s => is_int_ty t && negb (is_signed_ty t) && (sizeof t =? s)
  | FP_FromDouble t, KFloat s => is_float_ty t && (sizeof t =? s)
  | FP_NewPtr, KPointer => true
  | FP_Bool, KBool => true
  | _, _ => false
  end.

(* the primitive and pointer kinds the backend can create, sizes included *)
Definition prim_kinds : list kind :=
  [KSigned 1; KSigned 2; KSigned 4; KSigned 8; KUnsigned 1; KUnsigned 2; KUnsigned 4; KUnsigned 8;
   KBool; KFloat 4; KFloat 8; KLongDouble; KChar 1; KChar 2; KChar 4; KComplex 8; KComplex 16;
   KPointer].

Definition item_ok (tb : tables) (k : kind) (aligned : bool) : bool :=
  match lookup (casenum_b tb k aligned) (tb_fast tb) with
  | None => true
  | Some fp => fp_compat fp k
  end.

Definition tables_ok (tb : tables) : bool :=
  forallb (fun k => item_ok tb k true && item_ok tb k false) prim_kinds &&
  match lookup (-1) (tb_fast tb) with None => true | Some _ => false end.

Lemma gen_tables_ok : tables_ok gen_tables = true.
Proof. vm_compute. reflexivity. Qed.

Lemma wf_kind_cases : forall k, wf_kind k ->
  In k prim_kinds \/ (exists s, 0 <= s /\ (k = KAggregate s \/ k = KArrayItem s)).
Proof.
  (* a primitive kind of a size the backend creates is found at its position in prim_kinds *)
  intros k H. destruct k as [s | s | | s | | s | s | | s | s | ]; cbn [wf_kind] in H.
  - left. destruct H as [-> | [-> | [-> | ->]]];
      [exact (nth_error_In prim_kinds 0 eq_refl) | exact (nth_error_In prim_kinds 1 eq_refl) | exact (nth_error_In prim_kinds 2 eq_refl) | exact (nth_error_In prim_kinds 3 eq_refl)].
  - left. destruct H as [-> | [-> | [-> | ->]]];
      [exact (nth_error_In prim_kinds 4 eq_refl) | exact (nth_error_In prim_kinds 5 eq_refl) | exact (nth_error_In prim_kinds 6 eq_refl) | exact (nth_error_In prim_kinds 7 eq_refl)].
  - left. exact (nth_error_In prim_kinds 8 eq_refl).
  - left. destruct H as [-> | ->]; [exact (nth_error_In prim_kinds 9 eq_refl) | exact (nth_error_In prim_kinds 10 eq_refl)].
  - left. exact (nth_error_In prim_kinds 11 eq_refl).
  - left. destruct H as [-> | [-> | ->]];
      [exact (nth_error_In prim_kinds 12 eq_refl) | exact (nth_error_In prim_kinds 13 eq_refl) | exact (nth_error_In prim_kinds 14 eq_refl)].
  - left. destruct H as [-> | ->]; [exact (nth_error_In prim_kinds 15 eq_refl) | exact (nth_error_In prim_kinds 16 eq_refl)].
  - left. exact (nth_error_In prim_kinds 17 eq_refl).
  - right. exists s. auto.
  - right. exists s. auto.
  - contradiction.
Qed.

Lemma wf_ksize : forall k, wf_kind k -> 0 <= ksize k.
Proof.
  intros k H. destruct k; cbn in *; unfold int_size, sizeof_longdouble in *; lia.
Qed.

Lemma find_size : forall types s t,
  find (fun t => s =? sizeof t) types = Some t -> sizeof t = s.
Proof.
  intros types s t H. apply find_some in H. destruct H as [_ H]. apply Z.eqb_eq in H. lia.
Qed.

Lemma read_signed : forall s bs, int_size s ->
  read_raw_int signed_types s bs = Ok (int_value true s bs).
Proof. intros s bs [H|[H|[H|H]]]; subst; reflexivity. Qed.

Lemma read_unsigned : forall s bs, int_size s ->
  read_raw_int unsigned_types s bs = Ok (int_value false s bs).
Proof. intros s bs [H|[H|[H|H]]]; subst; reflexivity. Qed.

Lemma uvalue_bound : forall s bs, 0 <= s -> 0 <= int_value false s bs < 2 ^ (8 * s).
Proof. intros. unfold int_value. apply decode_take_bound. lia. Qed.

Lemma c_int_value_eq : forall t sg s bs, is_signed_ty t = sg -> sizeof t = s ->
  c_int_value t bs = int_value sg s bs.
Proof. intros t sg s bs <- <-. reflexivity. Qed.

Lemma fp_sound : forall fp k a bs, wf_kind k -> fp_compat fp k = true ->
  fp_eval fp k a bs = convert_to_object k a bs.
Proof.
  intros fp k a bs Hwf Hc.
  destruct fp as [c t|t|t| |]; destruct k; cbn [fp_compat] in Hc; try discriminate;
    cbn [wf_kind] in Hwf; cbn [fp_eval convert_to_object]; unfold is_int_ty in Hc.
  - (* FromLong, signed: every signed size fits a long *)
    rewrite !andb_true_iff, negb_true_iff, Z.eqb_eq in Hc. destruct Hc as [[Hi Hsg] Hs].
    rewrite Hi, read_signed, (c_int_value_eq t true size bs Hsg Hs) by assumption.
    assert (fits_long (KSigned size) = true) as -> by (destruct Hwf as [-> | [-> | [-> | ->]]]; reflexivity).
    reflexivity.
  - (* FromLong, unsigned, size < sizeof(long) *)
    rewrite !andb_true_iff, !negb_true_iff, Z.eqb_eq in Hc. destruct Hc as [[[Hi Hsg] Hs] Hlt].
    rewrite Hi, read_unsigned, (c_int_value_eq t false size bs Hsg Hs) by assumption.
    cbn [fits_long]. rewrite Hlt. reflexivity.
  - (* FromUnsignedLong, unsigned *)
    rewrite !andb_true_iff, !negb_true_iff, Z.eqb_eq in Hc. destruct Hc as [[Hi Hsg] Hs].
    rewrite Hi, read_unsigned, (c_int_value_eq t false size bs Hsg Hs) by assumption.
    cbn [fits_long]. unfold sizeof_long. destruct (Z.ltb_spec size 8) as [H8 | H8]; [ | reflexivity].
    (* fewer than 8 bytes: the value is below 2^32, and both conversions are the identity *)
    destruct (uvalue_bound size bs) as [B0 B1]; [destruct Hwf as [-> | [-> | [-> | ->]]]; discriminate | ].
    assert (int_value false size bs < 2 ^ 32) as B2.
    { eapply Z.lt_le_trans; [exact B1 | ]. apply Z.pow_le_mono_r; [reflexivity | ].
      destruct Hwf as [-> | [-> | [-> | ->]]]; [discriminate .. | lia]. }
    rewrite wrap_u_small, wrap_s_small_nonneg
      by (split; [exact B0 | apply Z.lt_trans with (2 ^ 32); [exact B2 | reflexivity]]).
    reflexivity.
  - (* FromDouble *)
    apply andb_prop in Hc. destruct Hc as [Hf Hs]. apply Z.eqb_eq in Hs.
    destruct t; try discriminate Hf; cbn in Hs; subst size; reflexivity.
  - reflexivity.
  - (* Bool *)
    rewrite read_unsigned by (unfold int_size; auto).
    unfold c_int_value. cbn [is_signed_ty sizeof].
    destruct (int_value false 1 bs =? 0); [reflexivity|].
    destruct (int_value false 1 bs =? 1); reflexivity.
Qed.

Lemma item_sound : forall tb k aligned a bs, tables_ok tb = true -> wf_kind k ->
  unpack_item tb (casenum_b tb k aligned) k a bs = convert_to_object k a bs.
Proof.
  intros tb k aligned a bs Hok Hwf. unfold tables_ok in Hok.
  apply andb_prop in Hok. destruct Hok as [Hall Hm1].
  unfold unpack_item.
  destruct (wf_kind_cases k Hwf) as [Hin|[s [Hs [->| ->]]]].
  - rewrite forallb_forall in Hall. specialize (Hall k Hin).
    apply andb_prop in Hall. destruct Hall as [Ht Hf].
    assert (item_ok tb k aligned = true) as Hi by (destruct aligned; assumption).
    unfold item_ok in Hi.
    destruct (lookup (casenum_b tb k aligned) (tb_fast tb)); [|reflexivity].
    apply fp_sound; assumption.
  - unfold casenum_b. cbn [is_primitive_any is_pointer andb].
    destruct (lookup (-1) (tb_fast tb)); [discriminate|reflexivity].
  - unfold casenum_b. cbn [is_primitive_any is_pointer andb].
    destruct (lookup (-1) (tb_fast tb)); [discriminate|reflexivity].
Qed.

(* the unpack loop with the generic conversion in every iteration *)
Fixpoint gen_loop (k : kind) (a : Z) (bs : list Z) (n : nat) : res (list value) :=
  match n with
  | O => Ok []
  | S n' =>
      match convert_to_object k a bs with
      | Err e => Err e
      | Ok x => match gen_loop k (a + ksize k) (drop (ksize k) bs) n' with
                | Err e => Err e
                | Ok xs => Ok (x :: xs)
                end
      end
  end.

Lemma loop_sound : forall tb k aligned n a bs, tables_ok tb = true -> wf_kind k ->
  unpack_loop tb (casenum_b tb k aligned) k a bs n = gen_loop k a bs n.
Proof.
  intros tb k aligned n. induction n as [|n IH]; intros a bs Hok Hwf; cbn [unpack_loop gen_loop].
  - reflexivity.
  - rewrite item_sound by assumption. rewrite IH by assumption. reflexivity.
Qed.

Lemma mue_ext : forall A B (f g : A -> res B) l,
  (forall x, In x l -> f x = g x) -> map_until_error f l = map_until_error g l.
Proof.
  intros A B f g l. induction l as [|x r IH]; intros H; cbn [map_until_error].
  - reflexivity.
  - rewrite H by (left; reflexivity). rewrite IH by (intros; apply H; right; assumption).
    reflexivity.
Qed.

Lemma mue_map : forall A B C (f : B -> res C) (g : A -> B) l,
  map_until_error f (map g l) = map_until_error (fun x => f (g x)) l.
Proof.
  intros. induction l as [|x r IH]; cbn [map map_until_error]; [reflexivity|].
  rewrite IH. reflexivity.
Qed.

Lemma zrange_succ : forall n, zrange (S n) = 0 :: map Z.succ (zrange n).
Proof.
  intros n. unfold zrange. cbn [seq map]. f_equal.
  rewrite <- seq_shift. rewrite !map_map. apply map_ext. intros. lia.
Qed.

Lemma zrange_bound : forall n x, In x (zrange n) -> 0 <= x < Z.of_nat n.
Proof.
  intros n x H. unfold zrange in H. apply in_map_iff in H. destruct H as [y [<- Hy]].
  apply in_seq in Hy. lia.
Qed.

Lemma zrange_nonneg : forall n x, In x (zrange n) -> 0 <= x.
Proof. intros n x H. apply (zrange_bound n x H). Qed.

(* ListFacts.skipn_add from right to left, as drop_drop uses it *)
Lemma skipn_add : forall (a b : nat) (l : list Z), skipn a (skipn b l) = skipn (b + a) l.
Proof. intros a b l. symmetry. apply ListFacts.skipn_add. Qed.

Lemma drop_drop : forall a b bs, 0 <= a -> 0 <= b -> drop a (drop b bs) = drop (b + a) bs.
Proof.
  intros a b bs Ha Hb. unfold drop. rewrite skipn_add. f_equal. lia.
Qed.

Lemma drop_0 : forall bs, drop 0 bs = bs.
Proof. reflexivity. Qed.

Lemma gen_loop_elementwise : forall k n a bs, 0 <= ksize k ->
  gen_loop k a bs n =
  map_until_error (fun i => convert_to_object k (a + i * ksize k) (drop (i * ksize k) bs))
                  (zrange n).
Proof.
  intros k n. induction n as [|n IH]; intros a bs Hs.
  - reflexivity.
  - rewrite zrange_succ. cbn [gen_loop map_until_error].
    rewrite Z.mul_0_l, Z.add_0_r. change (drop 0 bs) with bs.
    destruct (convert_to_object k a bs); [|reflexivity].
    rewrite IH by assumption. rewrite mue_map.
    erewrite mue_ext; [reflexivity|].
    intros x Hx. apply zrange_bound in Hx. destruct Hx as [Hx _]. cbn beta.
    rewrite Z.mul_succ_l. rewrite drop_drop by nia. f_equal; [lia|]. f_equal. lia.
Qed.

Lemma in_model : forall k bs n, 0 <= ksize k -> n * ksize k <= Z.of_nat (length bs) ->
  out_of_model k bs n = false.
Proof.
  intros k bs n Hs Hb. unfold out_of_model. apply andb_false_intro2. apply Z.ltb_ge. exact Hb.
Qed.

Lemma elementwise_gen_loop : forall k addr bs n, addr <> 0 -> 0 <= ksize k -> 0 <= n ->
  n * ksize k <= Z.of_nat (length bs) ->
  elementwise k addr bs n = gen_loop k addr bs (Z.to_nat n).
Proof.
  intros k addr bs n Ha Hs Hn Hb. unfold elementwise. rewrite gen_loop_elementwise by assumption.
  apply mue_ext. intros x Hx. apply zrange_bound in Hx. rewrite Z2Nat.id in Hx by assumption.
  unfold index. rewrite (proj2 (Z.eqb_neq addr 0) Ha), in_model; [reflexivity | assumption | ].
  apply Z.le_trans with (n * ksize k); [apply Z.mul_le_mono_nonneg_r; lia | exact Hb].
Qed.

(* inside the modelled memory none of the three guards of b_unpack fires, and the element-wise reading is
   the loop with the generic conversion *)
Lemma unpack_guards : forall k addr bs n, 0 <= n -> addr <> 0 -> 0 <= ksize k ->
  n * ksize k <= Z.of_nat (length bs) ->
  (n <? 0) = false /\ (addr =? 0) = false /\ out_of_model k bs n = false /\
  elementwise k addr bs n = gen_loop k addr bs (Z.to_nat n).
Proof.
  intros k addr bs n Hn Ha Hs Hb. split; [apply Z.ltb_ge, Hn | ]. split; [apply Z.eqb_neq, Ha | ].
  split; [apply in_model | apply elementwise_gen_loop]; assumption.
Qed.

(* the kinds whose items ffi.unpack joins into bytes / str *)
Definition is_char (k : kind) : bool := match k with KChar _ => true | _ => false end.

Theorem unpack_elementwise_list : forall tb k align addr bs n,
  tables_ok tb = true -> wf_kind k -> is_char k = false -> 0 <= n ->
  n * ksize k <= Z.of_nat (length bs) -> addr <> 0 ->
  unpack tb k align addr bs n = joined k (elementwise k addr bs n).
Proof.
  intros tb k align addr bs n Hok Hwf Hc Hn Hb Ha.
  pose proof (wf_ksize k Hwf) as Hs.
  destruct (unpack_guards k addr bs n Hn Ha Hs Hb) as (G1 & G2 & G3 & ->). unfold unpack. rewrite G1, G2, G3.
  rewrite (proj2 (Z.ltb_ge (ksize k) 0) Hs). unfold casenum. rewrite loop_sound by assumption.
  destruct k; try discriminate; cbn [joined]; destruct (gen_loop _ _ _ _); reflexivity.
Qed.

Lemma take_succ : forall n b r, 0 <= n -> take (Z.succ n) (b :: r) = b :: take n r.
Proof.
  intros. unfold take. rewrite Z2Nat.inj_succ by lia. reflexivity.
Qed.

Lemma gen_loop_char1 : forall n a bs, (n <= length bs)%nat ->
  gen_loop (KChar 1) a bs n = Ok (map (fun b => VBytes [b mod 256]) (firstn n bs)).
Proof.
  induction n as [|n IH]; intros a bs Hl; [reflexivity|].
  destruct bs as [|b r]; [cbn in Hl; lia|].
  cbn [gen_loop convert_to_object ksize]. cbn [Z.eqb Pos.eqb].
  change (drop 1 (b :: r)) with r.
  rewrite IH by (cbn in Hl; lia).
  cbn [firstn map]. change (take 1 (b :: r)) with [b]. cbn [decode_le].
  rewrite Z.mul_0_r, Z.add_0_r. reflexivity.
Qed.

Lemma concat_values_bytes : forall l,
  concat_values (map (fun b => VBytes [b mod 256]) l) = map (fun b => b mod 256) l.
Proof.
  induction l as [|b r IH]; [reflexivity|]. cbn [map concat_values app]. rewrite IH. reflexivity.
Qed.

Theorem unpack_elementwise_char : forall tb align addr bs n,
  0 <= n <= Z.of_nat (length bs) -> addr <> 0 ->
  unpack tb (KChar 1) align addr bs n = joined (KChar 1) (elementwise (KChar 1) addr bs n).
Proof.
  intros tb align addr bs n Hn Ha.
  destruct (unpack_guards (KChar 1) addr bs n) as (G1 & G2 & G3 & ->); [cbn [ksize]; lia || assumption ..|].
  rewrite gen_loop_char1 by lia. unfold unpack. rewrite G1, G2, G3.
  cbn [joined Z.eqb Pos.eqb]. rewrite concat_values_bytes. reflexivity.
Qed.

Lemma gen_loop_char2 : forall n a bs,
  gen_loop (KChar 2) a bs n = Ok (map (fun u => VStr [u]) (units 2 bs n)).
Proof.
  induction n as [|n IH]; intros a bs; [reflexivity|].
  cbn [gen_loop convert_to_object ksize units]. cbn [Z.eqb Pos.eqb].
  rewrite from_char16_single. rewrite IH. reflexivity.
Qed.

Lemma concat_values_str : forall l, concat_values (map (fun u => VStr [u]) l) = l.
Proof.
  induction l as [|b r IH]; [reflexivity|]. cbn [map concat_values app]. rewrite IH. reflexivity.
Qed.

(* char16_t: unpack joins the surrogate pairs of the units that the element-wise reading returns as they are *)
Lemma unpack_char16_sides : forall tb align addr bs n,
  0 <= n -> n * 2 <= Z.of_nat (length bs) -> addr <> 0 ->
  unpack tb (KChar 2) align addr bs n = RStr (join16_loop (units 2 bs (Z.to_nat n))) /\
  joined (KChar 2) (elementwise (KChar 2) addr bs n) = RStr (units 2 bs (Z.to_nat n)).
Proof.
  intros tb align addr bs n Hn Hb Ha.
  destruct (unpack_guards (KChar 2) addr bs n) as (G1 & G2 & G3 & ->); [cbn [ksize]; lia || assumption ..|].
  rewrite gen_loop_char2. unfold unpack. rewrite G1, G2, G3.
  cbn [joined Z.eqb Pos.eqb]. rewrite concat_values_str, from_char16_join. split; reflexivity.
Qed.

Theorem unpack_elementwise_char16_iff : forall tb align addr bs n,
  0 <= n -> n * 2 <= Z.of_nat (length bs) -> addr <> 0 ->
  (unpack tb (KChar 2) align addr bs n = joined (KChar 2) (elementwise (KChar 2) addr bs n)
   <-> count_surrogates (units 2 bs (Z.to_nat n)) = 0).
Proof.
  intros tb align addr bs n Hn Hb Ha. destruct (unpack_char16_sides tb align addr bs n Hn Hb Ha) as [-> ->].
  rewrite <- join16_fixed_iff.
  split; [intros HH; inversion HH; congruence|intros ->; reflexivity].
Qed.

Theorem unpack_elementwise_char16 : forall tb align addr bs n,
  0 <= n -> n * 2 <= Z.of_nat (length bs) -> addr <> 0 ->
  count_surrogates (units 2 bs (Z.to_nat n)) = 0 ->
  unpack tb (KChar 2) align addr bs n = joined (KChar 2) (elementwise (KChar 2) addr bs n).
Proof. intros. apply unpack_elementwise_char16_iff; assumption. Qed.

(* the UTF-16 encoding of a str, by the textbook formula.  (On a valid code point it gives the units of
   C15.WProofs.enc16, by enc16_bmp, enc16_astral, hi_of_val and lo_of_val; no lemma states that, and
   nothing below needs it.) *)
Definition encode16_cp (c : Z) : list Z :=
  if 0xFFFF <? c then [0xD800 + (c - 0x10000) / 1024; 0xDC00 + (c - 0x10000) mod 1024] else [c].
Definition encode16 (s : list Z) : list Z := flat_map encode16_cp s.

Lemma join_pair_encode : forall a b, is_hi a = true -> is_lo b = true ->
  encode16_cp (join_pair a b) = [a; b].
Proof.
  intros a b Ha Hb. pose proof (join_pair_astral a b Ha Hb) as Hr. pose proof (join_pair_val a b Ha Hb) as Hv.
  destruct (astral_split _ Hr) as (q & r & Hq & Hr' & Hc & Eh & El).
  unfold encode16_cp. rewrite (proj2 (Z.ltb_lt _ _) (proj1 Hr)), <- hi_of_val, <- lo_of_val, Eh, El by exact Hr.
  apply is_hi_range in Ha. apply is_lo_range in Hb. f_equal; [lia|f_equal; lia].
Qed.

Lemma encode16_cons : forall c s, encode16 (c :: s) = encode16_cp c ++ encode16 s.
Proof. reflexivity. Qed.

Lemma encode16_cp_unit : forall a, 0 <= a < 0x10000 -> encode16_cp a = [a].
Proof. intros a H. unfold encode16_cp. destruct (Z.ltb_spec 0xFFFF a); [lia|reflexivity]. Qed.

Lemma encode16_join16 : forall w, Forall (fun u => 0 <= u < 0x10000) w ->
  encode16 (join16_loop w) = w.
Proof.
  induction w as [|a|a b r IHr IHbr] using list_ind2; intros Hw; [reflexivity| |].
  - inversion Hw; subst. cbn [join16_loop]. rewrite encode16_cons, encode16_cp_unit by assumption. reflexivity.
  - inversion Hw as [|? ? Ha Hr]; subst. rewrite join16_loop_cons2.
    destruct (is_hi a && is_lo b) eqn:E.
    + apply andb_prop in E. destruct E as [E1 E2]. inversion Hr; subst.
      rewrite encode16_cons, join_pair_encode, IHr by assumption. reflexivity.
    + rewrite encode16_cons, encode16_cp_unit, IHbr by assumption. reflexivity.
Qed.

Lemma encode16_units : forall w, Forall (fun u => 0 <= u < 0x10000) w -> encode16 w = w.
Proof.
  induction w as [|a r IH]; intros H; [reflexivity|].
  inversion H; subst. rewrite encode16_cons, encode16_cp_unit, IH by assumption. reflexivity.
Qed.

Lemma units2_range : forall n bs, Forall (fun u => 0 <= u < 0x10000) (units 2 bs n).
Proof.
  induction n as [|n IH]; intros bs; cbn [units]; constructor; [|apply IH].
  pose proof (decode_take_bound 2 bs ltac:(lia)) as B.
  change (2 ^ (8 * 2)) with 0x10000 in B. cbn beta. lia.
Qed.

Definition utf16 (r : result) : result :=
  match r with RStr l => RStr (encode16 l) | _ => r end.

(* whether or not the two sides are equal as Python strings, they are the same UTF-16 text: re-encoding
   what unpack returns gives back exactly the units that the element-wise reading returns one by one *)
Theorem unpack_elementwise_char16_utf16 : forall tb align addr bs n,
  0 <= n -> n * 2 <= Z.of_nat (length bs) -> addr <> 0 ->
  utf16 (unpack tb (KChar 2) align addr bs n)
  = utf16 (joined (KChar 2) (elementwise (KChar 2) addr bs n)).
Proof.
  intros tb align addr bs n Hn Hb Ha. destruct (unpack_char16_sides tb align addr bs n Hn Hb Ha) as [-> ->].
  cbn [utf16]. rewrite encode16_join16, encode16_units by apply units2_range. reflexivity.
Qed.

Lemma from_char32_cons : forall u w,
  from_char32 (u :: w) =
  if 0x10FFFF <? u then Err SystemError
  else match from_char32 w with Ok l => Ok (u :: l) | Err e => Err e end.
Proof.
  intros u w. rewrite !from_char32_eq. cbn [existsb].
  destruct (0x10FFFF <? u); cbn [orb]; [reflexivity|].
  destruct (existsb (fun u0 => 0x10FFFF <? u0) w); reflexivity.
Qed.

Lemma gen_loop_char4 : forall n a bs,
  gen_loop (KChar 4) a bs n =
  match from_char32 (units 4 bs n) with
  | Ok l => Ok (map (fun u => VStr [u]) l)
  | Err e => Err e
  end.
Proof.
  induction n as [|n IH]; intros a bs; [reflexivity|].
  cbn [gen_loop convert_to_object ksize units]. cbn [Z.eqb Pos.eqb].
  rewrite !from_char32_cons. rewrite IH.
  destruct (0x10FFFF <? decode_le (take 4 bs)); [reflexivity|].
  change (from_char32 []) with (@Ok (list Z) []).
  destruct (from_char32 (units 4 (drop 4 bs) n)); reflexivity.
Qed.

Theorem unpack_elementwise_char32 : forall tb align addr bs n,
  0 <= n -> n * 4 <= Z.of_nat (length bs) -> addr <> 0 ->
  unpack tb (KChar 4) align addr bs n = joined (KChar 4) (elementwise (KChar 4) addr bs n).
Proof.
  intros tb align addr bs n Hn Hb Ha.
  destruct (unpack_guards (KChar 4) addr bs n) as (G1 & G2 & G3 & ->); [cbn [ksize]; lia || assumption ..|].
  rewrite gen_loop_char4. unfold unpack. rewrite G1, G2, G3.
  cbn [Z.eqb Pos.eqb].
  destruct (from_char32 (units 4 bs (Z.to_nat n))); cbn [joined of_res Z.eqb Pos.eqb].
  - rewrite concat_values_str. reflexivity.
  - reflexivity.
Qed.

Lemma mue_first_error : forall A B (f : A -> res B) l e,
  map_until_error f l = Err e ->
  exists l1 x l2, l = l1 ++ x :: l2 /\ f x = Err e /\ forall y, In y l1 -> exists v, f y = Ok v.
Proof.
  intros A B f l. induction l as [|x r IH]; intros e H; cbn [map_until_error] in H; [discriminate|].
  destruct (f x) as [v|e'] eqn:E.
  - destruct (map_until_error f r) as [vs|e''] eqn:E2; [discriminate|].
    inversion H; subst. destruct (IH e eq_refl) as [l1 [y [l2 [-> [Hy Hl1]]]]].
    exists (x :: l1), y, l2. repeat split; auto.
    intros z [<-|Hz]; [eauto|auto].
  - inversion H; subst. exists [], x, r. repeat split; auto. intros y [].
Qed.

Theorem unpack_elementwise_all : forall k align addr bs n,
  wf_kind k -> k <> KChar 2 -> 0 <= n -> n * ksize k <= Z.of_nat (length bs) -> addr <> 0 ->
  unpack gen_tables k align addr bs n = joined k (elementwise k addr bs n).
Proof.
  intros k align addr bs n Hwf H2 Hn Hb Ha.
  destruct (is_char k) eqn:Hc.
  - destruct k; try discriminate. cbn [wf_kind] in Hwf. cbn [ksize] in Hb.
    destruct Hwf as [->|[->| ->]].
    + apply unpack_elementwise_char; [lia|assumption].
    + contradiction H2; reflexivity.
    + apply unpack_elementwise_char32; assumption.
  - apply unpack_elementwise_list; auto using gen_tables_ok.
Qed.

(* ''.join of per-unit conversions: the first exception, else the concatenation *)
Fixpoint concat_res (l : list (res (list Z))) : res (list Z) :=
  match l with
  | [] => Ok []
  | r :: t => match r with
              | Err e => Err e
              | Ok x => match concat_res t with Err e => Err e | Ok y => Ok (x ++ y) end
              end
  end.

(* char16_t: unit by unit nothing is ever joined *)
Lemma concat_res_singletons16 : forall w, concat_res (map (fun u => from_char16 [u]) w) = Ok w.
Proof.
  induction w as [|u r IH]; [reflexivity|]. cbn [map concat_res].
  rewrite from_char16_single, IH. reflexivity.
Qed.

Theorem from_char16_elementwise_iff : forall w,
  from_char16 w = concat_res (map (fun u => from_char16 [u]) w) <-> count_surrogates w = 0.
Proof.
  intros w. rewrite concat_res_singletons16, from_char16_join, <- join16_fixed_iff.
  split; [intros H; inversion H; congruence|intros ->; reflexivity].
Qed.

