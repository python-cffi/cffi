(* C17 — cdata equality, ordering and hashing are mutually consistent.  Statements, each with its proof when
   nothing else uses it; the lemmas they share are in C17/Proofs.v.
   pyval / py_cmp / py_hash stand for CPython's non-cdata values, PyObject_RichCompare and hash()
   on them; the only thing assumed about them is CPython's own contract (x == y -> hash x = hash y),
   and for the last theorem the reflection law (x op' y = y op x). *)
From Coq Require Import ZArith List Bool Lia.
Import ListNotations.
From Cffi Require Import Base.Bits C17.Model C17.Proofs.
Open Scope Z_scope.

(* for any two objects at least one of which is a cdata:  a == b  ->  hash(a) == hash(b) *)
Theorem C17_eq_implies_hash :
  forall (pyval : Type) (py_cmp : cmpop -> pyval -> pyval -> res) (py_hash : pyval -> hres),
  (forall x y, py_cmp OEq x y = RBool true -> py_hash x = py_hash y) ->
  forall a b : obj pyval,
  (oid a = oid b -> oval a = oval b) ->
  is_cdata (oval a) = true \/ is_cdata (oval b) = true ->
  richcompare pyval py_cmp a b OEq = RBool true -> hash pyval py_hash a = hash pyval py_hash b.
Proof. exact eq_implies_hash. Qed.
Print Assumptions C17_eq_implies_hash.

(* pointer, array, struct, union and function cdata compare under all six operators exactly as
   their addresses, whatever their Python types (owning, gc'd, from_buffer, plain).
   The pointer branch of the model is the block `if (v_is_ptr && w_is_ptr) {...}` as the
   source has it (C17/Gen.v, regenerated on every run: which operands each `case Py_XX` compares, with
   which relation, as char* i.e. unsigned, or after a signed cast / as a signed difference); the
   theorem is proved on that text, operator by operator. *)
Theorem C17_ptr_compare :
  forall pyval py_cmp ia ib ta tb a b op,
  richcompare pyval py_cmp (Build_obj ia (VPtr ta a)) (Build_obj ib (VPtr tb b)) op = RBool (zcmp op a b).
Proof. exact ptr_compare. Qed.
Print Assumptions C17_ptr_compare.

(* ... and hash as their address does (_Py_HashPointer) *)
Theorem C17_ptr_hash :
  forall pyval py_hash ia t a, hash pyval py_hash (Build_obj ia (VPtr t a)) = HOk (hash_pointer a).
Proof. reflexivity. Qed.
Print Assumptions C17_ptr_hash.

(* primitive cdata compare and hash exactly as the Python value they convert to *)
Theorem C17_prim_py_compare :
  forall pyval py_cmp ia ib sa x y op,
  richcompare pyval py_cmp (Build_obj ia (VPrim sa (CvVal x))) (Build_obj ib (VPy y)) op = py_cmp op x y.
Proof. exact prim_py_compare. Qed.
Print Assumptions C17_prim_py_compare.

Theorem C17_prim_prim_compare :
  forall pyval py_cmp ia ib sa sb x y op,
  richcompare pyval py_cmp (Build_obj ia (VPrim sa (CvVal x))) (Build_obj ib (VPrim sb (CvVal y))) op
  = py_cmp op x y.
Proof. exact prim_prim_compare. Qed.
Print Assumptions C17_prim_prim_compare.

Theorem C17_py_prim_compare :
  forall pyval py_cmp, (forall op x y, py_cmp (swap op) x y = py_cmp op y x) ->
  forall ia ib sb x y op,
  richcompare pyval py_cmp (Build_obj ia (VPy y)) (Build_obj ib (VPrim sb (CvVal x))) op = py_cmp op y x.
Proof. intros pyval py_cmp py_swap ia ib sb x y op. rewrite py_prim_compare. apply py_swap. Qed.
Print Assumptions C17_py_prim_compare.

Theorem C17_prim_hash :
  forall pyval py_hash ia sa x, hash pyval py_hash (Build_obj ia (VPrim sa (CvVal x))) = py_hash x.
Proof. reflexivity. Qed.
Print Assumptions C17_prim_hash.

(* primitive cdata that do NOT convert to an ordinary Python value: long double (conversion gives
   a cdata: comparisons raise NotImplementedError, hash is that of its own storage) and values
   whose conversion raises (comparisons and hash raise): nothing compares equal to them, so
   C17_eq_implies_hash covers them vacuously — these theorems say what happens instead *)
Theorem C17_longdouble_compare : forall pyval py_cmp ia ib sa (w : value pyval) op,
  is_ptr w = false ->
  richcompare pyval py_cmp (Build_obj ia (VPrim sa CvCData)) (Build_obj ib w) op = RErr NotImplementedError.
Proof. intros pyval py_cmp ia ib sa w op Hw. apply exn_compare; [reflexivity | exact Hw]. Qed.
Print Assumptions C17_longdouble_compare.
Theorem C17_longdouble_compare_reflected : forall pyval py_cmp ia ib sa x op,
  richcompare pyval py_cmp (Build_obj ia (VPy x)) (Build_obj ib (VPrim sa CvCData)) op = RErr NotImplementedError.
Proof. intros. apply richcompare_cases. Qed.
Print Assumptions C17_longdouble_compare_reflected.
Theorem C17_longdouble_hash : forall pyval py_hash ia sa,
  hash pyval py_hash (Build_obj ia (VPrim sa CvCData)) = HOk (hash_pointer sa).
Proof. reflexivity. Qed.
Print Assumptions C17_longdouble_hash.
Theorem C17_unconvertible_compare : forall pyval py_cmp ia ib sa (w : value pyval) op,
  is_ptr w = false ->
  richcompare pyval py_cmp (Build_obj ia (VPrim sa CvErr)) (Build_obj ib w) op = RErr ConvError.
Proof. intros pyval py_cmp ia ib sa w op Hw. apply exn_compare; [reflexivity | exact Hw]. Qed.
Print Assumptions C17_unconvertible_compare.
Theorem C17_unconvertible_hash : forall pyval py_hash ia sa,
  hash pyval py_hash (Build_obj ia (VPrim sa CvErr)) = HErr ConvError.
Proof. reflexivity. Qed.
Print Assumptions C17_unconvertible_hash.

(* pointer-like against primitive cdata or against a non-cdata: NotImplemented on both sides,
   so == / != are object identity and the orderings raise TypeError *)
Theorem C17_mixed_compare :
  forall pyval py_cmp (a b : obj pyval) op,
  is_ptr (oval a) <> is_ptr (oval b) -> is_cdata (oval a) = true \/ is_cdata (oval b) = true ->
  richcompare pyval py_cmp a b op =
  match op with
  | OEq => RBool (N.eqb (oid a) (oid b))
  | ONe => RBool (negb (N.eqb (oid a) (oid b)))
  | _ => RErr TypeError
  end.
Proof. exact mixed_compare. Qed.
Print Assumptions C17_mixed_compare.

(* a op b and b op' a agree whenever neither raises *)
Theorem C17_compare_swap :
  forall pyval py_cmp, (forall op x y, py_cmp (swap op) x y = py_cmp op y x) ->
  forall (a b : obj pyval) op,
  is_cdata (oval a) = true \/ is_cdata (oval b) = true ->
  (forall e, richcompare pyval py_cmp a b op <> RErr e) ->
  (forall e, richcompare pyval py_cmp b a (swap op) <> RErr e) ->
  richcompare pyval py_cmp b a (swap op) = richcompare pyval py_cmp a b op.
Proof. exact compare_swap. Qed.
Print Assumptions C17_compare_swap.

(* _Py_HashPointer of a 64-bit address is a Py_hash_t and never the error value -1 *)
Theorem C17_hash_pointer_range : forall p, 0 <= p < 2 ^ 64 ->
  - 2 ^ 63 <= hash_pointer p < 2 ^ 63 /\ hash_pointer p <> -1.
Proof.
  intros p Hp. unfold hash_pointer.
  assert (0 <= Z.lor (Z.shiftr p 4) (Z.shiftl p 60 mod 2 ^ 64) < 2 ^ 64) as Hy.
  { apply lor_lt_pow2; [discriminate| |apply Z.mod_pos_bound; reflexivity].
    apply shiftr_lt_pow2; [exact Hp|discriminate]. }
  (* 2^63 stays folded: the case analysis sees a positive h and 2^64 = 2 * h *)
  revert Hy. generalize (Z.lor (Z.shiftr p 4) (Z.shiftl p 60 mod 2 ^ 64)). intros y Hy. cbv zeta.
  change (2 ^ 64) with (2 * 2 ^ 63) in *. assert (1 < 2 ^ 63) as Hh by reflexivity.
  revert Hy Hh. generalize (2 ^ 63). intros h Hy Hh.
  destruct (Z.leb_spec h y).
  - destruct (Z.eqb_spec (y - 2 * h) (-1)); lia.
  - destruct (Z.eqb_spec y (-1)); lia.
Qed.
Print Assumptions C17_hash_pointer_range.

(* cdata_hash as the source has it: C17/Gen.v hash_prog is regenerated on every run from the whole
   body of cdata_hash (the arms tried before `return _Py_HashPointer(c_data)`); Model.hash / hash_prim
   interpret it.  raw is the value read_raw_signed_data gives for a signed fits-long ctype (what an
   integer shortcut arm would look at).  A primitive cdata hashes as the Python value it converts to,
   for EVERY raw value; with a shortcut arm such as "a non-negative C integer is its own hash"
   (HNonnegSelf) in front this is false, see C17_nonneg_shortcut_refuted. *)
Theorem C17_prim_hash_every_value :
  forall (pyval : Type) (py_hash : pyval -> hres) self (x : pyval) (raw : option Z),
  hash_prim pyval py_hash hash_prog self (CvVal x) raw = py_hash x.
Proof. reflexivity. Qed.
Print Assumptions C17_prim_hash_every_value.

Theorem C17_longdouble_hash_every_value :
  forall (pyval : Type) (py_hash : pyval -> hres) self (raw : option Z),
  hash_prim pyval py_hash hash_prog self CvCData raw = HOk (hash_pointer self).
Proof. reflexivity. Qed.
Print Assumptions C17_longdouble_hash_every_value.

(* integer cdata, Python's int hash modelled concretely (pyint_hash: sign * (|v| mod (2^61-1)), -1 -> -2):
   hash(cd) = hash(int(cd)) for every 64-bit value, signed or unsigned ctype, fits-long or not *)
Theorem C17_int_cdata_hash_every_value :
  forall signed fits_long self v, - 2 ^ 63 <= v < 2 ^ 64 ->
  int_cdata_hash hash_prog signed fits_long self v = HOk (pyint_hash v).
Proof. intros signed fits_long self v _. destruct signed, fits_long; reflexivity. Qed.
Print Assumptions C17_int_cdata_hash_every_value.

Theorem C17_pyint_hash_small : forall v, 0 <= v < 2 ^ 61 - 1 -> pyint_hash v = v.
Proof.
  intros v H. unfold pyint_hash.
  assert (E : Z.sgn v * (Z.abs v mod (2 ^ 61 - 1)) = v).
  { rewrite Z.abs_eq, Z.mod_small by tauto. destruct (Z.eq_dec v 0) as [->|]; [reflexivity|].
    rewrite Z.sgn_pos by lia. apply Z.mul_1_l. }
  cbv zeta. rewrite E. destruct (Z.eqb_spec v (-1)); [lia|reflexivity].
Qed.
Print Assumptions C17_pyint_hash_small.
Theorem C17_pyint_hash_not_identity : forall v, 2 ^ 61 - 1 <= v -> pyint_hash v <> v.
Proof. exact pyint_hash_not_identity. Qed.
Print Assumptions C17_pyint_hash_not_identity.
Theorem C17_pyint_hash_range : forall v, - 2 ^ 63 <= v < 2 ^ 64 ->
  - (2 ^ 61 - 1) < pyint_hash v < 2 ^ 61 - 1 /\ pyint_hash v <> -1.
Proof. intros v _. exact (sgn_abs_mod_range (2 ^ 61 - 1) v eq_refl). Qed.
Print Assumptions C17_pyint_hash_range.

(* the program with the shortcut arm in front violates C17_int_cdata_hash_every_value at every value
   from 2^61-1 on (C17_int_cdata_hash_every_value does depend on the program) *)
Theorem C17_nonneg_shortcut_refuted : forall self v, 2 ^ 61 - 1 <= v < 2 ^ 63 ->
  int_cdata_hash [HNonnegSelf; HConvert] true true self v <> HOk (pyint_hash v).
Proof.
  intros self v H. unfold int_cdata_hash. cbn.
  destruct (Z.leb_spec 0 v) as [_|Q]; [|lia].
  intros E. injection E as E'. symmetry in E'. revert E'. apply pyint_hash_not_identity. tauto.
Qed.
Print Assumptions C17_nonneg_shortcut_refuted.

Example C17_pyint_hash_examples :
  pyint_hash (-1) = -2 /\ pyint_hash (2 ^ 61 - 1) = 0 /\ pyint_hash (2 ^ 61) = 1 /\
  pyint_hash (- 2 ^ 63) = -4 /\ pyint_hash (2 ^ 64 - 1) = 7 /\ pyint_hash (- (2 ^ 61)) = -2.
Proof. vm_compute. repeat split; reflexivity. Qed.

(* non-vacuity: Python values 0,1 with 0 == 1 true and equal hashes (think 5 and 5.0);
   an int cdata against a float, a struct against a pointer to it, a pointer against an int cdata *)
Example C17_example :
  let eqt := [RBool false; RBool true; RBool true; RBool false; RBool false; RBool true] in
  let t := [eqt; eqt; eqt; eqt] in
  let h := [HOk 5; HOk 5] in
  run_case (t, h, Build_obj 1%N (VPrim 1000 (CvVal 0%nat)), Build_obj 2%N (VPy 1%nat))
  = (eqt, eqt, HOk 5, HOk 5) /\
  run_case (t, h, Build_obj 1%N (VPtr TOwn 4096), Build_obj 2%N (VPtr TBase 4096))
  = (eqt, eqt, HOk 256, HOk 256) /\
  run_case (t, h, Build_obj 1%N (VPtr TOwn 4096), Build_obj 2%N (VPrim 1000 (CvVal 0%nat)))
  = ([RErr TypeError; RErr TypeError; RBool false; RBool true; RErr TypeError; RErr TypeError],
     [RErr TypeError; RErr TypeError; RBool false; RBool true; RErr TypeError; RErr TypeError], HOk 256, HOk 5) /\
  hash_pointer (2 ^ 64 - 1) = -2.
Proof. vm_compute. repeat split; reflexivity. Qed.
