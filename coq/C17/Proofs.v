(* C17 — the lemmas the statements of C17/Props.v share.  Inside Section Proofs Python's own values, their
   comparison py_cmp and their hash py_hash are parameters, and CPython's contracts on them hypotheses; the
   master lemma is richcompare_cases, the whole of do_richcompare over cdata_richcompare as one formula on
   three `view`s of an operand, and the other lemmas of the section are read off it.  After the section, two
   facts about CPython's int hash. *)
From Coq Require Import ZArith List Bool Lia.
Import ListNotations.
From Cffi Require Import C17.Model.
Open Scope Z_scope.

Lemma zcmp_swap o a b : zcmp (swap o) b a = zcmp o a b.
Proof. destruct o; cbn; auto; rewrite Z.eqb_sym; reflexivity. Qed.

(* the regenerated pointer branch compares the two addresses as unsigned numbers, operator by operator *)
Lemma ptr_cmp_zcmp op a b : ptr_cmp ptr_branch op a b = zcmp op a b.
Proof. destruct op; reflexivity. Qed.

Lemma swap_invol o : swap (swap o) = o.
Proof. destruct o; reflexivity. Qed.

Section Proofs.
Variable pyval : Type.
Variable py_cmp : cmpop -> pyval -> pyval -> res.
Variable py_hash : pyval -> hres.

(* CPython's own contract on the non-cdata values involved *)
Hypothesis py_eq_hash : forall x y, py_cmp OEq x y = RBool true -> py_hash x = py_hash y.

Notation obj := (obj pyval).
Notation value := (value pyval).
Notation richcompare := (richcompare pyval py_cmp).
Notation hash := (hash pyval py_hash).

(* objects with the same identity are the same object *)
Definition wf_pair (a b : obj) : Prop := oid a = oid b -> oval a = oval b.

(* what an operand is to a comparison: an address, a Python value (its own, or the one a primitive cdata
   converts to), or the exception the conversion of a primitive cdata ends in *)
Inductive view := APtr (p : Z) | AVal (cdata : bool) (x : pyval) | AExn (e : exn).
Definition view_of (v : value) : view :=
  match v with
  | VPtr _ p => APtr p
  | VPrim _ (CvVal x) => AVal true x
  | VPrim _ CvCData => AExn NotImplementedError
  | VPrim _ CvErr => AExn ConvError
  | VPy x => AVal false x
  end.

(* what is left when both slots answer NotImplemented *)
Definition identity (a b : obj) (op : cmpop) : res :=
  match op with
  | OEq => RBool (N.eqb (oid a) (oid b))
  | ONe => RBool (negb (N.eqb (oid a) (oid b)))
  | _ => RErr TypeError
  end.

(* do_richcompare over cdata_richcompare as one formula: the 5 x 5 table of operand kinds (pointer-like; primitive
   whose conversion gives a value, a cdata again, an exception; Python value) read through the three views.  The
   Python types and the order in which CPython tries the slots show only where a Python value stands on the left
   of a primitive cdata *)
Theorem richcompare_cases (a b : obj) op :
  richcompare a b op =
  match view_of (oval a), view_of (oval b) with
  | APtr p, APtr q => RBool (zcmp op p q)
  | APtr _, _ | _, APtr _ => identity a b op
  | AExn e, _ | AVal _ _, AExn e => RErr e
  | AVal false y, AVal true x => py_cmp (swap op) x y
  | AVal _ x, AVal _ y => py_cmp op x y
  end.
Proof.
  destruct a as [ia [ta p|sa [x| |]|x]], b as [ib [tb q|sb [y| |]|y]];
    unfold Model.richcompare, reflected_first;
    cbn [oval oid ptype slot cdata_richcompare view_of proper_subtype res_of_slot];
    try (destruct (proper_subtype _ _); cbn [res_of_slot]; rewrite ?ptr_cmp_zcmp, ?zcmp_swap);
    try reflexivity;
    match goal with |- context [py_cmp ?o ?x ?y] => destruct (py_cmp o x y) end; reflexivity.
Qed.

Lemma identity_swap (a b : obj) op : identity b a (swap op) = identity a b op.
Proof. unfold identity. rewrite N.eqb_sym. destruct op; reflexivity. Qed.

Lemma ptr_compare ia ib ta tb a b op :
  richcompare (Build_obj ia (VPtr ta a)) (Build_obj ib (VPtr tb b)) op = RBool (zcmp op a b).
Proof. apply richcompare_cases. Qed.

Lemma prim_py_compare ia ib sa x y op :
  richcompare (Build_obj ia (VPrim sa (CvVal x))) (Build_obj ib (VPy y)) op = py_cmp op x y.
Proof. apply richcompare_cases. Qed.

Lemma prim_prim_compare ia ib sa sb x y op :
  richcompare (Build_obj ia (VPrim sa (CvVal x))) (Build_obj ib (VPrim sb (CvVal y))) op = py_cmp op x y.
Proof. apply richcompare_cases. Qed.

(* a Python value on the left: CPython ends up in the cdata's slot with the swapped operator *)
Lemma py_prim_compare ia ib sb x y op :
  richcompare (Build_obj ia (VPy y)) (Build_obj ib (VPrim sb (CvVal x))) op = py_cmp (swap op) x y.
Proof. apply richcompare_cases. Qed.

Lemma exn_compare (a b : obj) op e :
  view_of (oval a) = AExn e -> is_ptr (oval b) = false -> richcompare a b op = RErr e.
Proof.
  intros Ha Hb. rewrite richcompare_cases, Ha.
  destruct (oval b) as [t q|sb [y| |]|y]; discriminate || reflexivity.
Qed.

(* mixed pointer-like / anything else: NotImplemented on both sides, i.e. identity.  The hypothesis
   `is_cdata _ \/ is_cdata _` is dropped at once, here, in eq_implies_hash and in compare_swap: richcompare_cases
   needs none, and the statements of Props.v, which speak of comparisons that involve a cdata, fix it *)
Lemma mixed_compare (a b : obj) op :
  is_ptr (oval a) <> is_ptr (oval b) -> is_cdata (oval a) = true \/ is_cdata (oval b) = true ->
  richcompare a b op =
  match op with
  | OEq => RBool (N.eqb (oid a) (oid b))
  | ONe => RBool (negb (N.eqb (oid a) (oid b)))
  | _ => RErr TypeError
  end.
Proof.
  intros Hm _. rewrite richcompare_cases.
  destruct (oval a) as [? ?|? []|?], (oval b) as [? ?|? []|?]; cbn in *; congruence || reflexivity.
Qed.

(* the is_cdata hypothesis is unused, as in mixed_compare *)
Theorem eq_implies_hash (a b : obj) :
  wf_pair a b -> is_cdata (oval a) = true \/ is_cdata (oval b) = true ->
  richcompare a b OEq = RBool true -> hash a = hash b.
Proof.
  intros Hwf _ H. rewrite richcompare_cases in H.
  destruct a as [ia [ta p|sa [x| |]|x]], b as [ib [tb q|sb [y| |]|y]]; cbn in *; try discriminate H;
    (* one pointer-like operand: equal only as the same object, which the two are not *)
    try (injection H as E; apply N.eqb_eq in E; discriminate (Hwf E)).
  - injection H as E. apply Z.eqb_eq in E. subst. reflexivity.
  - auto.
  - auto.
  - symmetry. auto.
  - auto.
Qed.

(* Python's own reflection law *)
Hypothesis py_swap : forall op x y, py_cmp (swap op) x y = py_cmp op y x.

Theorem compare_swap (a b : obj) op :
  is_cdata (oval a) = true \/ is_cdata (oval b) = true ->
  (forall e, richcompare a b op <> RErr e) -> (forall e, richcompare b a (swap op) <> RErr e) ->
  richcompare b a (swap op) = richcompare a b op.
Proof.
  (* an operand whose conversion fails makes both sides raise: the hypothesis on a op b rules it out alone;
     the is_cdata hypothesis is unused, as in mixed_compare *)
  intros _ H1 _. rewrite !richcompare_cases in *.
  destruct (view_of (oval a)) as [p|[] x|e], (view_of (oval b)) as [q|[] y|e'];
    try apply identity_swap; try (destruct (H1 _ eq_refl)).
  - rewrite zcmp_swap. reflexivity.
  - apply py_swap.
  - rewrite swap_invol. reflexivity.
  - reflexivity.
  - apply py_swap.
Qed.

End Proofs.

(* CPython's int hash for any modulus m > 2 in place of 2^61 - 1, which stays folded below *)
Lemma sgn_abs_mod_range m v : 2 < m ->
  let h := Z.sgn v * (Z.abs v mod m) in
  - m < (if h =? -1 then -2 else h) < m /\ (if h =? -1 then -2 else h) <> -1.
Proof.
  intros Hm h. subst h. pose proof (Z.mod_pos_bound (Z.abs v) m ltac:(lia)) as B.
  set (r := Z.abs v mod m) in *.
  destruct (Z.sgn_spec v) as [[? ->]|[[? ->]|[? ->]]].
  - destruct (Z.eqb_spec (1 * r) (-1)); lia.
  - destruct (Z.eqb_spec (0 * r) (-1)); lia.
  - destruct (Z.eqb_spec (- (1) * r) (-1)); lia.
Qed.

(* CPython's int hash is not the identity from the modulus on: the "a non-negative C integer is its own
   hash" shortcut is wrong *)
Lemma pyint_hash_not_identity v : 2 ^ 61 - 1 <= v -> pyint_hash v <> v.
Proof.
  intros H. unfold pyint_hash. cbv zeta. assert (2 < 2 ^ 61 - 1) as Hm by reflexivity.
  revert H Hm. generalize (2 ^ 61 - 1). intros m H Hm.
  rewrite Z.abs_eq, Z.sgn_pos, Z.mul_1_l by lia.
  pose proof (Z.mod_pos_bound v m ltac:(lia)). destruct (Z.eqb_spec (v mod m) (-1)); lia.
Qed.
