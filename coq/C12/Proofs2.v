(* C12 — proofs, part (b): struct realisation with and without _CFFI_F_CHECK_FIELDS. *)
From Coq Require Import ZArith List Bool Lia ZifyBool.
Import ListNotations.
From Cffi Require Import Base.Align C12.Spec C12.Gen C12.Model.
Local Open Scope Z_scope.

(* what a field alignment is assumed to be: roundup x a >= x needs it.  The text of Base.Align.is_pow2, whose
   lemmas apply to it as they are *)
Definition pow2 (a : Z) : Prop := exists k, 0 <= k /\ a = 2 ^ k.

Lemma roundup_ge x a : pow2 a -> x <= roundup x a.
Proof.
  intros P. unfold roundup. rewrite (mask_floor _ a P). apply (roundup_bounds x a), (is_pow2_pos a P).
Qed.

(* SF_STD_FIELD_POS is set: a forced value that differs from the computed one is an error *)
Definition std (sflags : Z) : bool := negb (Z.land sflags SF_STD_FIELD_POS =? 0).

Lemma detect_std sflags a b : std sflags = true ->
  detect_custom_layout sflags a b = if b =? a then Ok false else Err FFIError.
Proof.
  unfold std, detect_custom_layout. intros ->. destruct (b =? a); reflexivity.
Qed.

Lemma detect_cases sflags a b :
  (exists x, detect_custom_layout sflags a b = Ok x) \/
  (std sflags = true /\ detect_custom_layout sflags a b = Err FFIError).
Proof. unfold std, detect_custom_layout. destruct (b =? a), (Z.land _ _ =? 0); cbn; eauto. Qed.

Lemma realize_fields_spec : forall decl reps,
  length decl = length reps -> Forall (fun r => 0 <= fr_off r) reps ->
  (realize_fields (combine decl reps) = Ok tt /\ map fd_size decl = map fr_size reps) \/
  (realize_fields (combine decl reps) = Err FFIError /\ map fd_size decl <> map fr_size reps).
Proof.
  induction decl as [| d decl IH]; intros [| r reps] Hlen Hoff; cbn in Hlen; try discriminate.
  - left. split; reflexivity.
  - inversion Hoff as [| ? ? Hr Hrest]; subst.
    cbn [combine realize_fields map].
    assert (Hm1 : (fr_off r =? -1) = false) by lia. rewrite Hm1.
    change realize_field_check_sflags with SF_STD_FIELD_POS.
    rewrite detect_std by reflexivity.
    destruct (Z.eqb_spec (fr_size r) (fd_size d)) as [Heq | Hne].
    + destruct (IH reps ltac:(lia) Hrest) as [[H1 H2] | [H1 H2]].
      * left. split; [exact H1 | congruence].
      * right. split; [exact H1 | intros H; inversion H; contradiction].
    + right. split; [reflexivity | intros H; inversion H; congruence].
Qed.

(* of a successful loop struct_checked_cases needs: the declared sizes, and an alignment that is still a power of two *)
Lemma loop_success : forall sflags pack u fs bo bm al bm' al' l,
  fields_loop sflags pack u fs bo bm al = Ok (bm', al', l) ->
  map snd l = map (fun p => fd_size (fst p)) fs /\
  (pow2 pack -> pow2 al -> Forall (fun p => pow2 (fd_align (fst p))) fs -> pow2 al').
Proof.
  induction fs as [| [d o] fs IH]; intros bo bm al bm' al' l H; cbn [fields_loop] in H.
  - inversion H; subst. split; [reflexivity | tauto].
  - destruct (_ && _) in H; [discriminate|].
    destruct (if o >=? 0 then _ else _) in H; [|discriminate].
    match type of H with
    | match ?X with _ => _ end = _ => destruct X as [[[bm1 al1] l1] |] eqn:E; [|discriminate]
    end.
    inversion H; subst. apply IH in E. destruct E as (E1 & E3). split.
    + cbn [map snd fst]. f_equal. exact E1.
    + intros Hp Ha Hf. inversion Hf; subst. apply E3; [exact Hp | | assumption].
      destruct (al <? _); [destruct (pack <? fd_align d)|]; assumption.
Qed.

(* sn: the natural run (every offset -1); sf: the run forced to offs under SF_STD_FIELD_POS, which repeats it or fails *)
Lemma loop_checked : forall sn sf pack u decl offs bo bm al bm' al' l',
  length decl = length offs -> Forall (fun o => 0 <= o) offs -> std sf = true ->
  fields_loop sn pack u (map (fun d => (d, -1)) decl) bo bm al = Ok (bm', al', l') ->
  (offs = map fst l' /\ fields_loop sf pack u (combine decl offs) bo bm al = Ok (bm', al', l')) \/
  (offs <> map fst l' /\ fields_loop sf pack u (combine decl offs) bo bm al = Err FFIError).
Proof.
  induction decl as [| d decl IH]; intros [| o offs] bo bm al bm' al' l' Hlen Hoff Hstd Hnat;
    cbn in Hlen; try discriminate.
  - cbn in Hnat. injection Hnat as <- <- <-. left. split; reflexivity.
  - inversion Hoff as [| ? ? Ho Hrest]; subst.
    cbn [map fields_loop] in Hnat. cbn [combine fields_loop].
    change (-1 =? -1) with true in Hnat. change (-1 >=? 0) with false in Hnat.
    cbv iota in Hnat.
    assert (Ho1 : (o =? -1) = false) by lia. assert (Ho2 : (o >=? 0) = true) by lia.
    rewrite Ho1, Ho2. cbn [negb]. rewrite orb_true_r. cbn [negb]. rewrite andb_false_r.
    destruct (_ && _) in Hnat; [discriminate|].
    set (bo1 := roundup (if u then 0 else bo) (if pack <? fd_align d then pack else fd_align d)) in *.
    set (al1 := if al <? (if pack <? fd_align d then pack else fd_align d)
                then (if pack <? fd_align d then pack else fd_align d) else al) in *.
    rewrite detect_std by exact Hstd.
    match type of Hnat with
    | match ?X with _ => _ end = _ => destruct X as [[[bm1 a1] l1] |] eqn:E; [|discriminate]
    end.
    injection Hnat as <- <- <-. cbn [map fst].
    (* a forced offset equal to the natural position leaves the loop in the state of the natural run *)
    destruct (Z.eqb_spec o bo1) as [-> | Hne].
    + destruct (IH offs _ _ _ _ _ _ ltac:(lia) Hrest Hstd E) as [[Ht ->] | [Ht ->]]; [left | right];
        (split; [congruence | reflexivity]).
    + right. split; [congruence | reflexivity].
Qed.

(* byteoffsetmax after the loop, entered with bm, has run over reported fields; rep_end below is the case bm = 0 *)
Definition ends (reps : list frep) (bm : Z) : Z :=
  fold_left (fun m r => let e := if fr_size r >=? 0 then fr_off r + fr_size r else fr_off r in
                        if e >? m then e else m) reps bm.

(* a run over forced offsets, whatever the flags: the fields come out at the forced offsets, or a
   comparison under SF_STD_FIELD_POS fails *)
Lemma loop_forced : forall sf pack u decl reps bo bm al,
  map fd_size decl = map fr_size reps -> Forall (fun r => 0 <= fr_off r) reps ->
  (exists al', fields_loop sf pack u (combine decl (map fr_off reps)) bo bm al =
               Ok (ends reps bm, al', map (fun r => (fr_off r, fr_size r)) reps)) \/
  (std sf = true /\ fields_loop sf pack u (combine decl (map fr_off reps)) bo bm al = Err FFIError).
Proof.
  induction decl as [| d decl IH]; intros [| r reps] bo bm al Hs Hoff; try discriminate.
  - left. cbn. eauto.
  - injection Hs as Hd Hs. inversion Hoff as [| ? ? Ho Hrest]; subst.
    cbn [combine fields_loop ends fold_left map].
    replace (fr_off r =? -1) with false by lia. replace (fr_off r >=? 0) with true by lia.
    cbn [negb]. rewrite orb_true_r. cbn [negb]. rewrite andb_false_r.
    destruct (detect_cases sf (roundup (if u then 0 else bo)
                (if pack <? fd_align d then pack else fd_align d)) (fr_off r)) as [[x ->] | [S ->]]; [|auto].
    rewrite Hd. edestruct (IH reps) as [[al' ->] | [S ->]]; [exact Hs | exact Hrest | left | auto].
    eexists. reflexivity.
Qed.

Lemma sflags_checked packed :
  let f := struct_flags false packed in
  Z.lor (if has_flag f F_CHECK_FIELDS then SF_STD_FIELD_POS else 0)
        (if has_flag f F_PACKED then SF_PACKED else 0)
  = Z.lor SF_STD_FIELD_POS (if packed then SF_PACKED else 0).
Proof. destruct packed; reflexivity. Qed.

Lemma sflags_partial packed :
  let f := struct_flags true packed in
  Z.lor (if has_flag f F_CHECK_FIELDS then SF_STD_FIELD_POS else 0)
        (if has_flag f F_PACKED then SF_PACKED else 0)
  = (if packed then SF_PACKED else 0).
Proof. destruct packed; reflexivity. Qed.

(* what a C compiler can report: no offsetof, sizeof or alignment is negative *)
Definition wf_report (rep : report) : Prop :=
  Forall (fun r => 0 <= fr_off r) (r_fields rep) /\ 0 <= r_size rep /\ 0 <= r_align rep.

Theorem realized_is_report : forall flags u decl rep L,
  length decl = length (r_fields rep) -> wf_report rep ->
  realize_struct flags u decl rep = Ok L -> L = report_layout rep.
Proof.
  intros flags u decl rep L Hlen (Hoff & Hsz & Hal). unfold realize_struct, complete.
  destruct (realize_fields_spec decl (r_fields rep) Hlen Hoff) as [[-> Hs] | [-> _]]; [|discriminate].
  match goal with |- context [fields_loop ?sf ?pack u _ 0 0 1] =>
    destruct (loop_forced sf pack u decl (r_fields rep) 0 0 1 Hs Hoff) as [[al' ->] | [_ ->]] end; [|discriminate].
  rewrite (proj2 (Z.ltb_ge (r_size rep) 0) Hsz), (proj2 (Z.ltb_ge (r_align rep) 0) Hal).
  destruct (detect_custom_layout _ _ (r_size rep)); [|discriminate].
  destruct (r_size rep <? _); [discriminate|].
  destruct (detect_custom_layout _ _ (r_align rep)); [|discriminate].
  intros H. injection H as <-. reflexivity.
Qed.

Lemma struct_checked_cases : forall packed u decl rep Lnat,
  length decl = length (r_fields rep) -> wf_report rep ->
  Forall (fun d => pow2 (fd_align d)) decl ->
  natural packed u decl = Ok Lnat ->
  (report_layout rep = Lnat /\
     realize_struct (struct_flags false packed) u decl rep = Ok (report_layout rep)) \/
  (report_layout rep <> Lnat /\
     realize_struct (struct_flags false packed) u decl rep = Err FFIError).
Proof.
  (* the natural run yields (bm, al, l); the checked run compares field sizes, offsets, total size and
     alignment in turn: a comparison that fails shows the report to differ from the natural layout in
     that component, and when all pass the two coincide *)
  intros packed u decl rep Lnat Hlen Hwf Hpow Hnat.
  enough (realize_struct (struct_flags false packed) u decl rep = Ok Lnat \/
          (report_layout rep <> Lnat /\
           realize_struct (struct_flags false packed) u decl rep = Err FFIError)) as [R | R]; [left | right; exact R |].
  { rewrite <- (realized_is_report _ _ _ _ _ Hlen Hwf R). split; [reflexivity | exact R]. }
  destruct Hwf as (Hoff & Hsz & Hal). unfold realize_struct. rewrite sflags_checked.
  unfold natural, complete in Hnat.
  set (sn := if packed then SF_PACKED else 0) in *.
  set (sf := Z.lor SF_STD_FIELD_POS sn).
  assert (Hpack : (if negb (Z.land sf SF_PACKED =? 0) then 1 else SF_DEFAULT_PACKING)
                  = (if negb (Z.land sn SF_PACKED =? 0) then 1 else SF_DEFAULT_PACKING))
    by (subst sf sn; destruct packed; reflexivity).
  assert (Hstd : std sf = true) by (subst sf sn; destruct packed; reflexivity).
  set (pack := if negb (Z.land sn SF_PACKED =? 0) then 1 else SF_DEFAULT_PACKING) in *.
  assert (Hppow : pow2 pack).
  { subst pack sn. destruct packed; [exists 0 | exists 30]; split; try lia; reflexivity. }
  destruct (fields_loop sn pack u (map (fun d => (d, -1)) decl) 0 0 1)
    as [[[bm al] l] |] eqn:Eloop; [|discriminate].
  change (-1 <? 0) with true in Hnat. cbv iota in Hnat.
  set (asz := if roundup bm al =? 0 then 1 else roundup bm al) in *.
  injection Hnat as <-.
  destruct (loop_success _ _ _ _ _ _ _ _ _ _ Eloop) as (Hsizes & Halpow).
  rewrite map_map in Hsizes. cbn [fst] in Hsizes.
  assert (Halpow' : pow2 al)
    by (apply Halpow; [exact Hppow | exists 0; split; [lia | reflexivity] | apply Forall_map, Hpow]).
  assert (Hasz : bm <= asz).
  { subst asz. pose proof (roundup_ge bm al Halpow'). destruct (Z.eqb_spec (roundup bm al) 0); lia. }
  unfold report_layout.
  destruct (realize_fields_spec decl (r_fields rep) Hlen Hoff) as [[Hrf Hsz_eq] | [Hrf Hsz_ne]];
    rewrite Hrf.
  2:{ right. split; [|reflexivity]. intros H. injection H as H1 _ _. apply Hsz_ne.
      transitivity (map snd l); [symmetry; exact Hsizes | rewrite <- H1, map_map; reflexivity]. }
  unfold complete. rewrite Hpack. fold pack.
  destruct (loop_checked sn sf pack u decl (map fr_off (r_fields rep)) 0 0 1 bm al l
              ltac:(rewrite map_length; exact Hlen)
              ltac:(apply Forall_map; exact Hoff) Hstd Eloop) as [[Hoffs ->] | [Hoffs ->]].
  2:{ right. split; [|reflexivity]. intros H. injection H as H1 _ _. apply Hoffs.
      rewrite <- H1, map_map. reflexivity. }
  fold asz.
  rewrite (proj2 (Z.ltb_ge (r_size rep) 0) Hsz), (proj2 (Z.ltb_ge (r_align rep) 0) Hal).
  rewrite !detect_std by exact Hstd.
  destruct (Z.eqb_spec (r_size rep) asz) as [Hs | Hs].
  2:{ right. split; [|reflexivity]. intros H. injection H as _ H2 _. contradiction. }
  rewrite (proj2 (Z.ltb_ge (r_size rep) bm)) by lia.
  destruct (Z.eqb_spec (r_align rep) al) as [Ha | Ha].
  2:{ right. split; [|reflexivity]. intros H. injection H as _ _ H3. contradiction. }
  left. rewrite Hs, Ha. reflexivity.
Qed.

Theorem struct_checked : forall packed u decl rep Lnat,
  length decl = length (r_fields rep) -> wf_report rep ->
  Forall (fun d => pow2 (fd_align d)) decl ->
  natural packed u decl = Ok Lnat ->
  (report_layout rep = Lnat ->
     realize_struct (struct_flags false packed) u decl rep = Ok (report_layout rep)) /\
  (report_layout rep <> Lnat ->
     realize_struct (struct_flags false packed) u decl rep = Err FFIError).
Proof.
  intros packed u decl rep Lnat Hlen Hwf Hpow Hnat.
  destruct (struct_checked_cases packed u decl rep Lnat Hlen Hwf Hpow Hnat) as [[E R] | [E R]];
    split; intros H; [exact R | contradiction | contradiction | exact R].
Qed.

(* the furthest end of a reported field: byteoffsetmax after the field loop has run over the report *)
Definition rep_end (reps : list frep) : Z :=
  fold_left (fun m r => let e := if fr_size r >=? 0 then fr_off r + fr_size r else fr_off r in
                        if e >? m then e else m) reps 0.

Theorem struct_partial : forall packed u decl rep,
  length decl = length (r_fields rep) -> wf_report rep ->
  (map fd_size decl <> map fr_size (r_fields rep) ->
     realize_struct (struct_flags true packed) u decl rep = Err FFIError) /\
  (map fd_size decl = map fr_size (r_fields rep) -> r_size rep < rep_end (r_fields rep) ->
     realize_struct (struct_flags true packed) u decl rep = Err TypeError) /\
  (map fd_size decl = map fr_size (r_fields rep) -> rep_end (r_fields rep) <= r_size rep ->
     realize_struct (struct_flags true packed) u decl rep = Ok (report_layout rep)).
Proof.
  intros packed u decl rep Hlen (Hoff & Hsz & Hal).
  unfold realize_struct. rewrite sflags_partial.
  set (sf := if packed then SF_PACKED else 0).
  assert (Hstd : std sf = false) by (subst sf; destruct packed; reflexivity).
  destruct (realize_fields_spec decl (r_fields rep) Hlen Hoff) as [[Hrf Hs] | [Hrf Hs]]; rewrite Hrf.
  2:{ repeat split; intros; try reflexivity; contradiction. }
  split; [intros; contradiction|].
  unfold complete.
  destruct (loop_forced sf (if negb (Z.land sf SF_PACKED =? 0) then 1 else SF_DEFAULT_PACKING) u decl (r_fields rep) 0 0 1 Hs Hoff) as [[al' ->] | [S _]]; [|congruence].
  change (ends (r_fields rep) 0) with (rep_end (r_fields rep)).
  rewrite (proj2 (Z.ltb_ge (r_size rep) 0) Hsz), (proj2 (Z.ltb_ge (r_align rep) 0) Hal).
  match goal with |- context [detect_custom_layout sf ?a (r_size rep)] =>
    destruct (detect_cases sf a (r_size rep)) as [[x1 ->] | [S _]]; [|congruence] end.
  destruct (detect_cases sf al' (r_align rep)) as [[x2 Hx2] | [S _]]; [|congruence].
  split; intros _ Hend.
  - rewrite (proj2 (Z.ltb_lt _ _) Hend). reflexivity.
  - rewrite (proj2 (Z.ltb_ge _ _) Hend), Hx2. reflexivity.
Qed.
