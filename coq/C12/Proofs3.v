(* C12 — proofs, part (c): a constant's name used as an array length in a run-time type string
   (parse_c_type.c parse_sequel; the decision is the regenerated Gen.gen_ps_const_length). *)
From Coq Require Import ZArith List Bool Lia ZifyBool.
Import ListNotations.
From Cffi Require Import C12.Spec C12.Gen C12.Model C12.Proofs.
Local Open Scope Z_scope.

Lemma max_ssize_t_value : gen_MAX_SSIZE_T = 2 ^ 63 - 1.
Proof. reflexivity. Qed.

Lemma ps_decision : forall neg value,
  gen_ps_const_length neg value =
    if neg =? 0 then (if value <=? 2 ^ 63 - 1 then PSLen value else PSErr PSTooLarge)
    else if neg =? 1 then (if value =? 0 then PSLen 0 else PSErr PSNotPositive)
    else PSErr PSDisagree.
Proof.
  intros neg value. unfold gen_ps_const_length. rewrite max_ssize_t_value, Z.gtb_ltb, Z.ltb_antisym.
  destruct (neg =? 0), (neg =? 1), (value <=? 2 ^ 63 - 1), (Z.eqb_spec value 0); subst; reflexivity.
Qed.

(* return codes other than 0 and 1 (the getter's "the C compiler disagrees with the cdef":
   2 = disagreement on a positive value, 3 = on a value <= 0) never give a length *)
Lemma ps_mismatch_code : forall neg value, neg <> 0 -> neg <> 1 ->
  gen_ps_const_length neg value = PSErr PSDisagree.
Proof.
  intros neg value N0 N1. rewrite ps_decision.
  apply Z.eqb_neq in N0, N1. rewrite N0, N1. reflexivity.
Qed.

Lemma ps_length_is_value : forall neg value n, 0 <= value ->
  gen_ps_const_length neg value = PSLen n ->
  n = value /\ 0 <= n <= 2 ^ 63 - 1 /\ (neg = 0 \/ neg = 1).
Proof.
  intros neg value n Hv. rewrite ps_decision.
  destruct (Z.eqb_spec neg 0), (Z.eqb_spec neg 1), (Z.leb_spec value (2 ^ 63 - 1)), (Z.eqb_spec value 0);
    intros Q; inversion Q; subst; lia.
Qed.

Lemma ps_of_agreeing c : - 2 ^ 63 <= c < 2 ^ 64 ->
  gen_ps_const_length (b2z (c <=? 0)) (c mod 2 ^ 64) = length_of_value c.
Proof.
  intros C. rewrite ps_decision. unfold length_of_value, SSIZE_MAX.
  destruct (Z.leb_spec c 0); cbn [b2z Z.eqb Pos.eqb].
  - (* c <= 0: its 64-bit pattern is 0 only for c = 0 *)
    destruct (Z.ltb_spec c 0).
    + rewrite <- (Z_mod_plus_full c 1), Z.mod_small by lia.
      replace (c + 1 * 2 ^ 64 =? 0) with false by lia. reflexivity.
    + replace c with 0 by lia. reflexivity.
  - rewrite Z.mod_small by lia. replace (c <? 0) with false by lia. reflexivity.
Qed.

Lemma ps_of_disagreeing c :
  gen_ps_const_length (Z.lor (b2z (c <=? 0)) gen_check_fail_bits) (c mod 2 ^ 64) = PSErr PSDisagree.
Proof. apply ps_mismatch_code; destruct (c <=? 0); discriminate. Qed.

Lemma length_accepted k :
  (match k with KMacro => gen_ps_length_from_constant_int
           | KEnumerator | KEnumeratorPartial => gen_ps_length_from_enumerator end) = true.
Proof. destruct k; reflexivity. Qed.

Theorem array_length_checked_kind : forall k T c cdef e,
  promoted T -> in_range T c -> - 2 ^ 64 < e < 2 ^ 64 -> check_value_of k cdef = Some e ->
  const_array_length k T c cdef =
    Some (Ok (if c =? e then length_of_value c else PSErr PSDisagree)).
Proof.
  intros k T c cdef e P R E H. unfold const_array_length.
  rewrite H, length_accepted, (proj2 (in_domain_spec e) E), (getter_checked T c e P R E). cbn [negb].
  destruct (c =? e); [rewrite ps_of_agreeing by exact (in_range_promoted T c P R) | rewrite ps_of_disagreeing];
    reflexivity.
Qed.

Theorem array_length_unchecked : forall k T c cdef,
  promoted T -> in_range T c -> check_value_of k cdef = None ->
  const_array_length k T c cdef = Some (Ok (length_of_value c)).
Proof.
  intros k T c cdef P R H. unfold const_array_length.
  rewrite H, length_accepted, (getter_unchecked T c P R), ps_of_agreeing
    by exact (in_range_promoted T c P R).
  reflexivity.
Qed.
