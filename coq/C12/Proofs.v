(* C12 — (a) the integer-constant check.  The generated getter (Gen.gen_const_n, gen_const_o, the check_value literal
   and the macro _cffi_check_int), evaluated by Spec.ceval on a constant of promoted type T and value c, returns
   (c <= 0, c mod 2^64), with the fail bits set exactly when c differs from the cdef's value (getter_checked);
   realize_global_int turns the pair back into c, or the fail bits into ffi.error (lib_constant_checked, _unchecked). *)
From Coq Require Import ZArith List Bool Lia ZifyBool.
Import ListNotations.
From Cffi Require Import Base.Wrap C12.Spec C12.Gen C12.Model.
Local Open Scope Z_scope.

(* the types an integer constant expression can have after the integer promotions, LP64 *)
Definition promoted (T : cty) : Prop := T = s32 \/ T = u32 \/ T = s64 \/ T = u64.

Lemma conv_wrap t z : 0 < ty_bits t -> conv t z = wrap (ty_signed t) (ty_bits t) z.
Proof.
  intros B. unfold conv. cbv zeta. destruct (pow2_half _ B) as [E _]. rewrite E at 2. rewrite (Z.mul_comm 2), Z.div_mul by lia.
  destruct (ty_signed t); [symmetry; apply wrap_signed_ltb, B | reflexivity].
Qed.

Lemma in_range_bits t z : in_range t z <-> in_bits (ty_signed t) (ty_bits t) z.
Proof. unfold in_range, ty_min, ty_max, in_bits. destruct (ty_signed t); lia. Qed.

Lemma conv_id t z : 0 < ty_bits t -> in_range t z -> conv t z = z.
Proof. intros B R. rewrite conv_wrap by exact B. apply wrap_id; [exact B | apply in_range_bits, R]. Qed.

Lemma conv_s32_id z : in_range s32 z -> conv s32 z = z.
Proof. apply conv_id. reflexivity. Qed.
Lemma conv_u32_id z : in_range u32 z -> conv u32 z = z.
Proof. apply conv_id. reflexivity. Qed.
Lemma conv_s64_id z : in_range s64 z -> conv s64 z = z.
Proof. apply conv_id. reflexivity. Qed.
Lemma conv_u64_id z : in_range u64 z -> conv u64 z = z.
Proof. apply conv_id. reflexivity. Qed.
Lemma conv_s128_id z : in_range s128 z -> conv s128 z = z.
Proof. apply conv_id. reflexivity. Qed.

(* the range of a type, with the powers of two left for lia *)
Lemma in_range_signed b z : in_range (mkty true b) z <-> - 2 ^ (b - 1) <= z < 2 ^ (b - 1).
Proof. apply in_range_bits. Qed.

Lemma in_range_unsigned b z : in_range (mkty false b) z <-> 0 <= z < 2 ^ b.
Proof. apply in_range_bits. Qed.

Lemma conv_u64_mod z : conv u64 z = z mod 2 ^ 64.
Proof. reflexivity. Qed.

Lemma conv_s64_of_mod z : - 2 ^ 63 <= z < 2 ^ 63 -> conv s64 (z mod 2 ^ 64) = z.
Proof. intros H. rewrite conv_wrap, (wrap_mod true 64 64) by reflexivity || lia. apply (wrap_id true 64); [reflexivity | exact H]. Qed.

Lemma conv_0 t : 0 < ty_bits t -> conv t 0 = 0.
Proof.
  intros B. apply conv_id; [exact B|]. apply in_range_bits. destruct (pow2_half _ B). unfold in_bits.
  destruct (ty_signed t); lia.
Qed.

Lemma uac_s32 t : 32 <= ty_bits t -> uac t s32 = t.
Proof.
  destruct t as [[|] b]; unfold uac; cbn; intros B.
  - f_equal. lia.
  - replace (32 <=? b) with true by lia. reflexivity.
Qed.

Lemma promoted_bits T : promoted T -> 32 <= ty_bits T.
Proof. intros [-> | [-> | [-> | ->]]]; cbn; lia. Qed.

Lemma in_range_promoted T c : promoted T -> in_range T c -> - 2 ^ 63 <= c < 2 ^ 64.
Proof.
  intros [-> | [-> | [-> | ->]]] R;
    [apply (in_range_signed 32) in R | apply (in_range_unsigned 32) in R
    | apply (in_range_signed 64) in R | apply (in_range_unsigned 64) in R]; lia.
Qed.

(* int n = (X) <= 0; *)
Lemma eval_gen_n T c : promoted T -> in_range T c ->
  ceval (rho_X T c) gen_const_n = Some (s32, b2z (c <=? 0)).
Proof.
  intros P R. pose proof (promoted_bits T P) as B.
  unfold gen_const_n. cbn [ceval rho_X]. change (lit_type false 0) with (Some s32). cbv beta iota zeta.
  rewrite uac_s32, (conv_id T c), conv_0 by first [lia | exact R]. reflexivity.
Qed.

(* *o = (unsigned long long)((X) | 0); *)
Lemma eval_gen_o T c : promoted T -> in_range T c ->
  exists t, ceval (rho_X T c) gen_const_o = Some (t, c mod 2 ^ 64).
Proof.
  intros P R. pose proof (promoted_bits T P) as B.
  unfold gen_const_o. cbn [ceval rho_X]. change (lit_type false 0) with (Some s32). cbv beta iota zeta.
  rewrite uac_s32, (conv_id T c), conv_0, Z.lor_0_r, (conv_id T c) by first [lia | exact R].
  eexists. reflexivity.
Qed.

Definition lit_ok (e : Z) (lv : cty * Z) : Prop :=
  snd lv = e /\ in_range (fst lv) e /\
  (fst lv = s32 \/ fst lv = u32 \/ fst lv = s64 \/ fst lv = u64 \/ fst lv = s128).

Lemma lit_type_some u n : 0 <= n < 2 ^ 64 ->
  exists t, lit_type u n = Some t /\ lit_ok n (t, n) /\ ty_signed t = negb u.
Proof.
  intros H. unfold lit_type, lit_ok. replace (n <? 0) with false by lia. cbn [fst snd].
  destruct u.
  - destruct (Z.ltb_spec n (2 ^ 32)); [exists u32 | replace (n <? 2 ^ 64) with true by lia; exists u64].
    + intuition. apply (in_range_unsigned 32). lia.
    + intuition. apply (in_range_unsigned 64). lia.
  - destruct (Z.ltb_spec n (2 ^ 31)); [exists s32 |
      destruct (Z.ltb_spec n (2 ^ 63)); [exists s64 | replace (n <? 2 ^ 64) with true by lia; exists s128]].
    + intuition. apply (in_range_signed 32). lia.
    + intuition. apply (in_range_signed 64). lia.
    + intuition. apply (in_range_signed 128). lia.
Qed.

Lemma in_range_opp t n : ty_signed t = true -> 0 <= n -> in_range t n -> in_range t (- n).
Proof. unfold in_range, ty_min, ty_max. intros ->. lia. Qed.

Lemma in_rangeb_true t z : in_range t z -> in_rangeb t z = true.
Proof. unfold in_range, in_rangeb. lia. Qed.

Lemma eval_check_literal rho e : - 2 ^ 64 < e < 2 ^ 64 ->
  exists lv, ceval rho (check_literal e) = Some lv /\ lit_ok e lv.
Proof.
  intros R. unfold check_literal, gen_check_suffixU. destruct (Z.ltb_spec e 0).
  - (* -<literal>: the literal is unsuffixed, hence signed, and its type also holds the opposite *)
    replace (e >? 0) with false by lia. cbn [ceval].
    destruct (lit_type_some false (- e)) as (t & -> & (_ & Rt & Ft) & St); [lia|].
    apply in_range_opp in Rt; [|exact St | lia]. rewrite Z.opp_involutive in Rt. cbn [fst] in *.
    rewrite St, Z.opp_involutive, (in_rangeb_true t e Rt).
    eexists. split; [reflexivity|]. split; [reflexivity | split; assumption].
  - cbn [ceval]. destruct (lit_type_some (e >? 0) e) as (t & -> & L & _); [lia|].
    eexists. split; [reflexivity | exact L].
Qed.

Lemma conv_s32_b2z b : conv s32 (b2z b) = b2z b.
Proof. destruct b; reflexivity. Qed.

(* _cffi_check_int(got, got_nonpos, expected) with got = *o, got_nonpos = n *)
Lemma eval_check_macro o n e lv : lit_ok e lv -> 0 <= o < 2 ^ 64 -> (n = 0 \/ n = 1) ->
  exists t, ceval (rho_check o n lv) macro_cffi_check_int
            = Some (t, b2z ((n =? b2z (e <=? 0)) && (o =? e mod 2 ^ 64))).
Proof.
  intros (Hv & Hr & Ht) Ho Hn. destruct lv as [lt v]; cbn [fst snd] in *; subst v.
  assert (B : 32 <= ty_bits lt) by (destruct Ht as [-> | [-> | [-> | [-> | ->]]]]; cbn; lia).
  unfold macro_cffi_check_int; cbn [ceval rho_check].
  change (lit_type false 0) with (Some s32); cbv beta iota zeta.
  change (uac s32 s32) with s32. change (uac u64 (mkty false 64)) with u64.
  change (mkty false 64) with u64.
  rewrite uac_s32, (conv_id lt e), conv_0 by first [lia | exact Hr].
  assert (Hn32 : conv s32 n = n) by (destruct Hn; subst; reflexivity).
  assert (Ho64 : conv u64 o = o) by (apply conv_id; [reflexivity | apply (in_range_unsigned 64), Ho]).
  rewrite Hn32, conv_s32_b2z, Ho64, !conv_u64_mod, Zmod_mod.
  eexists. f_equal. f_equal. destruct (n =? _), (o =? _); reflexivity.
Qed.

Lemma getter_unchecked T c : promoted T -> in_range T c ->
  const_getter T c None = Some (b2z (c <=? 0), c mod 2 ^ 64).
Proof.
  intros P R. unfold const_getter.
  rewrite (eval_gen_n T c P R). destruct (eval_gen_o T c P R) as [t ->].
  rewrite conv_u64_mod, Zmod_mod, conv_s32_b2z. reflexivity.
Qed.

Lemma same_sign_and_pattern c e : - 2 ^ 64 < c < 2 ^ 64 -> - 2 ^ 64 < e < 2 ^ 64 ->
  (b2z (c <=? 0) =? b2z (e <=? 0)) && (c mod 2 ^ 64 =? e mod 2 ^ 64) = (c =? e).
Proof.
  intros C E. destruct (Z.eqb_spec c e) as [-> | N].
  - rewrite !Z.eqb_refl. reflexivity.
  - unfold b2z. destruct (Z.leb_spec c 0), (Z.leb_spec e 0); try reflexivity; cbn [Z.eqb andb].
    all: apply Z.eqb_neq; Z.to_euclidean_division_equations; lia.
Qed.

Lemma getter_checked T c e : promoted T -> in_range T c -> - 2 ^ 64 < e < 2 ^ 64 ->
  const_getter T c (Some e) =
  Some (if c =? e then b2z (c <=? 0) else Z.lor (b2z (c <=? 0)) gen_check_fail_bits, c mod 2 ^ 64).
Proof.
  intros P R E. unfold const_getter.
  rewrite (eval_gen_n T c P R). destruct (eval_gen_o T c P R) as [t ->].
  destruct (eval_check_literal (rho_X T c) e E) as (lv & -> & L).
  rewrite conv_u64_mod, Zmod_mod, conv_s32_b2z.
  destruct (eval_check_macro (c mod 2 ^ 64) (b2z (c <=? 0)) e lv L) as [t' ->].
  { apply Z.mod_pos_bound. lia. } { destruct (c <=? 0); auto. }
  pose proof (in_range_promoted T c P R) as C.
  rewrite same_sign_and_pattern by lia. destruct (c =? e); reflexivity.
Qed.

Lemma realize_ok c : - 2 ^ 63 <= c < 2 ^ 64 ->
  realize_global_int (b2z (c <=? 0)) (c mod 2 ^ 64) = Ok c.
Proof.
  intros C. unfold realize_global_int, LONG_MAX, LONG_MIN.
  destruct (Z.leb_spec c 0); cbn [b2z Z.eqb Pos.eqb].
  - rewrite conv_s64_of_mod by lia. destruct (c >=? - 2 ^ 63); reflexivity.
  - rewrite Z.mod_small by lia. destruct (Z.leb_spec c (2 ^ 63 - 1)); [|reflexivity].
    rewrite conv_id; [reflexivity | reflexivity | apply (in_range_signed 64); lia].
Qed.

Lemma realize_fail c : realize_global_int (Z.lor (b2z (c <=? 0)) gen_check_fail_bits) (c mod 2 ^ 64) = Err FFIError.
Proof. unfold realize_global_int. destruct (c <=? 0); reflexivity. Qed.

Lemma in_domain_spec e : gen_check_in_domain e = true <-> - 2 ^ 64 < e < 2 ^ 64.
Proof.
  unfold gen_check_in_domain. change (Z.shiftl 1 64) with (2 ^ 64).
  rewrite andb_true_iff, !Z.ltb_lt. reflexivity.
Qed.

Theorem lib_constant_checked : forall k T c cdef e,
  promoted T -> in_range T c -> - 2 ^ 64 < e < 2 ^ 64 -> check_value_of k cdef = Some e ->
  lib_constant k T c cdef = Some (if c =? e then Ok c else Err FFIError).
Proof.
  intros k T c cdef e P R E H. unfold lib_constant.
  rewrite H, (proj2 (in_domain_spec e) E), (getter_checked T c e P R E). cbn [negb].
  destruct (c =? e); [rewrite realize_ok by exact (in_range_promoted T c P R) | rewrite realize_fail];
    reflexivity.
Qed.

Theorem lib_constant_unchecked : forall k T c cdef,
  promoted T -> in_range T c -> check_value_of k cdef = None ->
  lib_constant k T c cdef = Some (Ok c).
Proof.
  intros k T c cdef P R H. unfold lib_constant.
  rewrite H, (getter_unchecked T c P R), realize_ok by exact (in_range_promoted T c P R).
  reflexivity.
Qed.

Theorem const_dotdotdot : forall k T c,
  promoted T -> in_range T c -> lib_constant k T c None = Some (Ok c).
Proof. intros k T c P R. apply lib_constant_unchecked; [exact P | exact R | destruct k; reflexivity]. Qed.

Lemma out_of_domain e : e <= - 2 ^ 64 \/ 2 ^ 64 <= e -> gen_check_in_domain e = false.
Proof. intros E. apply not_true_is_false. rewrite in_domain_spec. lia. Qed.
