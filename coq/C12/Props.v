(* C12 — API-mode modules faithfully reflect the C source and detect mismatches.
   The lemmas are in C12/Proofs.v (constants), C12/Proofs2.v (structs) and C12/Proofs3.v
   (constants used as array lengths).
   The C expressions and the macro that the constant theorems talk about are the regenerated
   definitions of C12/Gen.v (text of /repo at the time of the run). *)
From Coq Require Import ZArith List Bool.
Import ListNotations.
From Cffi Require Import C12.Spec C12.Gen C12.Model C12.Proofs C12.Proofs2 C12.Proofs3.
Local Open Scope Z_scope.

(* (a) "#define X <e>" / checked integer constant: for every C constant expression of any
   promoted integer type T (int, unsigned, long, unsigned long [long long]) with any value c of
   that type — i.e. every c in [-2^63, 2^64) — and every cdef value e that can be written as a
   C literal (-2^64 < e < 2^64): reading lib.X returns c when c = e and raises ffi.error
   otherwise.  In particular the cdef's value is never returned in place of the compiler's. *)
Theorem C12_const_check_iff : forall T c e,
  promoted T -> in_range T c -> - 2 ^ 64 < e < 2 ^ 64 ->
  lib_constant KMacro T c (Some e) = Some (if c =? e then Ok c else Err FFIError).
Proof. intros T c e P R E. apply lib_constant_checked; [exact P | exact R | exact E | reflexivity]. Qed.
Print Assumptions C12_const_check_iff.

(* "#define X ..." : the compiler's value, silently, for every value *)
Theorem C12_const_dotdotdot : forall k T c,
  promoted T -> in_range T c -> lib_constant k T c None = Some (Ok c).
Proof. exact const_dotdotdot. Qed.
Print Assumptions C12_const_dotdotdot.

(* enumerators: the generated getter carries no check (recompiler.py _generate_cpy_enum_decl passes no
   check_value; Gen.gen_enumerator_checked = false), hence the compiler's value is used whatever
   the cdef says.  The property text asks for an error on disagreement: this is the
   known finding "enumerator-unchecked" (the cdef's value is nevertheless never used). *)
Theorem C12_enumerator_uses_compiler_value : forall T c cdef,
  promoted T -> in_range T c -> lib_constant KEnumerator T c cdef = Some (Ok c).
Proof. intros T c cdef P R. apply lib_constant_unchecked; [exact P | exact R | reflexivity]. Qed.
Print Assumptions C12_enumerator_uses_compiler_value.

(* hence the statement "a disagreeing enumerator value raises" is false of the faithful model;
   the witness (cdef 'enum e { A = 5 }', C source 'enum e { A = 6 }') is replayed on the real
   code by every run (findings/C12.json, key enumerator-unchecked) *)
Theorem C12_enumerator_check_refuted :
  exists T c e, promoted T /\ in_range T c /\ c <> e /\
                lib_constant KEnumerator T c (Some e) = Some (Ok c).
Proof.
  exists s32, 6, 5. split; [left; reflexivity|]. split; [vm_compute; split; discriminate|].
  split; [discriminate | vm_compute; reflexivity].
Qed.
Print Assumptions C12_enumerator_check_refuted.

(* Whatever the regenerated flag says: an enumerator of a non-partial enum is checked exactly
   like a macro when the recompiler passes its value, and gives the compiler's value silently when
   it does not (the source as regenerated in Gen.v; upstream's test_verify1.py::test_typedef_broken_complete_enum
   asserts that behaviour, so no fix is proposed for finding enumerator-unchecked). *)
Theorem C12_enumerator_by_flag : forall T c e,
  promoted T -> in_range T c -> - 2 ^ 64 < e < 2 ^ 64 ->
  lib_constant KEnumerator T c (Some e) =
    Some (if gen_enumerator_checked then (if c =? e then Ok c else Err FFIError) else Ok c).
Proof.
  intros T c e P R E.
  destruct gen_enumerator_checked eqn:G.
  - apply lib_constant_checked; [exact P | exact R | exact E |].
    unfold check_value_of. rewrite G. reflexivity.
  - apply lib_constant_unchecked; [exact P | exact R |].
    unfold check_value_of. rewrite G. reflexivity.
Qed.
Print Assumptions C12_enumerator_by_flag.

(* the generated check is complete and sound for EVERY kind of declaration that is given a check
   value [e]: lib.X raises ffi.error iff the C value differs from e (as a mathematical integer:
   64-bit pattern and sign), and the name used as an array length raises too. *)
Theorem C12_checked_declaration_iff : forall k T c cdef e,
  promoted T -> in_range T c -> - 2 ^ 64 < e < 2 ^ 64 -> check_value_of k cdef = Some e ->
  lib_constant k T c cdef = Some (if c =? e then Ok c else Err FFIError) /\
  const_array_length k T c cdef =
    Some (Ok (if c =? e then length_of_value c else PSErr PSDisagree)).
Proof.
  intros k T c cdef e P R E H.
  split; [apply lib_constant_checked | apply array_length_checked_kind]; assumption.
Qed.
Print Assumptions C12_checked_declaration_iff.

(* "with '...' the compiler's values are used silently": enumerators of 'enum e { A = 5, ... }' *)
Theorem C12_partial_enumerator_value : forall T c cdef,
  promoted T -> in_range T c ->
  lib_constant KEnumeratorPartial T c cdef = Some (Ok c) /\
  const_array_length KEnumeratorPartial T c cdef = Some (Ok (length_of_value c)).
Proof.
  intros T c cdef P R.
  split; [apply lib_constant_unchecked | apply array_length_unchecked]; try assumption; reflexivity.
Qed.
Print Assumptions C12_partial_enumerator_value.

(* cdef values outside (-2^64, 2^64) are not C literals (gcc would truncate them with a
   warning): the recompiler refuses to generate the module, so the declaration is not silently
   accepted.  (The guard, /repo 52726e0 for finding const-beyond-64bit, is part of the regenerated
   Gen.gen_check_in_domain.) *)
Theorem C12_const_literal_outside_C : forall T c e, e <= - 2 ^ 64 \/ 2 ^ 64 <= e ->
  lib_constant KMacro T c (Some e) = Some (Err BuildError).
Proof.
  intros T c e E. unfold lib_constant, check_value_of.
  change gen_macro_checked with true. cbv iota. rewrite (out_of_domain e E). reflexivity.
Qed.
Print Assumptions C12_const_literal_outside_C.

(* (c) "using that item" also means: writing the constant's NAME as an array length inside a type
   string given at run time to ffi.typeof()/new()/cast()/sizeof() on the module's ffi.
   parse_c_type.c parse_sequel() then calls the same generated getter as lib.N and interprets
   its return code itself.  [gen_ps_const_length] is REGENERATED from those C statements on every
   run (tools/props/c12_regen.py; Gen.v).

   The decision, for every return code [neg] an int can hold and every 64-bit [value]:
   code 0 ("positive, agrees"): the value if it fits a ssize_t, else "too large";
   code 1 ("<= 0, agrees"): length 0 when the value is 0, else "expected a positive integer
   constant";
   every other code (2, 3 = "the C compiler disagrees with the cdef"), whatever the value:
   "disagreement about this constant's value".
   (Finding zero-const-array-length, /repo 8e135ea: without the test on the code the value 0 is
   accepted under every code; its witness is generated on every run.) *)
Theorem C12_array_length_decision : forall neg value,
  - 2 ^ 31 <= neg < 2 ^ 31 -> 0 <= value < 2 ^ 64 ->
  gen_ps_const_length neg value =
    if neg =? 0 then (if value <=? 2 ^ 63 - 1 then PSLen value else PSErr PSTooLarge)
    else if neg =? 1 then (if value =? 0 then PSLen 0 else PSErr PSNotPositive)
    else PSErr PSDisagree.
Proof. intros neg value _ _. apply ps_decision. Qed.
Print Assumptions C12_array_length_decision.

(* in particular the getter's "disagrees" codes never yield a length *)
Theorem C12_array_length_mismatch_code_is_error : forall neg value,
  - 2 ^ 31 <= neg < 2 ^ 31 -> 0 <= value < 2 ^ 64 -> neg <> 0 -> neg <> 1 ->
  gen_ps_const_length neg value = PSErr PSDisagree.
Proof. intros neg value _ _. apply ps_mismatch_code. Qed.
Print Assumptions C12_array_length_mismatch_code_is_error.

(* a length that comes out is the getter's value (the compiler's), within ssize_t, and the
   getter said "agrees" *)
Theorem C12_array_length_is_getter_value : forall neg value n,
  - 2 ^ 31 <= neg < 2 ^ 31 -> 0 <= value < 2 ^ 64 ->
  gen_ps_const_length neg value = PSLen n ->
  n = value /\ 0 <= n <= 2 ^ 63 - 1 /\ (neg = 0 \/ neg = 1).
Proof. intros neg value n _ Hv. apply ps_length_is_value, Hv. Qed.
Print Assumptions C12_array_length_is_getter_value.

(* end to end (generated getter with its _cffi_check_int test, then parse_sequel): checked
   '#define N <e>' against a C constant of any promoted type and value c.
   c = e: the length is c when 0 <= c <= SSIZE_MAX, an error otherwise (negative / too large);
   c <> e: always the "disagreement" error. *)
Theorem C12_array_length_checked : forall T c e,
  promoted T -> in_range T c -> - 2 ^ 64 < e < 2 ^ 64 ->
  const_array_length KMacro T c (Some e) =
    Some (Ok (if c =? e then length_of_value c else PSErr PSDisagree)).
Proof. intros T c e P R E. apply array_length_checked_kind; [exact P | exact R | exact E | reflexivity]. Qed.
Print Assumptions C12_array_length_checked.

(* "where a checked integer constant disagrees with the C source, using it raises an error":
   for every C value and every cdef value *)
Theorem C12_array_length_mismatch_raises : forall T c e,
  promoted T -> in_range T c -> - 2 ^ 64 < e < 2 ^ 64 -> c <> e ->
  const_array_length KMacro T c (Some e) = Some (Ok (PSErr PSDisagree)).
Proof.
  intros T c e P R E N. rewrite (C12_array_length_checked T c e P R E).
  apply Z.eqb_neq in N. rewrite N. reflexivity.
Qed.
Print Assumptions C12_array_length_mismatch_raises.

(* '#define N ...', 'static const <int type> N;' and enumerators (no check value is passed for
   them, see C12_enumerator_check_refuted): the compiler's value, silently, when it is a valid
   length *)
Theorem C12_array_length_unchecked : forall k T c cdef,
  promoted T -> in_range T c -> check_value_of k cdef = None ->
  const_array_length k T c cdef = Some (Ok (length_of_value c)).
Proof. exact array_length_unchecked. Qed.
Print Assumptions C12_array_length_unchecked.

Theorem C12_array_length_literal_outside_C : forall T c e, e <= - 2 ^ 64 \/ 2 ^ 64 <= e ->
  const_array_length KMacro T c (Some e) = Some (Err BuildError).
Proof.
  intros T c e E. unfold const_array_length, check_value_of.
  change gen_ps_length_from_constant_int with true. change gen_macro_checked with true.
  cbv iota. cbn [negb]. cbv iota. rewrite (out_of_domain e E). reflexivity.
Qed.
Print Assumptions C12_array_length_literal_outside_C.

(* What is NOT a theorem here and is decided by the correspondence run only (tools/props/c12.py):
   "calls return what the C function returns", "globals read and write the C object", "global
   addresses are the compiler's", typedef sizes, and everything about bitfields and anonymous
   nested structs/unions.  Unions ARE covered by the struct theorems below (parameter [u]). *)

(* (b) structs/unions of named non-bitfield fields.  [decl] = per field the size and alignment
   of the type the cdef declares; [rep] = what the C compiler reports (offsetof, sizeof per
   field; sizeof and alignment of the struct).  [natural] = the layout the cdef implies (the
   layout function run with nothing forced).

   Without "...": realisation succeeds iff the report equals the cdef's natural layout in
   every field offset, every field size, the total size and the alignment; the result is then
   the report; any difference raises ffi.error.  The alignment is part of the comparison
   because the backend compares it: b_complete_struct_or_union (_cffi_backend.c) calls
   detect_custom_layout(ct, sflags, alignment, totalalignment, "wrong total alignment"). *)
Theorem C12_struct_checked : forall packed u decl rep Lnat,
  length decl = length (r_fields rep) -> wf_report rep ->
  Forall (fun d => pow2 (fd_align d)) decl ->
  natural packed u decl = Ok Lnat ->
  (report_layout rep = Lnat ->
     realize_struct (struct_flags false packed) u decl rep = Ok (report_layout rep)) /\
  (report_layout rep <> Lnat ->
     realize_struct (struct_flags false packed) u decl rep = Err FFIError).
Proof. exact struct_checked. Qed.
Print Assumptions C12_struct_checked.

(* With "...": offsets, total size and alignment are taken from the report whatever they
   are; what is still compared is each declared field's size (documented: "you must use the
   correct type for those you declare") — a difference raises ffi.error — and a total size
   smaller than the furthest end of a field ([rep_end]; impossible for a truthful compiler) raises
   TypeError. *)
Theorem C12_struct_partial : forall packed u decl rep,
  length decl = length (r_fields rep) -> wf_report rep ->
  (map fd_size decl <> map fr_size (r_fields rep) ->
     realize_struct (struct_flags true packed) u decl rep = Err FFIError) /\
  (map fd_size decl = map fr_size (r_fields rep) -> r_size rep < rep_end (r_fields rep) ->
     realize_struct (struct_flags true packed) u decl rep = Err TypeError) /\
  (map fd_size decl = map fr_size (r_fields rep) -> rep_end (r_fields rep) <= r_size rep ->
     realize_struct (struct_flags true packed) u decl rep = Ok (report_layout rep)).
Proof. exact struct_partial. Qed.
Print Assumptions C12_struct_partial.

(* in every case a layout that comes out is the compiler's, never the cdef's *)
Theorem C12_struct_layout_is_report : forall partial packed u decl rep Lnat L,
  length decl = length (r_fields rep) -> wf_report rep ->
  Forall (fun d => pow2 (fd_align d)) decl ->
  natural packed u decl = Ok Lnat ->
  realize_struct (struct_flags partial packed) u decl rep = Ok L -> L = report_layout rep.
Proof.
  intros partial packed u decl rep Lnat L Hlen Hwf _ _. apply realized_is_report; assumption.
Qed.
Print Assumptions C12_struct_layout_is_report.

(* non-vacuity.  struct { int a; long b; } against C "struct { int a; long b; }" (agree), against
   "struct { int a; int pad; long b; }" (same layout: accepted), against
   "struct { long b; int a; }" (differs) *)
Example C12_example_struct :
  let decl := [mkfdecl 4 4; mkfdecl 8 8] in
  natural false false decl = Ok (mklayout [(0, 4); (8, 8)] 16 8) /\
  realize_struct (struct_flags false false) false decl (mkreport [mkfrep 0 4; mkfrep 8 8] 16 8)
    = Ok (mklayout [(0, 4); (8, 8)] 16 8) /\
  realize_struct (struct_flags false false) false decl (mkreport [mkfrep 8 4; mkfrep 0 8] 16 8)
    = Err FFIError /\
  realize_struct (struct_flags true false) false decl (mkreport [mkfrep 8 4; mkfrep 0 8] 16 8)
    = Ok (mklayout [(8, 4); (0, 8)] 16 8) /\
  realize_struct (struct_flags true false) false decl (mkreport [mkfrep 8 8; mkfrep 0 8] 16 8)
    = Err FFIError /\
  realize_struct (struct_flags false true) false decl (mkreport [mkfrep 0 4; mkfrep 4 8] 12 1)
    = Ok (mklayout [(0, 4); (4, 8)] 12 1).
Proof. vm_compute. repeat split; reflexivity. Qed.

Example C12_example_const :
  lib_constant KMacro s32 (-5) (Some (-5)) = Some (Ok (-5)) /\
  lib_constant KMacro s32 (-5) (Some 5) = Some (Err FFIError) /\
  lib_constant KMacro u64 (2 ^ 64 - 1) (Some (-1)) = Some (Err FFIError) /\
  lib_constant KMacro s64 (- 2 ^ 63) (Some (- 2 ^ 63)) = Some (Ok (- 2 ^ 63)) /\
  lib_constant KMacro u32 0 (Some 0) = Some (Ok 0) /\
  lib_constant KMacro s32 1 (Some (2 ^ 64 + 1)) = Some (Err BuildError).
Proof. vm_compute. repeat split; reflexivity. Qed.

Example C12_example_array_length :
  const_array_length KMacro s32 6 (Some 6) = Some (Ok (PSLen 6)) /\
  const_array_length KMacro s32 9 (Some 6) = Some (Ok (PSErr PSDisagree)) /\
  const_array_length KMacro s32 3 (Some 12) = Some (Ok (PSErr PSDisagree)) /\
  const_array_length KMacro s32 (-2) (Some 5) = Some (Ok (PSErr PSDisagree)) /\
  const_array_length KMacro s32 0 (Some 5) = Some (Ok (PSErr PSDisagree)) /\
  const_array_length KMacro s32 0 (Some 0) = Some (Ok (PSLen 0)) /\
  const_array_length KMacro s32 (-3) (Some (-3)) = Some (Ok (PSErr PSNotPositive)) /\
  const_array_length KMacro s32 9 None = Some (Ok (PSLen 9)) /\
  const_array_length KMacro u64 (2 ^ 63) None = Some (Ok (PSErr PSTooLarge)) /\
  const_array_length KMacro s64 (2 ^ 63 - 1) (Some (2 ^ 63 - 1)) = Some (Ok (PSLen (2 ^ 63 - 1))) /\
  const_array_length KEnumerator s32 7 (Some 5) = Some (Ok (PSLen 7)) /\
  check_value_of KMacro None = None /\ check_value_of KEnumerator (Some 5) = None.
Proof. vm_compute. repeat split; reflexivity. Qed.
