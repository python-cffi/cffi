(* C13 — one obligation per call path: the path textually goes through the converter the model assumes
   (facts regenerated into C13/Gen.v by tools/props/c13_regen.py path_facts; a path that stops calling its
   converter turns its fact into `false` and breaks the obligation). *)
From Coq Require Import List String.
From Cffi Require C03.Gen.
From Cffi Require Import C13.Gen.
Open Scope string_scope.

Lemma path_cdata_call_pointer_args : cdata_call_pointer_args = true. Proof. reflexivity. Qed.
Lemma path_cdata_call_other_args : cdata_call_other_args = true. Proof. reflexivity. Qed.
Lemma path_cdata_call_slots : cdata_call_slots = true. Proof. reflexivity. Qed.
Lemma path_cdata_call_errno : cdata_call_errno = true. Proof. reflexivity. Qed.
Lemma path_cdata_call_result : cdata_call_result = true. Proof. reflexivity. Qed.
Lemma path_cdata_call_variadic : cdata_call_variadic = true. Proof. reflexivity. Qed.
(* the three libffi paths of the property are one family: each yields a function cdata, and calling it is cdata_call *)
Lemma path_addressof : addressof_gives_cdata = true /\ cdata_tp_call = true. Proof. split; reflexivity. Qed.
Lemma path_inline_abi : inline_dlopen_gives_cdata = true /\ cdata_tp_call = true. Proof. split; reflexivity. Qed.
Lemma path_out_of_line_abi : ool_dlopen_gives_cdata = true /\ cdata_tp_call = true. Proof. split; reflexivity. Qed.

Lemma path_api_prim_args : api_prim_args = true. Proof. reflexivity. Qed.
Lemma path_api_struct_args : api_struct_args = true. Proof. reflexivity. Qed.
Lemma path_api_pointer_args : api_pointer_args = true /\ api_array_argument = true. Proof. split; reflexivity. Qed.
Lemma path_api_errno : api_errno = true. Proof. reflexivity. Qed.
Lemma path_api_results : api_results = true. Proof. reflexivity. Qed.

(* these ten macros of _cffi_include.h used by the wrapper (the integer and wide-character converters have no slot
   fact in C13/Gen.v) resolve, through _cffi_exports[] (C03/Gen.v backend_exports,
   regenerated from static void *cffi_exports[]), to exactly the backend functions the model shares between paths *)
Definition api_macros_resolve : Prop :=
  nth slot_cffi_to_c C03.Gen.backend_exports "" = "convert_from_object" /\
  nth slot_cffi_to_c_char C03.Gen.backend_exports "" = "_convert_to_char" /\
  nth slot_cffi_to_c_pointer C03.Gen.backend_exports "" = "_cffi_to_c_pointer" /\
  nth slot_cffi_from_c_pointer C03.Gen.backend_exports "" = "_cffi_from_c_pointer" /\
  nth slot_cffi_from_c_deref C03.Gen.backend_exports "" = "convert_to_object" /\
  nth slot_cffi_from_c_struct C03.Gen.backend_exports "" = "convert_struct_to_owning_object" /\
  nth slot_cffi_to_c_long_double C03.Gen.backend_exports "" = "_cffi_to_c_long_double" /\
  nth slot_cffi_to_c__Bool C03.Gen.backend_exports "" = "_cffi_to_c__Bool" /\
  nth slot_cffi_prepare_pointer_call_argument C03.Gen.backend_exports "" = "_prepare_pointer_call_argument" /\
  nth slot_cffi_convert_array_from_object C03.Gen.backend_exports "" = "convert_array_from_object".
