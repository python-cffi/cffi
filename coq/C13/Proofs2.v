(* C13 — fb_fill_type's flattening of (multi-dimensional) array fields: lemmas for C13_flatten_covers and
   C13_flatten_count (the element list handed to libffi describes exactly the leaves of the C struct). *)
From Coq Require Import ZArith List Bool Lia ZifyBool.
Import ListNotations.
From Cffi Require Import Base.Align C13.Gen C13.Model.
Open Scope Z_scope.

Definition wf_field (f : field) : Prop :=
  0 < falign f /\ 0 < fsize f /\ (falign f | fsize f) /\ Forall (fun d => 0 < d) (fdims f).

Lemma fold_mul : forall l x, fold_left (fun flat len => flat * len) l x = x * product l.
Proof.
  induction l as [| d l IH]; intro x; cbn [fold_left product fold_right]; [lia |].
  rewrite IH. fold (product l). lia.
Qed.

Lemma count1_product : forall dims, count1 dims = product dims.
Proof. intro dims. unfold count1, flat1_step, flat1_init. rewrite fold_mul. lia. Qed.

Lemma count2_product : forall dims, count2 dims = product dims.
Proof. intro dims. unfold count2, fill_count, flat2_step, flat2_init. rewrite fold_mul. lia. Qed.

Lemma product_pos : forall dims, Forall (fun d => 0 < d) dims -> 0 < product dims.
Proof.
  induction dims as [| d l IH]; intro H; cbn [product fold_right]; [lia |].
  inversion H; subst. fold (product l). specialize (IH H3). nia.
Qed.

(* a run of n equal elements starting at an aligned offset sits at consecutive offsets *)
Lemma run_layout : forall n s a off rest, 0 < a -> (a | s) -> (a | off) ->
  ffi_layout off (repeat (s, a) n ++ rest) =
  (c_leaves off n s ++ fst (ffi_layout (off + Z.of_nat n * s) rest), snd (ffi_layout (off + Z.of_nat n * s) rest)).
Proof.
  induction n as [| n IH]; intros s a off rest Ha Hs Ho.
  - cbn [repeat app c_leaves]. replace (off + Z.of_nat 0 * s) with off by lia. destruct (ffi_layout off rest); reflexivity.
  - cbn [repeat app ffi_layout c_leaves]. rewrite (roundup_fix off a Ha Ho : roundup off a = off).
    rewrite (IH s a (off + s) rest Ha Hs) by (apply Z.divide_add_r; assumption).
    replace (off + s + Z.of_nat n * s) with (off + Z.of_nat (S n) * s) by lia. reflexivity.
Qed.
