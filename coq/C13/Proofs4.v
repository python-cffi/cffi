(* C13 — the exchange-layout statements of fb_build(), as TRANSLATED from src/c/_cffi_backend.c into C13/Gen.v
   (fb_build_prog, ALIGN_TO, ALIGN_ARG), compute exactly C13.Model.fb_build.  A change of the macro bodies, of the
   order/content of the statements, of the index `1 + i`, or of the ffi_arg minimum breaks one of these proofs. *)
From Coq Require Import ZArith List Bool Lia ZifyBool.
Import ListNotations.
From Cffi Require Import C13.FbLang C13.Gen C13.Model.
Open Scope Z_scope.

Definition exec_fb (p : fbprog) (rsize ralign : Z) (args : list (Z * Z)) : option layout :=
  match exec_fb_raw p rsize ralign args with
  | Some (r, rlen, offs, sz) => Some (mklayout r rlen offs sz)
  | None => None
  end.

Lemma zev_ALIGN_TO : forall rho n a, zev rho (ALIGN_TO n a) = align_to (zev rho n) (zev rho a).
Proof. reflexivity. Qed.

Lemma zev_ALIGN_ARG : forall rho n, zev rho (ALIGN_ARG n) = align_arg (zev rho n).
Proof. reflexivity. Qed.

Lemma zlist_eqb_refl : forall l, zlist_eqb l l = true.
Proof. induction l as [| x l IH]; cbn; [reflexivity |]. rewrite Z.eqb_refl, IH. reflexivity. Qed.

Lemma loop_body_step : forall rho st k size al,
  rho = upd (upd (upd (env st) Vi k) Vasize size) Vaalign al ->
  let st' := exec_list (p_loop fb_build_prog) (mkst rho (stores st) (xsize st)) in
  let o := align_arg (align_to (env st Voff) al) in
  env st' Voff = o + size /\ stores st' = stores st ++ [(1 + k, o)] /\ xsize st' = xsize st.
Proof.
  intros rho st k size al ->. cbn. repeat split; reflexivity.
Qed.

Lemma loop_spec : forall args k st,
  let st' := exec_loop (p_loop fb_build_prog) k args st in
  env st' Voff = snd (fb_args (env st Voff) args) /\
  stores st' = stores st ++ combine (arg_keys k args) (fst (fb_args (env st Voff) args)) /\
  xsize st' = xsize st.
Proof.
  induction args as [| [size al] rest IH]; intros k st.
  - cbn. rewrite app_nil_r. repeat split; reflexivity.
  - cbn [exec_loop].
    destruct (loop_body_step _ st k size al eq_refl) as (E & S & X).
    set (st1 := exec_list (p_loop fb_build_prog) _) in *.
    specialize (IH (k + 1) st1). cbn zeta in IH. destruct IH as (E' & S' & X').
    cbn zeta. rewrite E', S', X', E, S, X.
    cbn [fb_args arg_keys].
    destruct (fb_args (align_arg (align_to (env st Voff) al) + size) rest) as [offs fin].
    cbn [fst snd combine]. rewrite <- app_assoc. repeat split; reflexivity.
Qed.

Lemma fb_args_length : forall args off, length (fst (fb_args off args)) = length args.
Proof.
  induction args as [| [s a] rest IH]; intros off; cbn; [reflexivity |].
  specialize (IH (align_arg (align_to off a) + s)).
  destruct (fb_args (align_arg (align_to off a) + s) rest). cbn in *. lia.
Qed.

Lemma arg_keys_length : forall (A : Type) (args : list A) k, length (arg_keys k args) = length args.
Proof. induction args; intros; cbn; [reflexivity | rewrite IHargs; reflexivity]. Qed.

Lemma map_fst_combine : forall (A B : Type) (l : list A) (m : list B), length l = length m -> map fst (combine l m) = l.
Proof. induction l; destruct m; cbn; intros; try reflexivity; try discriminate. f_equal. apply IHl. lia. Qed.

Lemma map_snd_combine : forall (A B : Type) (l : list A) (m : list B), length l = length m -> map snd (combine l m) = m.
Proof. induction l; destruct m; cbn; intros; try reflexivity; try discriminate. f_equal. apply IHl. lia. Qed.

Theorem gen_fb_build_is_model : forall rsize ralign args,
  exec_fb fb_build_prog rsize ralign args = Some (fb_build rsize ralign args).
Proof.
  intros rsize ralign args. unfold exec_fb, exec_fb_raw.
  set (rho0 := fun v : fbvar => match v with Vnargs => Z.of_nat (length args) | Vralign => ralign | Vrsize => rsize | _ => 0 end).
  set (st1 := exec_list (p_pre fb_build_prog) (mkst rho0 [] None)).
  set (off0 := align_arg (align_to (Z.of_nat (length args) * 8) ralign)).
  set (rlen := if rsize <? FFI_ARG then FFI_ARG else rsize).
  assert (P : env st1 Voff = off0 + rlen /\ stores st1 = [(0, off0)] /\ xsize st1 = None).
  { subst st1 rho0 off0 rlen. unfold FFI_ARG.
    (* the prelude is run by cbv with the arithmetic left alone: cbn re-simplifies the nested [upd]s of the
       environment after each of the seven statements and is slow to check here *)
    cbv - [Z.add Z.mul Z.sub Z.land Z.lnot Z.ltb Z.of_nat length].
    destruct (rsize <? 8) eqn:E; cbn; repeat split; reflexivity. }
  destruct P as (E1 & S1 & X1).
  destruct (loop_spec args 0 st1) as (E2 & S2 & X2). cbn zeta in E2, S2, X2.
  set (st2 := exec_loop (p_loop fb_build_prog) 0 args st1) in *.
  assert (P3 : stores (exec_list (p_post fb_build_prog) st2) = stores st2 /\
               xsize (exec_list (p_post fb_build_prog) st2) = Some (align_arg (env st2 Voff))).
  { cbn. split; reflexivity. }
  destruct P3 as (S3 & X3). rewrite S3, X3, S2, S1, E2, E1. cbn [app].
  rewrite Z.eqb_refl, map_fst_combine, zlist_eqb_refl, map_snd_combine
    by (rewrite arg_keys_length, fb_args_length; reflexivity).
  cbn [length Nat.eqb andb].
  unfold fb_build. fold off0. fold rlen.
  destruct (fb_args (off0 + rlen) args) as [offs fin]. cbn [fst snd].
  f_equal. f_equal. lia.
Qed.
