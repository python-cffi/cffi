(* C13 — proofs: the generated-wrapper conversion and convert_from_object agree on every argument type and every
   Python value, and neither lets a call go ahead with an exception pending; the exchange buffer layout of fb_build
   is safe for all signatures; a narrow cdata in the variadic part arrives as an int of the same value. *)
From Coq Require Import ZArith List Bool Lia ZifyBool.
Import ListNotations.
From Cffi Require C03.CExpr C03.Gen.
From Cffi Require Import Base.Wrap Base.Align C13.Model.
Open Scope Z_scope.

(* the byte sizes of C's integer types; _cffi_to_c_SIGNED_FN / _UNSIGNED_FN are instantiated at exactly these
   (source_checks_shape) *)
Definition wf_size (s : Z) : Prop := s = 1 \/ s = 2 \/ s = 4 \/ s = 8.
Definition wf_prim (p : prim) : Prop :=
  match p with PI s _ => wf_size s | PC s => s = 1 \/ s = 2 \/ s = 4 | _ => True end.
Definition wf_ctype (t : ctype) : Prop :=
  match t with Prim p => wf_prim p | _ => True end.

(* what both extraction functions see of a Python object: the int they go on to range-check, or the exception *)
Definition int_view (x : pyval) : Z + exn :=
  match x with
  | PyInt z => inl z
  | PyBool b => inl (if b then 1 else 0)
  | _ => if is_floatlike x then inr TypeError
         else match nb_int x with None => inr TypeError | Some r => r end
  end.

(* Every integer conversion is the composition stored s (ranged lo hi (int_view x)).  Both extraction functions are
   a range check at (unsigned) long long over int_view, and each path then checks the range of the C type, which is
   the narrower one (ranged_ranged); so each path has a closed form of its own (ffi_int_conv, api_int_conv, and the
   two for _Bool), and that the paths agree is two rewrites. *)
Definition ranged (lo hi : Z) (v : Z + exn) : Z + exn :=
  match v with
  | inl z => if (lo <=? z) && (z <=? hi) then inl z else inr OverflowError
  | inr e => inr e
  end.

Definition stored (size : Z) (v : Z + exn) : conv :=
  match v with inl z => COk (CInt size (wrapU size z)) | inr e => CErr e end.

(* a helper's in-band answer: the value, or the sentinel with the exception set *)
Definition ret_of (sentinel : Z) (v : Z + exn) : ret :=
  match v with inl z => okr z | inr e => err sentinel e end.

Lemma ranged_inl : forall lo hi v z, ranged lo hi v = inl z -> lo <= z <= hi.
Proof. intros lo hi [y | e] z; cbn; [destruct (_ && _) eqn:R |]; intro H; inversion H; subst; lia. Qed.

(* a range check behind a wider one is the narrower one: whichever refuses first, the exception is OverflowError *)
Lemma ranged_ranged : forall lo hi lo' hi' v, lo' <= lo -> hi <= hi' ->
  ranged lo hi (ranged lo' hi' v) = ranged lo hi v.
Proof.
  intros lo hi lo' hi' [z | e] L H; [| reflexivity]. cbn.
  destruct (Z.leb_spec lo' z), (Z.leb_spec z hi'); cbn; try reflexivity;
    destruct (Z.leb_spec lo z), (Z.leb_spec z hi); cbn; try reflexivity; lia.
Qed.

Lemma stored_not_bad : forall s v, stored s v <> CBad.
Proof. intros s [z | e]; discriminate. Qed.

Lemma my_as_longlong_ranged : forall x, my_as_longlong x = ret_of (-1) (ranged LLMIN LLMAX (int_view x)).
Proof.
  assert (L : forall z, pylong_as_longlong z = ret_of (-1) (ranged LLMIN LLMAX (inl z))).
  { (* cbn with a list, here and in long_vs_ulong: a bare cbn evaluates the 2 ^ 63 and 2 ^ 64 of LLMIN, LLMAX, ULLMAX *)
    intro z. unfold pylong_as_longlong. cbn [ranged]. destruct (_ && _); reflexivity. }
  intros []; try reflexivity; try apply L; [destruct b | destruct p; try reflexivity; apply L]; reflexivity.
Qed.

Lemma my_as_ulonglong_ranged : forall x, my_as_ulonglong x = ret_of ULLMAX (ranged 0 ULLMAX (int_view x)).
Proof.
  assert (L : forall z, pylong_as_ulonglong_strict z = ret_of ULLMAX (ranged 0 ULLMAX (inl z))).
  { intro z. unfold pylong_as_ulonglong_strict. cbn [ranged]. rewrite Z.ltb_antisym. destruct (0 <=? z), (z <=? ULLMAX); reflexivity. }
  intros []; try reflexivity; try apply L; [destruct b | destruct p; try reflexivity; apply L]; reflexivity.
Qed.

Lemma ranged_ret_spec : forall sentinel lo hi v, let r := ret_of sentinel (ranged lo hi v) in
  (rpend r = None /\ lo <= rval r <= hi) \/ (exists e, rpend r = Some e /\ rval r = sentinel).
Proof.
  intros sentinel lo hi v. cbv zeta. destruct (ranged lo hi v) as [z | e] eqn:E.
  - left. split; [reflexivity | exact (ranged_inl _ _ _ _ E)].
  - right. eexists. split; reflexivity.
Qed.

Lemma longlong_spec : forall x,
  (rpend (my_as_longlong x) = None /\ LLMIN <= rval (my_as_longlong x) <= LLMAX) \/
  (exists e, rpend (my_as_longlong x) = Some e /\ rval (my_as_longlong x) = -1).
Proof. intro x. rewrite my_as_longlong_ranged. apply ranged_ret_spec. Qed.

Lemma ulonglong_spec : forall x,
  (rpend (my_as_ulonglong x) = None /\ 0 <= rval (my_as_ulonglong x) <= ULLMAX) \/
  (exists e, rpend (my_as_ulonglong x) = Some e /\ rval (my_as_ulonglong x) = ULLMAX).
Proof. intro x. rewrite my_as_ulonglong_ranged. apply ranged_ret_spec. Qed.

(* the two extraction functions agree up to the sign of what they refuse *)
Lemma long_vs_ulong : forall x,
  match rpend (my_as_longlong x), rpend (my_as_ulonglong x) with
  | None, None => rval (my_as_longlong x) = rval (my_as_ulonglong x)
  | None, Some e => rval (my_as_longlong x) < 0 /\ e = OverflowError
  | Some e, None => LLMAX < rval (my_as_ulonglong x) /\ e = OverflowError
  | Some e1, Some e2 => e1 = e2
  end.
Proof.
  intro x. rewrite my_as_longlong_ranged, my_as_ulonglong_ranged.
  destruct (int_view x) as [z | e]; [| reflexivity]. unfold LLMIN, LLMAX, ULLMAX. cbn [ranged].
  destruct (_ && _) eqn:A; destruct ((0 <=? z) && _) eqn:B; cbn [ret_of rpend rval okr err]; repeat split; lia.
Qed.

(* Model.wrapU is Base.Wrap's unsigned conversion by definition; wrapS is the signed one *)
Lemma wrapS_wrap : forall s v, 0 < s -> wrapS s v = wrap true (8 * s) v.
Proof. intros s v Hs. symmetry. apply wrap_signed_ltb. lia. Qed.

Lemma wrapS_id : forall s v, 0 < s -> - 2 ^ (8 * s - 1) <= v <= 2 ^ (8 * s - 1) - 1 -> wrapS s v = v.
Proof. intros s v Hs H. rewrite wrapS_wrap by exact Hs. apply wrap_id; unfold in_bits; lia. Qed.

Lemma wrapS_range : forall s v, 0 < s -> - 2 ^ (8 * s - 1) <= wrapS s v <= 2 ^ (8 * s - 1) - 1.
Proof. intros s v Hs. rewrite wrapS_wrap by exact Hs. pose proof (wrap_range true (8 * s) v). unfold in_bits in *. lia. Qed.

Lemma wrapU_id : forall s v, 0 <= v < 2 ^ (8 * s) -> wrapU s v = v.
Proof. intros s v. apply Z.mod_small. Qed.

Lemma wrapU_range : forall s v, 0 < s -> 0 <= wrapU s v < 2 ^ (8 * s).
Proof. intros s v Hs. apply (wrap_range false). lia. Qed.

Lemma wf_size_pos : forall s, wf_size s -> 0 < s.
Proof. unfold wf_size. lia. Qed.

Lemma wf_size_cases : forall P : Z -> Prop, P 1 -> P 2 -> P 4 -> P 8 -> forall s, wf_size s -> P s.
Proof. intros P P1 P2 P4 P8 s [-> | [-> | [-> | ->]]]; assumption. Qed.

(* the regenerated source bounds, evaluated with C semantics, for every instantiated size *)
Lemma u_hi_val : forall s, wf_size s -> u_hi s = 2 ^ (8 * s) - 1.
Proof. apply wf_size_cases; vm_compute; reflexivity. Qed.
Lemma i_hi_val : forall s, wf_size s -> i_hi s = 2 ^ (8 * s - 1) - 1.
Proof. apply wf_size_cases; vm_compute; reflexivity. Qed.
Lemma i_lo_val : forall s, wf_size s -> i_lo s = - 2 ^ (8 * s - 1).
Proof. apply wf_size_cases; vm_compute; reflexivity. Qed.
(* shape of the regenerated tests: `tmp > hi || tmp < lo` and `tmp > hi`, the sizes they are instantiated at *)
Lemma source_checks_shape :
  map fst C03.Gen.signed_checks = [C03.CExpr.BGt; C03.CExpr.BLt] /\ map fst C03.Gen.unsigned_checks = [C03.CExpr.BGt] /\
  map snd C03.Gen.signed_insts = [8; 16; 32; 64] /\ map snd C03.Gen.unsigned_insts = [8; 16; 32; 64].
Proof. vm_compute. repeat split; reflexivity. Qed.

(* (T)-1 is the largest value of an unsigned T, and so is (T)ULLONG_MAX for T of at most 8 bytes *)
Lemma wrapU_m1 : forall s, 0 < s -> wrapU s (-1) = 2 ^ (8 * s) - 1.
Proof.
  intros s Hs. pose proof (pow2_mono 0 (8 * s) ltac:(lia)).
  apply (wrap_unique false); [lia | unfold in_bits; lia | apply eqm_divide; exists 1; lia].
Qed.

Lemma wrapU_ullmax : forall s, 0 < s <= 8 -> wrapU s ULLMAX = wrapU s (-1).
Proof. intros s Hs. apply (eqm_narrow (8 * s) 64); [lia | reflexivity]. Qed.

Lemma pow_bounds : forall s, 0 < s <= 8 -> 2 ^ (8 * s - 1) <= 2 ^ 63 /\ 2 ^ (8 * s) <= 2 ^ 64.
Proof. intros s Hs. split; apply pow2_mono; lia. Qed.

Lemma wf_size_le : forall s, wf_size s -> 0 < s <= 8.
Proof. unfold wf_size. lia. Qed.

Definition int_lo (sg : bool) (s : Z) : Z := if sg then - 2 ^ (8 * s - 1) else 0.
Definition int_hi (sg : bool) (s : Z) : Z := if sg then 2 ^ (8 * s - 1) - 1 else 2 ^ (8 * s) - 1.

(* convert_from_object on an integer type: extraction, then write and read back *)
Lemma ffi_int_conv : forall s sg x, 0 < s <= 8 ->
  ffi_conv_prim (PI s sg) x = stored s (ranged (int_lo sg s) (int_hi sg s) (int_view x)).
Proof.
  intros s [|] x Hs; destruct (pow_bounds s Hs); cbn [ffi_conv_prim].
  - rewrite <- (ranged_ranged _ _ LLMIN LLMAX), my_as_longlong_ranged by (unfold LLMIN, LLMAX, int_lo, int_hi; lia).
    destruct (ranged LLMIN LLMAX (int_view x)) as [z | e]; [| reflexivity].
    cbn. rewrite wrapS_wrap, (fits_iff true) by lia. destruct (_ && _); reflexivity.
  - rewrite <- (ranged_ranged _ _ 0 ULLMAX), my_as_ulonglong_ranged by (unfold ULLMAX, int_lo, int_hi; lia).
    destruct (ranged 0 ULLMAX (int_view x)) as [z | e]; [| reflexivity].
    cbn. change (wrapU s z) with (wrap false (8 * s) z). rewrite (fits_iff false) by lia. destruct (_ && _); reflexivity.
Qed.

(* the wrapper's sentinel test on a helper that reports an error in band: the sentinel is (T)-1 *)
Lemma wrapper_check_err : forall s v e, wrapU s v = wrapU s (-1) -> wrapper_check s (mkret v (Some e)) = CErr e.
Proof. intros s v e H. unfold wrapper_check, wrapper_check_s. cbn [rval rpend]. rewrite H, Z.eqb_refl. reflexivity. Qed.

(* _cffi_to_c_SIGNED_FN / _UNSIGNED_FN behind the wrapper's test *)
Lemma api_int_conv : forall s sg x, wf_size s ->
  api_conv_prim (PI s sg) x = stored s (ranged (int_lo sg s) (int_hi sg s) (int_view x)).
Proof.
  intros s [|] x W; pose proof (wf_size_le s W) as Hs; destruct (pow_bounds s Hs); cbn [api_conv_prim].
  - rewrite <- (ranged_ranged _ _ LLMIN LLMAX) by (unfold LLMIN, LLMAX, int_lo, int_hi; lia).
    unfold to_c_i. rewrite (i_hi_val s W), (i_lo_val s W), my_as_longlong_ranged.
    destruct (ranged LLMIN LLMAX (int_view x)) as [z | e]; cbn [ret_of okr err rval rpend ranged stored int_lo int_hi].
    + destruct (_ || _) eqn:B; destruct (_ && _) eqn:R; try lia; [apply (wrapper_check_err s (-1)) |]; reflexivity.
    + destruct (_ || _); apply wrapper_check_err; reflexivity.
  - rewrite <- (ranged_ranged _ _ 0 ULLMAX) by (unfold ULLMAX, int_lo, int_hi; lia).
    unfold to_c_u. rewrite (u_hi_val s W), my_as_ulonglong_ranged.
    destruct (ranged 0 ULLMAX (int_view x)) as [z | e] eqn:E; cbn [ret_of okr err rval rpend ranged stored int_lo int_hi].
    + apply ranged_inl in E.
      destruct (_ <? _) eqn:B; destruct (_ && _) eqn:R; try lia; [apply (wrapper_check_err s (-1)) |]; reflexivity.
    + destruct (_ <? _); apply wrapper_check_err, (wrapU_ullmax s Hs).
Qed.

(* _Bool: convert_from_object extracts an unsigned long long, _cffi_to_c__Bool a signed one; both ranges hold 0 and 1 *)
Lemma ffi_bool_conv : forall x, ffi_conv_prim PB x = stored 1 (ranged 0 1 (int_view x)).
Proof.
  intro x. rewrite <- (ranged_ranged 0 1 0 ULLMAX) by (unfold ULLMAX; lia). cbn [ffi_conv_prim].
  rewrite my_as_ulonglong_ranged.
  destruct (ranged 0 ULLMAX (int_view x)) as [z | e] eqn:E; [apply ranged_inl in E | reflexivity].
  cbn -[wrapU]. destruct (1 <? z) eqn:B; destruct (_ && _) eqn:R; try lia; unfold stored; [| rewrite wrapU_id by lia]; reflexivity.
Qed.

Lemma api_bool_conv : forall x, api_conv_prim PB x = stored 1 (ranged 0 1 (int_view x)).
Proof.
  intro x. rewrite <- (ranged_ranged 0 1 LLMIN LLMAX) by (unfold LLMIN, LLMAX; lia). cbn [api_conv_prim].
  unfold to_c_bool. rewrite my_as_longlong_ranged.
  destruct (ranged LLMIN LLMAX (int_view x)) as [z | e]; [| reflexivity].
  cbn -[wrapU]. destruct (z =? 0) eqn:E0; [| destruct (z =? 1) eqn:E1]; destruct (_ && _) eqn:R; try lia; unfold stored;
    [replace z with 0 by lia | replace z with 1 by lia |]; reflexivity.
Qed.

Lemma int_agree : forall s sg x, wf_size s -> api_conv_prim (PI s sg) x = ffi_conv_prim (PI s sg) x.
Proof. intros s sg x W. rewrite api_int_conv, ffi_int_conv by auto using wf_size_le. reflexivity. Qed.

Lemma signed_agree : forall s x, wf_size s ->
  api_conv_prim (PI s true) x = ffi_conv_prim (PI s true) x.
Proof. intros s. apply int_agree. Qed.

Lemma unsigned_agree : forall s x, wf_size s ->
  api_conv_prim (PI s false) x = ffi_conv_prim (PI s false) x.
Proof. intros s. apply int_agree. Qed.

Lemma bool_agree : forall x, api_conv_prim PB x = ffi_conv_prim PB x.
Proof. intro x. rewrite api_bool_conv, ffi_bool_conv. reflexivity. Qed.

Theorem prim_conv_agree : forall p x, wf_prim p -> api_conv_prim p x = ffi_conv_prim p x.
Proof.
  intros [s sg | | s | | |] x W.
  - apply int_agree; exact W.
  - apply bool_agree.
  - cbn. destruct (char_ok s x); [reflexivity |].
    unfold wrapper_check, wrapper_check_s; cbn. rewrite Z.eqb_refl. reflexivity.
  - cbn. destruct (pyfloat_asdouble x); reflexivity.
  - cbn. destruct (pyfloat_asdouble x); reflexivity.
  - reflexivity.
Qed.

Theorem conv_agree : forall t x, wf_ctype t -> api_conv t x = ffi_conv t x.
Proof.
  intros [p | it | id ps |] x W; cbn.
  - apply prim_conv_agree; exact W.
  - reflexivity.
  - reflexivity.
  - destruct (conv_fnptr x) eqn:E; try reflexivity.
Qed.

(* no path lets the C call proceed with an exception pending *)
Lemma ffi_prim_not_bad : forall p x, wf_prim p -> ffi_conv_prim p x <> CBad.
Proof.
  intros [s sg | | s | | |] x W; [| | cbn ..].
  - rewrite ffi_int_conv by (apply wf_size_le, W). apply stored_not_bad.
  - rewrite ffi_bool_conv. apply stored_not_bad.
  - destruct (char_ok s x); discriminate.
  - destruct (pyfloat_asdouble x); discriminate.
  - destruct (pyfloat_asdouble x); discriminate.
  - destruct x; try discriminate; try (destruct (pyfloat_asdouble _); discriminate).
    destruct p; try discriminate; cbn; try (destruct (_ <? _); discriminate).
Qed.

Lemma conv_items_not_bad : forall p l, wf_prim p -> conv_items p l <> inl CBad.
Proof.
  intros p l W. induction l as [| x l IH]; cbn; [discriminate |].
  pose proof (ffi_prim_not_bad p x W).
  destruct (ffi_conv_prim p x); try congruence; try discriminate.
  destruct (conv_items p l); congruence.
Qed.

Lemma conv_fields_not_bad : forall ps l, Forall wf_prim ps -> conv_fields ps l <> inl CBad.
Proof.
  intros ps l. revert ps. induction l as [| x l IH]; intros ps W; destruct ps as [| p ps]; cbn; try discriminate.
  inversion W; subst.
  pose proof (ffi_prim_not_bad p x H1).
  destruct (ffi_conv_prim p x); try congruence; try discriminate.
  specialize (IH ps H2). destruct (conv_fields ps l); congruence.
Qed.

Definition wf_item (it : item) : Prop :=
  match it with IPrim _ p => wf_prim p | IStruct _ ps => Forall wf_prim ps | IVoid => True end.

Lemma conv_struct_items_not_bad : forall id ps l, Forall wf_prim ps -> conv_struct_items id ps l <> inl CBad.
Proof.
  intros id ps l W. induction l as [| x l IH]; cbn [conv_struct_items]; [discriminate |].
  destruct x; try discriminate.
  - pose proof (conv_fields_not_bad ps l0 W). destruct (conv_fields ps l0); [congruence |].
    destruct (conv_struct_items id ps l); congruence.
  - destruct (id =? id0); [| discriminate]. destruct (conv_struct_items id ps l); congruence.
Qed.
Definition wf_ctype_deep (t : ctype) : Prop :=
  match t with Prim p => wf_prim p | Ptr it => wf_item it | Struct _ ps => Forall wf_prim ps | FnPtr => True end.

(* for the branches of conv_pointer / conv_struct / conv_fnptr that end in COk or CErr whatever their tests say *)
Ltac split_matches :=
  repeat match goal with
         | |- context [match ?v with _ => _ end] => destruct v
         end; try discriminate.

Theorem ffi_conv_not_bad : forall t x, wf_ctype_deep t -> ffi_conv t x <> CBad.
Proof.
  intros [p | it | id ps |] x W; cbn in *.
  - apply ffi_prim_not_bad; exact W.
  - unfold conv_pointer. destruct x; try discriminate.
    + destruct (_ || _); [| discriminate]. split_matches.
    + split_matches.
    + destruct it as [| nid p | sid ps]; try discriminate.
      * pose proof (conv_items_not_bad p l W). destruct (conv_items p l); [congruence | discriminate].
      * pose proof (conv_struct_items_not_bad sid ps l W). destruct (conv_struct_items sid ps l); [congruence | discriminate].
    + split_matches.
    + split_matches.
    + split_matches.
  - unfold conv_struct. destruct x; try discriminate.
    + pose proof (conv_fields_not_bad ps l W). destruct (conv_fields ps l); [congruence | discriminate].
    + split_matches.
  - unfold conv_fnptr. split_matches.
Qed.

Lemma wf_deep_wf : forall t, wf_ctype_deep t -> wf_ctype t.
Proof. intros [] H; cbn in *; auto. Qed.

Theorem api_conv_not_bad : forall t x, wf_ctype_deep t -> api_conv t x <> CBad.
Proof. intros t x W. rewrite conv_agree by (apply wf_deep_wf; exact W). apply ffi_conv_not_bad; exact W. Qed.

Lemma conv_args_agree : forall ts xs, Forall wf_ctype ts -> conv_args api_conv ts xs = conv_args ffi_conv ts xs.
Proof.
  induction ts as [| t ts IH]; intros xs W; destruct xs as [| x xs]; cbn; try reflexivity.
  inversion W; subst. rewrite (conv_agree t x H1), (IH xs H2). reflexivity.
Qed.


Definition pow2 (a : Z) : Prop := exists k, 0 <= k /\ a = 2 ^ k.

Lemma align_to_div : forall n k, 0 <= k -> align_to n (2 ^ k) = (n + 2 ^ k - 1) / 2 ^ k * 2 ^ k.
Proof. intros n k Hk. unfold align_to. rewrite mask_floor by (exists k; auto). do 2 f_equal. lia. Qed.

(* ALIGN_TO with a power of two is Model.roundup, which is Base.Align.roundup written again *)
Lemma align_to_roundup : forall n a, pow2 a -> align_to n a = roundup n a.
Proof. intros n a (k & Hk & ->). apply align_to_div, Hk. Qed.

Lemma align_to_spec : forall n a, pow2 a -> n <= align_to n a < n + a /\ align_to n a mod a = 0.
Proof.
  intros n a P. rewrite align_to_roundup by exact P. pose proof (is_pow2_pos a P).
  split; [apply roundup_bounds; lia | apply Z.mod_divide; [lia | apply roundup_divide]].
Qed.

Lemma pow2_8 : pow2 8.
Proof. exists 3. split; [lia | reflexivity]. Qed.

Lemma align_fix : forall n a, pow2 a -> n mod a = 0 -> align_to n a = n.
Proof.
  intros n a P H. pose proof (is_pow2_pos a P). rewrite align_to_roundup by exact P.
  apply roundup_fix; [lia | apply Z.mod_divide; [lia | exact H]].
Qed.

Lemma pow2_mod_trans : forall x a b, pow2 a -> pow2 b -> a <= b -> x mod b = 0 -> x mod a = 0.
Proof.
  intros x a b Pa Pb Hle H. pose proof (is_pow2_pos a Pa). pose proof (is_pow2_pos b Pb).
  apply Z.mod_divide; [lia |]. apply Z.mod_divide in H; [| lia].
  exact (Z.divide_trans _ _ _ (is_pow2_divide a b Pa Pb Hle) H).
Qed.

(* slot offset chosen for an argument: ALIGN_TO(off, alignment) then ALIGN_ARG *)
Lemma slot_spec : forall off a, pow2 a ->
  let o := align_arg (align_to off a) in off <= o /\ o mod a = 0 /\ o mod 8 = 0.
Proof.
  intros off a P. cbn. unfold align_arg.
  destruct (align_to_spec off a P) as [[L1 _] M1].
  destruct (align_to_spec (align_to off a) 8 pow2_8) as [[L2 _] M2].
  split; [lia |]. split; [| exact M2].
  destruct (Z_le_gt_dec a 8).
  - apply (pow2_mod_trans _ a 8 P pow2_8); assumption.
  - rewrite (align_fix _ 8 pow2_8); [exact M1 |].
    apply (pow2_mod_trans _ 8 a pow2_8 P); [lia | exact M1].
Qed.

(* consecutive regions: each starts at or after the end of the previous one *)
Fixpoint chain (lo : Z) (rs : list (Z * Z)) (hi : Z) : Prop :=
  match rs with
  | [] => lo <= hi
  | (o, n) :: rs' => lo <= o /\ 0 <= n /\ chain (o + n) rs' hi
  end.

Lemma chain_weaken : forall rs lo hi hi', chain lo rs hi -> hi <= hi' -> chain lo rs hi'.
Proof.
  induction rs as [| [o n] rs IH]; cbn; intros; [lia |].
  destruct H as (A & B & C). repeat split; try assumption. eapply IH; eassumption.
Qed.

Lemma chain_le : forall rs lo hi, chain lo rs hi -> lo <= hi.
Proof.
  induction rs as [| [o n] rs IH]; cbn; intros; [lia |].
  destruct H as (A & B & C). apply IH in C. lia.
Qed.

Lemma chain_inside : forall rs lo hi, chain lo rs hi ->
  Forall (fun r => lo <= fst r /\ 0 <= snd r /\ fst r + snd r <= hi) rs.
Proof.
  induction rs as [| [o n] rs IH]; cbn; intros lo hi H; [constructor |].
  destruct H as (A & B & C). constructor.
  - cbn. pose proof (chain_le _ _ _ C). lia.
  - specialize (IH _ _ C). eapply Forall_impl; [| exact IH]. cbn. intros [o' n'] ?. cbn in *. lia.
Qed.

Definition disjoint (r1 r2 : Z * Z) : Prop := fst r1 + snd r1 <= fst r2 \/ fst r2 + snd r2 <= fst r1.

Lemma chain_disjoint : forall rs lo hi, chain lo rs hi -> ForallOrdPairs disjoint rs.
Proof.
  induction rs as [| [o n] rs IH]; cbn; intros lo hi H; [constructor |].
  destruct H as (A & B & C). constructor.
  - pose proof (chain_inside _ _ _ C) as I. eapply Forall_impl; [| exact I].
    intros [o' n'] ?. left. cbn in *. lia.
  - eapply IH; exact C.
Qed.

Definition wf_args (args : list (Z * Z)) : Prop := Forall (fun sa => 0 <= fst sa /\ pow2 (snd sa)) args.

Lemma fb_args_spec : forall args off, wf_args args ->
  let offs := fst (fb_args off args) in
  let fin := snd (fb_args off args) in
  chain off (combine offs (map fst args)) fin /\
  length offs = length args /\
  Forall2 (fun o sa => o mod snd sa = 0 /\ o mod 8 = 0) offs args.
Proof.
  induction args as [| [size al] rest IH]; intros off W; cbn.
  - repeat split; [lia | constructor].
  - inversion W as [| ? ? [Hs Hp] W']; subst. cbn in Hs, Hp.
    destruct (slot_spec off al Hp) as (L & M1 & M2).
    specialize (IH (align_arg (align_to off al) + size) W').
    destruct (fb_args (align_arg (align_to off al) + size) rest) as [offs fin] eqn:E. cbn in *.
    destruct IH as (C & Len & F).
    repeat split; try assumption; try lia.
    constructor; [split; assumption | exact F].
Qed.

Definition wf_sig (rsize ralign : Z) (args : list (Z * Z)) : Prop :=
  0 <= rsize /\ pow2 ralign /\ wf_args args.

Theorem exchange_layout_safe : forall rsize ralign args, wf_sig rsize ralign args ->
  let L := fb_build rsize ralign args in
  let R := regions rsize ralign args in
  Forall (fun r => 0 <= fst r /\ 0 <= snd r /\ fst r + snd r <= exchange_size L) R /\
  ForallOrdPairs disjoint R /\
  res_off L mod ralign = 0 /\ res_off L mod 8 = 0 /\
  length (arg_offs L) = length args /\
  Forall2 (fun o sa => o mod snd sa = 0 /\ o mod 8 = 0) (arg_offs L) args /\
  FFI_ARG <= res_len L /\ rsize <= res_len L /\
  exchange_size L mod 8 = 0.
Proof.
  intros rsize ralign args (Hr & Hp & Wa). cbn zeta.
  unfold regions, fb_build.
  set (nargs := Z.of_nat (length args)).
  set (off0 := align_arg (align_to (nargs * 8) ralign)).
  set (rlen := if rsize <? FFI_ARG then FFI_ARG else rsize).
  pose proof (fb_args_spec args (off0 + rlen) Wa) as S. cbn zeta in S.
  destruct (fb_args (off0 + rlen) args) as [offs fin] eqn:E. cbn [fst snd] in S.
  destruct S as (C & Len & F). cbn [res_off res_len arg_offs exchange_size].
  destruct (slot_spec (nargs * 8) ralign Hp) as (L0 & M1 & M2). fold off0 in L0, M1, M2.
  assert (RL : FFI_ARG <= rlen /\ rsize <= rlen) by (unfold rlen, FFI_ARG; destruct (rsize <? 8) eqn:Q; lia).
  destruct (align_to_spec fin 8 pow2_8) as [[Lf _] Mf].
  assert (CH : chain 0 ((0, nargs * 8) :: (off0, rlen) :: combine offs (map fst args)) (align_arg fin)).
  { cbn. unfold FFI_ARG in RL. repeat split; try lia.
    eapply chain_weaken; [exact C | exact Lf]. }
  split; [| split].
  - pose proof (chain_inside _ _ _ CH) as I. eapply Forall_impl; [| exact I]. cbn. intros [o n] ?. cbn in *. lia.
  - eapply chain_disjoint; exact CH.
  - repeat split; try assumption; try lia; exact Mf.
Qed.

(* integer value of a primitive cdata whose object representation is the in-range number `bits`: nb_int, except
   that 4-byte characters are not read as signed *)
Definition cdata_int_value (p : prim) (bits : Z) : Z :=
  match p with PI s true => wrapS s bits | _ => bits end.

Definition narrow (p : prim) : Prop :=
  p = PB \/ p = PC 1 \/ p = PC 2 \/ exists s sg, (s = 1 \/ s = 2) /\ p = PI s sg.

Theorem variadic_narrow_promoted : forall p bits b64, narrow p -> 0 <= bits < 2 ^ (8 * prim_size p) ->
  let v := cdata_int_value p bits in
  variadic_conv (PyCPrim p bits b64) = COk (CInt 4 (wrapU 4 v)) /\ wrapS 4 (wrapU 4 v) = v /\ - 2 ^ 15 <= v < 2 ^ 16.
Proof.
  intros p bits b64 N B v.
  (* a narrow cdata goes to libffi as an int, and the backend reads its integer value, which is small *)
  assert (T : variadic_type p = PI 4 true /\ int_view (PyCPrim p bits b64) = inl v /\ - 2 ^ 15 <= v < 2 ^ 16).
  { subst v. destruct N as [-> | [-> | [-> | [s [[|] [Hs ->]]]]]]; cbn [cdata_int_value].
    1-3: cbn in B; repeat split; try reflexivity; lia.
    - pose proof (wrapS_range s bits). destruct Hs as [-> | ->]; repeat split; try reflexivity; cbn in *; lia.
    - cbn [int_view is_floatlike nb_int cdata_int_value]. rewrite wrapU_id by exact B.
      destruct Hs as [-> | ->]; repeat split; try reflexivity; cbn in B; lia. }
  destruct T as (T1 & T2 & T3).
  assert (I : wrapS 4 v = v) by (apply wrapS_id; cbn; lia).
  split; [| split; [| exact T3]].
  - cbn [variadic_conv]. rewrite T1, ffi_int_conv, T2 by lia. cbn [ranged int_lo int_hi].
    replace ((- 2 ^ (8 * 4 - 1) <=? v) && (v <=? 2 ^ (8 * 4 - 1) - 1)) with true by (symmetry; lia). reflexivity.
  - rewrite <- I at 2. unfold wrapS, wrapU. rewrite Z.mod_mod by (cbn; lia). reflexivity.
Qed.
