(* C30 — proofs about the model of _preprocess_extern_python (C30/ExternPy.v over the regenerated C30/Gen.v).
   The proofs use the regenerated facts by conversion (`change ep_requires_next with true`, `change ep_end_adjust
   with 1`, the three raise classes): if the source drops the trailing `.` of the pattern, or the `- 1`, or raises
   another class, Gen.v changes and this file no longer compiles (broken obligation). *)
From Coq Require Import ZArith NArith List Bool Lia.
Import ListNotations.
From Cffi Require Import C30.Gen C30.ExternPy.
Open Scope Z_scope.

Lemma strip_prefix_len : forall p t r, strip_prefix p t = Some r -> (length r <= length t)%nat.
Proof.
  induction p as [|c p IH]; intros t r H; cbn [strip_prefix] in H.
  - inversion H; subst; lia.
  - destruct t as [|x t']; [discriminate|]. destruct (N.eqb x c); [|discriminate].
    apply IH in H. cbn [length]. lia.
Qed.

Section P.
Variables isw iss : N -> bool.

Lemma skip_ws_len : forall t, (length (skip_ws iss t) <= length t)%nat.
Proof. induction t as [|c r IH]; cbn [skip_ws length]; [lia|]. destruct (iss c); cbn [length]; lia. Qed.

Lemma plus_C_len : forall t r h, plus_C iss t = Some (r, h) -> (length r <= length t)%nat.
Proof.
  intros t r h H. unfold plus_C in H.
  pose proof (skip_ws_len t) as L1.
  destruct (skip_ws iss t) as [|p r3] eqn:E1; [discriminate|].
  destruct (N.eqb p PLUS); [|discriminate].
  pose proof (skip_ws_len r3) as L2.
  destruct (skip_ws iss r3) as [|c1 [|q r4]] eqn:E2; try discriminate.
  destruct (N.eqb c1 BIGC && N.eqb q DQ); [|discriminate].
  inversion H; subst. cbn [length] in *. lia.
Qed.

Lemma plus_Python_len : forall t r h, plus_Python iss t = Some (r, h) -> (length r <= length t)%nat.
Proof.
  intros t r h H. unfold plus_Python in H.
  pose proof (skip_ws_len t) as L1.
  destruct (skip_ws iss t) as [|p r3] eqn:E1; [discriminate|].
  destruct (N.eqb p PLUS); [|discriminate].
  pose proof (skip_ws_len r3) as L2.
  destruct (strip_prefix s_Python (skip_ws iss r3)) as [[|q r4]|] eqn:E2; try discriminate.
  apply strip_prefix_len in E2. destruct (N.eqb q DQ); [|discriminate].
  inversion H; subst. cbn [length] in *. lia.
Qed.

Lemma group_len : forall t r h, group iss t = Some (r, h) -> (length r <= length t)%nat.
Proof.
  intros t r h H. unfold group in H.
  destruct (strip_prefix s_Python t) as [r1|] eqn:E.
  - apply strip_prefix_len in E. destruct r1 as [|c r2]; [discriminate|].
    destruct (N.eqb c DQ).
    + inversion H; subst. cbn [length] in E. lia.
    + apply plus_C_len in H. lia.
  - destruct t as [|c r1]; [discriminate|]. destruct (N.eqb c BIGC); [|discriminate].
    apply plus_Python_len in H. cbn [length]. lia.
Qed.

(* the regenerated fact "the pattern ends with `\s*.`" at work: every match of the tail consumes a character *)
Lemma tail_next_bound : forall r n, tail_next iss r = Some n -> 1 <= n <= len r.
Proof.
  induction r as [|c r IH]; intros n H; cbn [tail_next] in H; [discriminate|].
  unfold len in *. cbn [length]. rewrite Nat2Z.inj_succ.
  destruct (iss c).
  - destruct (tail_next iss r) as [m|] eqn:E.
    + inversion H; subst. specialize (IH m eq_refl). lia.
    + destruct (N.eqb c NL); [discriminate|]. inversion H; subst. lia.
  - destruct (N.eqb c NL); [discriminate|]. inversion H; subst. lia.
Qed.

Lemma match_at_bound : forall t n h, match_at iss t = Some (n, h) -> 1 <= n <= len t.
Proof.
  intros t n h H. unfold match_at in H.
  destruct (strip_prefix s_extern t) as [r0|] eqn:E0; [|discriminate].
  apply strip_prefix_len in E0.
  pose proof (skip_ws_len r0) as L1.
  destruct (skip_ws iss r0) as [|q r1] eqn:E1; [discriminate|].
  destruct (N.eqb q DQ); [|discriminate].
  destruct (group iss r1) as [[r2 hc]|] eqn:E2; [|discriminate].
  apply group_len in E2.
  unfold tail in H. change ep_requires_next with true in H. cbv iota in H.
  destruct (tail_next iss r2) as [m|] eqn:E3; [|discriminate].
  apply tail_next_bound in E3. inversion H; subst. unfold len in *. cbn [length] in L1. lia.
Qed.

Lemma search_bound : forall t pw pos st en h, search isw iss pw t pos = Some (st, en, h) ->
  pos <= st /\ st + 1 <= en <= pos + len t.
Proof.
  induction t as [|c r IH]; intros pw pos st en h H; cbn [search] in H; [discriminate|].
  destruct (if xorb pw (isw c) then match_at iss (c :: r) else None) as [[n hh]|] eqn:E.
  - inversion H; subst. destruct (xorb pw (isw c)); [|discriminate]. apply match_at_bound in E. lia.
  - apply IH in H. unfold len in *. cbn [length]. rewrite Nat2Z.inj_succ. lia.
Qed.

Lemma getitem_in : forall s i, 0 <= i < len s -> exists c, py_getitem s i = Some c.
Proof.
  intros s i H. unfold py_getitem.
  assert ((0 <=? i) && (i <? len s) = true) as ->
    by (apply andb_true_intro; split; [apply Z.leb_le|apply Z.ltb_lt]; lia).
  destruct (nth_error s (Z.to_nat i)) eqn:E; [eauto|].
  apply nth_error_None in E. unfold len in H. lia.
Qed.

Lemma slice_rest_shorter : forall s k, 0 <= k -> (0 < length s)%nat ->
  (length (slice s (k + 1) (len s)) < length s)%nat.
Proof.
  intros s k Hk Hs. unfold slice. rewrite firstn_length, skipn_length.
  assert (1 <= norm s (k + 1)) as H1.
  { unfold norm. destruct (k + 1 <? 0) eqn:E; [apply Z.ltb_lt in E; lia|]. unfold len. lia. }
  assert (1 <= Z.to_nat (norm s (k + 1)))%nat by lia.
  lia.
Qed.

(* every round matches at least one character (search_bound) and goes on with what follows the '}' or ';' it
   found at or after the match's last character (slice_rest_shorter): the text shrinks, so fuel S (length cs) suffices *)
Lemma ep_loop_closed : forall fuel parts cs x, (length cs < fuel)%nat ->
  ep_loop isw iss fuel parts cs = Err x -> x = CDefError \/ x = NotImplementedError.
Proof.
  induction fuel as [|f IH]; intros parts cs x Hf H; [lia|].
  cbn [ep_loop] in H. cbv zeta in H.
  destruct (search isw iss false cs 0) as [[[st en] hasc]|] eqn:ES; [|discriminate].
  apply search_bound in ES. destruct ES as [S1 S2].
  change ep_end_adjust with 1 in H.
  destruct (getitem_in cs (en - 1)) as [ch Hch]; [lia|].
  rewrite Hch in H.
  assert (0 < length cs)%nat as Hpos by (unfold len in S2; lia).
  destruct (N.eqb ch ep_brace).
  - destruct (py_find ep_close cs (en - 1) (len cs) <? 0) eqn:E1.
    + injection H as <-. left. reflexivity.
    + apply Z.ltb_ge in E1.
      destruct (0 <=? py_find ep_inner cs (en - 1 + 1) (py_find ep_close cs (en - 1) (len cs))) eqn:E2.
      * injection H as <-. right. reflexivity.
      * eapply IH; [|exact H]. pose proof (slice_rest_shorter cs _ E1 Hpos). lia.
  - destruct (py_find ep_semi cs (en - 1) (len cs) <? 0) eqn:E1.
    + injection H as <-. left. reflexivity.
    + apply Z.ltb_ge in E1. eapply IH; [|exact H]. pose proof (slice_rest_shorter cs _ E1 Hpos). lia.
Qed.

End P.
