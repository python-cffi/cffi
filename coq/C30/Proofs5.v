(* C30 — the handler of _put_back_line_directives.replace over the REGENERATED except-tuple (C30/Gen.v: caught,
   handler_raises, not_placeholder_raises, placeholder, placeholder_skip), and its agreement with the hand-written
   C31.Model.replace.  If the source narrows `except (ValueError, IndexError)` (or raises another
   class, or changes the '#line@' literal / the s[6:] offset) Gen.v changes and C30_handler_regenerated /
   C30_placeholder_regenerated (Props.v) no longer compile: the closure theorem about _preprocess's five modelled stages
   (C31.Proofs2.preprocess_errors) is then no longer known to be about the source. *)
From Coq Require Import ZArith NArith List Bool.
Import ListNotations.
From Cffi Require Import C30.Gen.
From Cffi Require C31.Model.

Definition to_c31 (e : exn) : option C31.Model.exn :=
  match e with
  | CDefError => Some C31.Model.CDefError
  | IndexError => Some C31.Model.IndexError
  | ValueError => Some C31.Model.ValueError
  | AssertionError => Some C31.Model.AssertionError
  | _ => None
  end.
Definition c31_eqb (a b : C31.Model.exn) : bool :=
  match a, b with
  | C31.Model.CDefError, C31.Model.CDefError | C31.Model.AssertionError, C31.Model.AssertionError
  | C31.Model.IndexError, C31.Model.IndexError | C31.Model.ValueError, C31.Model.ValueError => true
  | _, _ => false
  end.
(* `except <caught>:` catches e *)
Definition catches (e : C31.Model.exn) : bool :=
  existsb (fun g => match to_c31 g with Some e' => c31_eqb e e' | None => false end) caught.

(* try: <replace_raw> except <caught>: raise <handler_raises>(...) *)
Definition replace_gen (l : C31.Model.text) (st : list C31.Model.text) : C31.Model.result C31.Model.text :=
  match C31.Model.replace_raw l st with
  | C31.Model.Err e =>
      if catches e then match to_c31 handler_raises with Some h => C31.Model.Err h | None => C31.Model.Err e end
      else C31.Model.Err e
  | r => r
  end.
