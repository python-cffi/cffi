(* C30 — which exceptions the regenerated constant evaluator (C09/Gen.v + C09/Model.v) can raise. *)
From Coq Require Import ZArith NArith String List Bool Lia ZifyBool.
Import ListNotations.
From Cffi Require Import C09.Prim C09.Gen C09.Model C09.Proofs C30.Model.
Open Scope Z_scope.

(* every literal token is non-empty (pycparser's lexer) *)
Fixpoint wf (e : expr) : Prop :=
  match e with
  | Const s => s <> []
  | Unary _ e1 => wf e1
  | Binary _ l r => wf l /\ wf r
  | Id _ | Other => True
  end.

Section Closure.
  Variable P : pyexn -> Prop.
  Hypothesis P_ffi : P FFIError.
  Hypothesis P_unop : forall op f v x, unop op = Some f -> f v = Err x -> P x.
  Hypothesis P_binop : forall op a b x, binop op a b = Some (Err x) -> P x.
  Hypothesis P_lit : forall s x, s <> [] -> lit_value s = Err x -> P x.

  Lemma py_eval_errors : forall env e x, wf e -> py_eval env e = Err x -> P x.
  Proof.
    induction e as [s|n|op e1 IH|op l IHl r IHr|]; intros x W H; simpl in H.
    - eapply P_lit; eauto.
    - destruct (lookup n env); [discriminate|]. inversion H; subst. assumption.
    - destruct (unop op) as [f|] eqn:U.
      + destruct (py_eval env e1) as [v|y] eqn:E; simpl in H.
        * eapply P_unop; eauto.
        * inversion H; subst. apply IH; auto.
      + inversion H; subst. assumption.
    - destruct W as [Wl Wr].
      destruct (py_eval env l) as [a|y] eqn:El; simpl in H; [|inversion H; subst; apply IHl; auto].
      destruct (py_eval env r) as [b|y] eqn:Er; simpl in H; [|inversion H; subst; apply IHr; auto].
      destruct (binop op a b) as [z|] eqn:B.
      + subst z. eapply P_binop; eauto.
      + inversion H; subst. assumption.
    - inversion H; subst. assumption.
  Qed.
End Closure.

(* _c_div is C's division where that is defined (C09.Proofs.c_div_quot) and refuses the divisor 0 *)
Lemma c_div_errors : forall a b x, c_div a b = Err x -> x = CDefError.
Proof.
  intros a b x. destruct (Z.eq_dec b 0) as [->|Hb]; [intros [= <-]; reflexivity|].
  rewrite (c_div_quot a b Hb). discriminate.
Qed.

Lemma binop_errors : forall op a b x, binop op a b = Some (Err x) -> x = CDefError.
Proof.
  intros op a b x. unfold binop.
  destruct ((String.eqb op "<<" || String.eqb op ">>") && negb ((0 <=? b) && (b <=? 1024))) eqn:G.
  - intros E. now injection E as <-.
  - repeat match goal with
    | |- (if String.eqb op ?s then _ else _) = _ -> _ =>
        destruct (String.eqb_spec op s) as [->|_]
    end; unfold bind2, bind; try discriminate.
    + intros E. injection E as E. eapply c_div_errors; eauto.
    + destruct (c_div a b) as [q|y] eqn:D; simpl; [discriminate|].
      intros E. injection E as E. subst y. eapply c_div_errors; eauto.
    + simpl in G. unfold py_lshift. destruct (Z.ltb_spec b 0); [lia|discriminate].
    + simpl in G. unfold py_rshift. destruct (Z.ltb_spec b 0); [lia|].
      destruct (Z.log2 (Z.abs a) <? b); discriminate.
Qed.

Lemma unop_errors : forall op f v x, unop op = Some f -> f v = Err x -> False.
Proof.
  intros op f v x. unfold unop.
  destruct (String.eqb_spec op "+"); [intros H; inversion H; subst; discriminate|].
  destruct (String.eqb_spec op "-"); [intros H; inversion H; subst; discriminate|].
  discriminate.
Qed.

Lemma num_value_errors : forall s x, num_value s = Err x -> x = CDefError.
Proof.
  intros s x. unfold num_value.
  destruct (if starts0 s then py_int 8 s else py_int 10 s); [discriminate|].
  destruct (1 <? Z.of_nat (length s)); [|intros H; now inversion H].
  destruct (prefix2_is s 120).
  - destruct (py_int 16 s); [discriminate|]. intros H; now inversion H.
  - destruct (prefix2_is s 98).
    + destruct (py_int 2 s); [discriminate|]. intros H; now inversion H.
    + intros H; now inversion H.
Qed.

Lemma char_value_errors : forall s x, char_value s = Err x -> x = CDefError.
Proof.
  intros s x. unfold char_value.
  destruct s as [|a [|b [|c [|d [|e r]]]]]; try (intros H; inversion H; reflexivity).
  - destruct (negb (N.eqb b 92)); [discriminate|]. intros H; inversion H; reflexivity.
  - destruct (N.eqb b 92); [|intros H; inversion H; reflexivity].
    destruct (assoc c simple_escapes); [discriminate|]. intros H; inversion H; reflexivity.
Qed.

Lemma lit_value_errors : forall s x, s <> [] -> lit_value s = Err x -> x = CDefError.
Proof.
  intros s x Hne. unfold lit_value. destruct s as [|c0 r]; [congruence|].
  destruct (n_in 48 57 c0).
  - apply num_value_errors.
  - destruct (N.eqb c0 39 && last_is (c0 :: r) 39).
    + apply char_value_errors.
    + intros H; now inversion H.
Qed.

(* what can escape from _parse_constant, for every expression tree and every table of known constants:
   only cffi's own errors *)
Theorem evaluator_closed : forall env e x, wf e -> py_eval env e = Err x -> cffi_error x.
Proof.
  intros env e x. apply (py_eval_errors cffi_error); unfold cffi_error.
  - auto.
  - intros op f v y U F. exfalso. eapply unop_errors; eauto.
  - intros op a b y B. apply binop_errors in B. auto.
  - intros s y Hne L. apply lit_value_errors in L; auto.
Qed.
