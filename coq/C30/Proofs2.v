(* C30 — the '#define NAME value' path never raises ValueError: what _r_int_literal accepts is, once the
   sign and the l/u suffix are off, a C integer literal of one of the shapes of C09 (hex, octal, decimal;
   never 0b...), and C09/Proofs3 says what _add_integer_constant makes of those: their value. *)
From Coq Require Import ZArith NArith String List Bool Lia ZifyBool.
Import ListNotations.
From Cffi Require Import C09.Prim C09.Gen C09.Spec C09.Model C09.Proofs2 C09.Proofs3 C30.Model.
Open Scope Z_scope.

Definition digit_below (base : Z) (c : N) : bool :=
  match digit_val c with Some d => d <? base | None => false end.

Lemma parse_digits_below : forall base (p : N -> bool) l acc, (forall c, p c = true -> digit_below base c = true) ->
  forallb p l = true -> exists v, parse_digits base acc l = Some v.
Proof.
  intros base p l acc Hp. revert acc. induction l as [|c l IH]; intros acc H; simpl; [eauto|].
  simpl in H. apply andb_true_iff in H. destruct H as [Hc Hl]. apply Hp in Hc. unfold digit_below in Hc.
  destruct (digit_val c) as [d|]; [|discriminate]. rewrite Hc. now apply IH.
Qed.

Lemma class_below : forall c,
  (C30.Model.is_hex c = true -> digit_below 16 c = true) /\ (C30.Model.is_oct c = true -> digit_below 8 c = true) /\
  (C30.Model.is_dec c = true -> digit_below 10 c = true).
Proof.
  intros c. unfold digit_below, C30.Model.is_hex, C30.Model.is_oct, C30.Model.is_dec, digit_val.
  destruct (n_in 48 57 c) eqn:D; [unfold n_in in *; lia|].
  destruct (n_in 97 122 c) eqn:L; [unfold n_in in *; lia|].
  destruct (n_in 65 90 c) eqn:U; unfold n_in in *; lia.
Qed.

(* the three alternatives of the regular expression are three of the four shapes of a C literal *)
Lemma body_shape : forall b, body_ok b = true -> exists v, lit_shape v b /\ binary_form b = false.
Proof.
  intros b H. unfold body_ok in H. destruct b as [|c0 r]; [discriminate|].
  destruct (N.eqb_spec c0 48) as [->|Z0].
  - destruct r as [|c1 r1]; [exists 0; split; [apply (ShOct 0 []) |]; reflexivity|].
    destruct (N.eqb (lower c1) 120) eqn:X.
    + assert (Hx : is_x c1 = true /\ is_b c1 = false)
        by (unfold is_x, is_b, lower, n_in in *; destruct (N.leb 65 c1 && N.leb c1 90) eqn:U; lia).
      destruct r1 as [|h r1']; [discriminate|].
      destruct (parse_digits_below 16 _ _ 0 (fun c => proj1 (class_below c)) H) as [v Hv].
      exists v. split; [apply ShHex; [apply Hx | discriminate | exact Hv] | apply Hx].
    + destruct (parse_digits_below 8 _ (48%N :: c1 :: r1) 0 (fun c => proj1 (proj2 (class_below c))) H) as [v Hv].
      exists v. split; [apply ShOct; assumption|].
      cbn [forallb] in H. unfold binary_form, is_b, C30.Model.is_oct, n_in in *. lia.
  - apply andb_true_iff in H as [H19 Hd].
    assert (D0 : C30.Model.is_dec c0 = true) by (unfold is_19, C30.Model.is_dec, n_in in *; lia).
    destruct (parse_digits_below 10 C30.Model.is_dec (c0 :: r) 0 (fun c => proj2 (proj2 (class_below c)))) as [v Hv];
      [cbn [forallb]; rewrite D0; exact Hd|].
    exists v. split; [apply ShDec; [apply N.eqb_neq; exact Z0 | exact D0 | exact Hv]|].
    destruct r as [|c1 r1]; [reflexivity|]. cbn [forallb] in Hd.
    unfold binary_form, is_b, C30.Model.is_dec, n_in in *. lia.
Qed.

(* the value: that of the literal under the sign and the suffix *)
Theorem macro_value : forall s, r_int_literal s = true ->
  exists v, lit_shape v (rstrip_ul (drop_minus s)) /\
            add_integer_constant s = Ok (match s with c :: _ => if N.eqb c 45 then - v else v | [] => v end).
Proof.
  intros s H. destruct (body_shape _ H) as (v & Sh & NB). exists v. split; [exact Sh|].
  destruct s as [|c r]; [discriminate|]. unfold drop_minus in Sh, NB.
  destruct (N.eqb_spec c 45) as [->|_]; apply (shape_value _ v Sh NB).
Qed.

Theorem macros_closed : forall s, r_int_literal s = true -> exists v, add_integer_constant s = Ok v.
Proof. intros s H. destruct (macro_value s H) as (v & _ & E). eauto. Qed.
