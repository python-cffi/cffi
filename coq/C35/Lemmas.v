(* Lemmas about the shared vocabulary of C35/Model.v (string equality, the result monad, the for-loop
   combinator) that do not depend on any regenerated file; used by the proofs of C35, C32, C23 and C24. *)
From Coq Require Import List NArith ZArith Bool.
Import ListNotations.
From Cffi Require Import Base.ListFacts C35.PyStr C35.Model.
Open Scope N_scope.

Lemma str_eqb_eq a : forall b, str_eqb a b = true <-> a = b.
Proof. exact (nlist_eqb_eq a). Qed.

Lemma str_eqb_refl a : str_eqb a a = true.
Proof. exact (nlist_eqb_refl a). Qed.

Lemma str_eqb_neq a b : a <> b -> str_eqb a b = false.
Proof. exact (nlist_eqb_neq a b). Qed.

Lemma Ok_inj {A} (a b : A) : Ok a = Ok b -> a = b.
Proof. congruence. Qed.

Lemma bind_ok {A B} (x : res A) (f : A -> res B) b : bind x f = Ok b -> exists a, x = Ok a /\ f a = Ok b.
Proof. destruct x; cbn; [eauto|discriminate]. Qed.

Lemma bind_ok_id {A} (x : res A) : bind x (fun r => Ok r) = x.
Proof. destruct x; reflexivity. Qed.

Lemma py_for_cons {S X} (body : S -> X -> res S) x l st :
  py_for body (x :: l) st = bind (body st x) (py_for body l).
Proof.
  unfold py_for. cbn. destruct (body st x) as [s|e]; cbn; auto.
  induction l; cbn; auto.
Qed.

Lemma py_for_nil {S X} (body : S -> X -> res S) st : py_for body [] st = Ok st.
Proof. reflexivity. Qed.
