(* C35 — composition of the regenerated pieces: the real call() = call_post applied to the child spawned with
   call_argv, inside flags_from_pkgconfig. *)
From Coq Require Import List NArith ZArith Bool.
Import ListNotations.
From Cffi Require Import C35.PyStr C35.Model C35.Lemmas C35.Spec C35.Gen C35.Proofs.
Open Scope N_scope.

(* pkgconfig.call(libname, flag): spawn pkg-config with call_argv, post-process (status, stdout) with call_post.
   spawn = subprocess.Popen(...).communicate() + returncode as a function of argv (None: EnvironmentError). *)
Definition real_call (spawn : list str -> spawn_result) (decode : list N -> option str) (alt : bool)
    (lib flag : str) : res str :=
  call_post decode alt (spawn (call_argv lib flag)).

Definition good_run (spawn : list str -> spawn_result) (decode : list N -> option str) (alt : bool)
    (lib : str) (s : stream) (t : str) : Prop :=
  exists b, spawn (call_argv lib (stream_flag s)) = Some (0%Z, b) /\ decode b = Some t /\
            (alt = true \/ py_contains_char 92 t = false).

Lemma good_run_call spawn decode alt lib s t : good_run spawn decode alt lib s t ->
  real_call spawn decode alt lib (stream_flag s) = Ok t.
Proof. intros G. unfold real_call. apply call_post_ok_iff. exact G. Qed.

Lemma kwargs_keys call lib c : kwargs call lib = Ok c -> map fst c = map kw_name all_kw.
Proof. intros H. destruct (kwargs_ok_inv call lib c H) as (cf & l & _ & _ & ->). apply kwargs_dict_keys. Qed.

Lemma kwargs_dict_in call lib c k : kwargs call lib = Ok c -> dict_in k c = is_kw_name k.
Proof. intros H. destruct (kwargs_ok_inv call lib c H) as (cf & l & _ & _ & ->). apply dict_in_kwargs_dict. Qed.

Lemma loop_keys call : forall libs acc r, wf_cfg acc -> all_lists acc ->
  py_for (loop_body call) libs acc = Ok r ->
  wf_cfg r /\ all_lists r /\ forall k, dict_in k r = dict_in k acc || (negb (is_nil libs) && is_kw_name k).
Proof.
  intros libs acc r W L H. pose proof (loop_run call libs acc W L) as R. rewrite H in R.
  destruct R as (Wr & Lr & _ & _ & K). auto.
Qed.
