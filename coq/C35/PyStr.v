(* Python string primitives used by the code translated for C35 / C32 (tools/props/c35_trans.py).
   str is modelled as the list of its code points.  Every definition here is run against CPython
   on generated inputs at the start of each check (micro-suite in tools/props/c35.py: pystr_suite).

   Definitions first, then the lemmas the property proofs use; `tokenization` is the independent
   specification of str.split() (no argument): maximal runs of non-whitespace characters. *)
From Coq Require Import List NArith ZArith Bool Lia ZifyBool.
Import ListNotations.
Open Scope N_scope.

Definition str := list N.

(* str.isspace() / the separator set of str.split() in CPython 3 (Unicode White_Space plus
   the bidirectional types WS, B, S: 0x1c..0x1f). *)
Definition is_space (c : N) : bool :=
  ((9 <=? c) && (c <=? 13)) || ((28 <=? c) && (c <=? 32)) || (c =? 133) || (c =? 160)
  || (c =? 5760) || ((8192 <=? c) && (c <=? 8202)) || (c =? 8232) || (c =? 8233)
  || (c =? 8239) || (c =? 8287) || (c =? 12288).

Definition push (t : str) (ts : list str) : list str :=
  match t with [] => ts | _ => t :: ts end.

(* right-to-left scan: (token touching the left end, tokens after it) *)
Fixpoint split_go (s : str) : str * list str :=
  match s with
  | [] => ([], [])
  | c :: s' => let (t, ts) := split_go s' in
               if is_space c then ([], push t ts) else (c :: t, ts)
  end.

(* s.split() *)
Definition py_split (s : str) : list str := let (t, ts) := split_go s in push t ts.

(* x.startswith(p) *)
Fixpoint py_startswith (x p : str) : bool :=
  match p, x with
  | [], _ => true
  | _ :: _, [] => false
  | b :: p', a :: x' => (a =? b) && py_startswith x' p'
  end.

(* x[n:] for a constant n >= 0 *)
Definition py_slice_from (n : nat) (x : str) : str := skipn n x.

(* c in x, for a one-character string c *)
Definition py_contains_char (c : N) (x : str) : bool := existsb (N.eqb c) x.

Fixpoint break_at (sep : N) (x : str) : str * option str :=
  match x with
  | [] => ([], None)
  | c :: x' => if c =? sep then ([], Some x')
               else let (a, b) := break_at sep x' in (c :: a, b)
  end.

(* x.split(sep, 1) for a one-character sep *)
Definition py_split1 (sep : N) (x : str) : list str :=
  match break_at sep x with
  | (a, None) => [a]
  | (a, Some b) => [a; b]
  end.

(* [E for x in L if C] *)
Definition py_listcomp {A B} (e : A -> B) (c : A -> bool) (l : list A) : list B :=
  map e (filter c l).

Definition py_len {A} (l : list A) : Z := Z.of_nat (length l).

Definition all_space (s : str) := Forall (fun c => is_space c = true) s.
Definition no_space (s : str) := Forall (fun c => is_space c = false) s.
Definition starts_sep (s : str) := s = [] \/ exists c r, s = c :: r /\ is_space c = true.

(* independent specification of split(): s = ws0 t1 ws1 t2 ... tn wsn, the t_i non-empty and
   whitespace-free, ws_i whitespace, ws_1..ws_{n-1} non-empty *)
Inductive tokenization : str -> list str -> Prop :=
| tk_nil : forall ws, all_space ws -> tokenization ws []
| tk_cons : forall ws t rest ts, all_space ws -> t <> [] -> no_space t -> starts_sep rest ->
            tokenization rest ts -> tokenization (ws ++ t ++ rest) (t :: ts).

Lemma is_space_bound c : is_space c = true -> c <= 12288.
Proof. unfold is_space. lia. Qed.

Lemma tokenization_space_cons c r ts :
  is_space c = true -> tokenization r ts -> tokenization (c :: r) ts.
Proof.
  intros Hc H. inversion H; subst.
  - apply tk_nil. constructor; auto.
  - change (c :: ws ++ t ++ rest) with ((c :: ws) ++ t ++ rest).
    apply tk_cons; auto. constructor; auto.
Qed.

Lemma split_go_inv s : forall t ts, split_go s = (t, ts) ->
  no_space t /\ exists rest, s = t ++ rest /\ starts_sep rest /\ tokenization rest ts.
Proof.
  induction s as [|c s IH]; intros t ts H; cbn in H.
  - inversion H; subst. split; [constructor|]. exists []. repeat split.
    + left; reflexivity.
    + apply tk_nil. constructor.
  - destruct (split_go s) as [t0 ts0] eqn:E.
    destruct (IH _ _ eq_refl) as [Hns [rest [Hs [Hsep Htok]]]].
    destruct (is_space c) eqn:Hc; inversion H; subst; clear H.
    + split; [constructor|]. exists (c :: t0 ++ rest). repeat split.
      * right. exists c, (t0 ++ rest). auto.
      * destruct t0 as [|a t0]; cbn [push].
        -- cbn. apply tokenization_space_cons; auto.
        -- change (c :: (a :: t0) ++ rest) with ([c] ++ (a :: t0) ++ rest).
           apply tk_cons; auto; try discriminate; repeat constructor; auto.
    + split; [constructor; auto|]. exists rest. repeat split; auto.
Qed.

Theorem py_split_spec s : tokenization s (py_split s).
Proof.
  unfold py_split. destruct (split_go s) as [t ts] eqn:E.
  destruct (split_go_inv _ _ _ E) as [Hns [rest [Hs [Hsep Htok]]]]. subst s.
  destruct t as [|a t]; cbn [push]; [exact Htok|].
  change ((a :: t) ++ rest) with ([] ++ (a :: t) ++ rest).
  apply tk_cons; auto; try discriminate; repeat constructor; auto.
Qed.

Lemma all_space_no_space_nil t : all_space t -> no_space t -> t = [].
Proof.
  destruct t; auto. intros H1 H2. inversion H1; inversion H2; subst. congruence.
Qed.

Lemma run_unique {A} (P : A -> Prop) : forall a a' r r',
  Forall P a -> Forall P a' ->
  (forall x t, r = x :: t -> ~ P x) -> (forall x t, r' = x :: t -> ~ P x) ->
  a ++ r = a' ++ r' -> a = a' /\ r = r'.
Proof.
  induction a as [|x a IH]; destruct a' as [|y a']; cbn; intros r r' Ha Ha' Hr Hr' E.
  - auto.
  - exfalso. apply (Hr _ _ E). inversion Ha'; auto.
  - exfalso. apply (Hr' _ _ (eq_sym E)). inversion Ha; auto.
  - injection E as -> E. inversion Ha; inversion Ha'; subst.
    destruct (IH a' r r') as [-> ->]; auto.
Qed.

Lemma token_then_sep_head t r x u : t <> [] -> no_space t -> t ++ r = x :: u -> is_space x <> true.
Proof.
  intros Hne Hn E. destruct t as [|y t]; [congruence|]. injection E as <- _.
  inversion Hn; congruence.
Qed.

Lemma starts_sep_head r x u : starts_sep r -> r = x :: u -> is_space x <> false.
Proof. intros [->|(c & r' & -> & Hc)] E; [discriminate|]. injection E as <- _. congruence. Qed.

Lemma split_prefix_unique : forall ws1 t1 r1 ws2 t2 r2,
  all_space ws1 -> all_space ws2 -> t1 <> [] -> t2 <> [] -> no_space t1 -> no_space t2 ->
  starts_sep r1 -> starts_sep r2 ->
  ws1 ++ t1 ++ r1 = ws2 ++ t2 ++ r2 -> t1 = t2 /\ r1 = r2.
Proof.
  intros ws1 t1 r1 ws2 t2 r2 Hw1 Hw2 Hn1 Hn2 Hs1 Hs2 Hr1 Hr2 E.
  apply (run_unique (fun c => is_space c = true)) in E; eauto using token_then_sep_head.
  destruct E as [_ E].
  apply (run_unique (fun c => is_space c = false)) in E; eauto using starts_sep_head.
Qed.

Lemma tokenization_nil_inv s : tokenization s [] -> all_space s.
Proof. intros H. inversion H; auto. Qed.

Lemma tokenization_cons_inv s t ts : tokenization s (t :: ts) ->
  exists ws rest, s = ws ++ t ++ rest /\ all_space ws /\ t <> [] /\ no_space t /\
                  starts_sep rest /\ tokenization rest ts.
Proof. intros H. inversion H; subst. exists ws, rest. auto 10. Qed.

Lemma all_space_mid ws t rest : all_space (ws ++ t ++ rest) -> no_space t -> t = [].
Proof.
  intros H Hn. apply all_space_no_space_nil; auto.
  unfold all_space in *. rewrite !Forall_app in H. tauto.
Qed.

Theorem tokenization_unique : forall s l1, tokenization s l1 -> forall l2, tokenization s l2 -> l1 = l2.
Proof.
  intros s l1 H1. induction H1 as [ws Hw | ws t rest ts Hw Hne Hns Hsep Htok IH]; intros l2 H2.
  - destruct l2 as [|t2 l2]; auto. exfalso.
    destruct (tokenization_cons_inv _ _ _ H2) as [ws2 [r2 [E [A [B [C [D F]]]]]]]. subst ws.
    apply B. eapply all_space_mid; eauto.
  - destruct l2 as [|t2 l2].
    + exfalso. apply tokenization_nil_inv in H2. apply Hne. eapply all_space_mid; eauto.
    + destruct (tokenization_cons_inv _ _ _ H2) as [ws2 [r2 [E [A [B [C [D F]]]]]]].
      destruct (split_prefix_unique ws t rest ws2 t2 r2) as [X Y]; auto.
      subst. f_equal. apply IH. auto.
Qed.

Corollary py_split_unique s l : tokenization s l -> l = py_split s.
Proof. intros H. eapply tokenization_unique; eauto. apply py_split_spec. Qed.

Lemma tokenization_tokens s l : tokenization s l -> Forall (fun t => t <> [] /\ no_space t) l.
Proof. induction 1; constructor; auto. Qed.

Lemma py_split_tokens s : Forall (fun t => t <> [] /\ no_space t) (py_split s).
Proof. apply (tokenization_tokens s). apply py_split_spec. Qed.

Lemma filter_app_all_space ws r : all_space ws ->
  filter (fun c => negb (is_space c)) (ws ++ r) = filter (fun c => negb (is_space c)) r.
Proof. induction 1; cbn; auto. rewrite H. cbn. auto. Qed.

Lemma filter_no_space t : no_space t -> filter (fun c => negb (is_space c)) t = t.
Proof. induction 1; cbn; auto. rewrite H. cbn. congruence. Qed.

Theorem py_split_concat s : concat (py_split s) = filter (fun c => negb (is_space c)) s.
Proof.
  generalize (py_split_spec s). generalize (py_split s). intros l H.
  induction H.
  - cbn. induction H; cbn; auto. rewrite H. cbn. auto.
  - cbn [concat]. rewrite filter_app_all_space by auto. rewrite filter_app.
    rewrite filter_no_space by auto. congruence.
Qed.

Lemma break_at_spec sep x : forall a b, break_at sep x = (a, b) ->
  ~ In sep a /\ match b with None => x = a | Some b' => x = a ++ sep :: b' end.
Proof.
  induction x as [|c x IH]; intros a b H; cbn in H.
  - inversion H; subst. auto.
  - destruct (c =? sep) eqn:E.
    + apply N.eqb_eq in E. inversion H; subst. auto.
    + apply N.eqb_neq in E. destruct (break_at sep x) as [a0 b0]. inversion H; subst.
      destruct (IH _ _ eq_refl) as [Hn Hx]. split.
      * intros [|]; auto.
      * destruct b; cbn; congruence.
Qed.

Lemma py_contains_char_In c x : py_contains_char c x = true <-> In c x.
Proof.
  unfold py_contains_char. rewrite existsb_exists. split.
  - intros (d & I & E). apply N.eqb_eq in E. now subst.
  - intros I. exists c. split; [exact I | apply N.eqb_refl].
Qed.

Lemma py_contains_char_false c x : py_contains_char c x = false <-> ~ In c x.
Proof. rewrite <- py_contains_char_In. now destruct (py_contains_char c x). Qed.

Lemma break_at_none sep x a : break_at sep x = (a, None) -> py_contains_char sep x = false.
Proof. intros H. destruct (break_at_spec _ _ _ _ H) as [Hn ->]. now apply py_contains_char_false. Qed.

Lemma break_at_some sep x a b : break_at sep x = (a, Some b) -> py_contains_char sep x = true.
Proof. intros H. destruct (break_at_spec _ _ _ _ H) as [_ ->]. apply py_contains_char_In, in_elt. Qed.

Lemma py_split1_spec sep x : py_contains_char sep x = true ->
  exists a b, py_split1 sep x = [a; b] /\ x = a ++ sep :: b /\ ~ In sep a.
Proof.
  intros H. unfold py_split1. destruct (break_at sep x) as [a [b|]] eqn:E.
  - destruct (break_at_spec _ _ _ _ E). exists a, b. auto.
  - apply break_at_none in E. congruence.
Qed.

Lemma py_startswith_spec x p : py_startswith x p = true <-> exists r, x = p ++ r.
Proof.
  revert x. induction p as [|b p IH]; intros x; cbn.
  - split; [intros _; exists x; reflexivity | intros _; destruct x; reflexivity].
  - destruct x as [|a x]; cbn.
    + split; [discriminate|]. intros [r H]. discriminate.
    + rewrite andb_true_iff, N.eqb_eq, IH. split.
      * intros [-> [r ->]]. eauto.
      * intros [r H]. inversion H; subst. eauto.
Qed.
