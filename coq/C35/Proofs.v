(* C35 — proofs about the regenerated model C35/Gen.v against C35/Spec.v.  merge_flags concatenates list values key
   by key and raises nothing but TypeError (merge_flags_concat, merge_flags_error); each get_* comprehension selects
   the tokens of its keyword (component_routes), and a token has one keyword (kw_of).  loop_run follows the loop of
   flags_from_pkgconfig from any list-valued accumulator: flags_concat, flags_routes and the theorems on exceptions
   are read off it.  call_post at the end. *)
From Coq Require Import List NArith ZArith Bool Lia.
From Coq Require FinFun.
Import ListNotations.
From Cffi Require Import Base.ListFacts C35.PyStr C35.Model C35.Lemmas C35.Spec C35.Gen.
Open Scope N_scope.

Lemma str_eq_dec (a b : str) : {a = b} + {a <> b}.
Proof. destruct (str_eqb a b) eqn:E; [left; apply str_eqb_eq; auto | right; intros ->; rewrite str_eqb_refl in E; discriminate]. Qed.

Lemma dict_in_keys k (d : cfg) : dict_in k d = existsb (str_eqb k) (map fst d).
Proof. unfold dict_in. induction d as [|kv d IH]; cbn; [auto|]. now rewrite IH. Qed.

Lemma dict_in_In d k : dict_in k d = true <-> In k (map fst d).
Proof.
  rewrite dict_in_keys, existsb_exists. split.
  - intros (x & I & E). apply str_eqb_eq in E. now subst.
  - intros I. exists k. split; [exact I | apply str_eqb_refl].
Qed.

Lemma dict_in_get d k : dict_in k d = true <-> exists v, dict_get d k = Ok v.
Proof.
  induction d as [|[k' v'] d IH]; cbn.
  - split; [discriminate | intros [v H]; discriminate].
  - destruct (str_eqb k k'); cbn; [split; eauto|]. exact IH.
Qed.

Lemma dict_in_false_get d k : dict_in k d = false -> dict_get d k = Err KeyError.
Proof.
  induction d as [|[k' v'] d IH]; cbn; auto.
  destruct (str_eqb k k'); cbn; [discriminate|]. exact IH.
Qed.

Lemma dict_get_set d k v k' :
  dict_get (dict_set d k v) k' = if str_eqb k' k then Ok v else dict_get d k'.
Proof.
  induction d as [|[k0 v0] d IH]; cbn.
  - destruct (str_eqb k' k); auto.
  - destruct (str_eqb k k0) eqn:E; cbn.
    + apply str_eqb_eq in E. subst k0. destruct (str_eqb k' k); auto.
    + destruct (str_eqb k' k0) eqn:E2; auto.
      apply str_eqb_eq in E2. subst k0.
      destruct (str_eqb k' k) eqn:E3; auto. apply str_eqb_eq in E3. subst.
      rewrite str_eqb_refl in E. discriminate.
Qed.

Lemma dict_set_keys_in d k v : dict_in k d = true -> map fst (dict_set d k v) = map fst d.
Proof.
  induction d as [|[k0 v0] d IH]; cbn; [discriminate|].
  destruct (str_eqb k k0) eqn:E; cbn; auto. intros H. rewrite IH; auto.
Qed.

Lemma dict_set_keys_new d k v : dict_in k d = false -> map fst (dict_set d k v) = map fst d ++ [k].
Proof.
  induction d as [|[k0 v0] d IH]; cbn; auto.
  destruct (str_eqb k k0) eqn:E; cbn; [discriminate|]. intros H. rewrite IH; auto.
Qed.

Lemma NoDup_snoc {A} (l : list A) k : NoDup l -> ~ In k l -> NoDup (l ++ [k]).
Proof. apply ListFacts.NoDup_snoc. Qed.

Lemma dict_set_wf d k v : wf_cfg d -> wf_cfg (dict_set d k v).
Proof.
  unfold wf_cfg. intros H. destruct (dict_in k d) eqn:E.
  - rewrite dict_set_keys_in; auto.
  - rewrite dict_set_keys_new; auto. apply NoDup_snoc; auto.
    intros Hin. apply dict_in_In in Hin. congruence.
Qed.

Lemma dict_set_all_lists d k l : all_lists d -> all_lists (dict_set d k (VL l)).
Proof.
  unfold all_lists. induction d as [|[k0 v0] d IH]; cbn; intros H.
  - constructor; auto.
  - inversion H; subst. destruct (str_eqb k k0); constructor; auto.
Qed.

Lemma all_lists_get d k v : all_lists d -> dict_get d k = Ok v -> exists l, v = VL l.
Proof.
  unfold all_lists. induction d as [|[k0 v0] d IH]; cbn; intros H E; [discriminate|].
  inversion H; subst. destruct (str_eqb k k0).
  - inversion E; subst. cbn in H2. destruct v; [eauto|discriminate].
  - eauto.
Qed.

Lemma lists_of_set d k l k' :
  lists_of (dict_set d k (VL l)) k' = if str_eqb k' k then l else lists_of d k'.
Proof. unfold lists_of. rewrite dict_get_set. destruct (str_eqb k' k); auto. Qed.

Lemma dict_in_set d k v k' : dict_in k' (dict_set d k v) = str_eqb k' k || dict_in k' d.
Proof.
  destruct (dict_in k' (dict_set d k v)) eqn:E.
  - apply dict_in_get in E. destruct E as [w E]. rewrite dict_get_set in E.
    destruct (str_eqb k' k); auto. cbn. symmetry. apply dict_in_get. eauto.
  - apply dict_in_false_get in E. rewrite dict_get_set in E.
    destruct (str_eqb k' k); [discriminate|]. cbn.
    destruct (dict_in k' d) eqn:E2; auto. apply dict_in_get in E2. destruct E2 as [w E2]. congruence.
Qed.

(* one iteration of the loop of merge_flags: the text of the lambda in C35/Gen.v, so that merge_flags_unfold holds
   by conversion *)
Definition merge_body (cfg1 : cfg) (kv : str * cfgval) : res cfg :=
  let '(key, value) := kv in
  if negb (dict_in key cfg1) then Ok (dict_set cfg1 key value)
  else bind (dict_get cfg1 key) (fun t1 =>
       if negb (is_list t1) then Err TypeError
       else if negb (is_list value) then Err TypeError
       else bind (dict_get cfg1 key) (fun t2 =>
            bind (val_extend t2 value) (fun t3 => Ok (dict_set cfg1 key t3)))).

Lemma merge_flags_unfold c1 c2 :
  merge_flags c1 c2 = bind (py_for merge_body (dict_items c2) c1) (fun c => Ok c).
Proof. reflexivity. Qed.

Lemma lists_of_cons k0 l0 c k : lists_of ((k0, VL l0) :: c) k = if str_eqb k k0 then l0 else lists_of c k.
Proof. unfold lists_of. cbn [dict_get]. destruct (str_eqb k k0); reflexivity. Qed.

Lemma lists_of_absent c k : ~ In k (map fst c) -> lists_of c k = [].
Proof.
  intros H. unfold lists_of. rewrite dict_in_false_get; [reflexivity|].
  apply not_true_is_false. now rewrite dict_in_In.
Qed.

(* one iteration, case by case: a new key is added; on a shared key two lists are concatenated, anything else is a
   TypeError *)
Lemma merge_body_cases c1 k v :
  merge_body c1 (k, v) =
  match dict_get c1 k with
  | Err _ => Ok (dict_set c1 k v)
  | Ok (VL l1) => match v with VL l2 => Ok (dict_set c1 k (VL (l1 ++ l2))) | VX _ => Err TypeError end
  | Ok (VX _) => Err TypeError
  end.
Proof.
  unfold merge_body. destruct (dict_in k c1) eqn:E; cbn [negb].
  - apply dict_in_get in E. destruct E as [w ->]. destruct w, v; reflexivity.
  - rewrite (dict_in_false_get _ _ E). reflexivity.
Qed.

Lemma merge_body_lists c1 k l : all_lists c1 ->
  merge_body c1 (k, VL l) = Ok (dict_set c1 k (VL (lists_of c1 k ++ l))).
Proof.
  intros Hl. rewrite merge_body_cases. unfold lists_of.
  destruct (dict_get c1 k) as [w|e] eqn:E; [destruct (all_lists_get _ _ _ Hl E) as [l0 ->]|]; reflexivity.
Qed.

Theorem merge_flags_concat : forall c2 c1, wf_cfg c1 -> wf_cfg c2 -> all_lists c1 -> all_lists c2 ->
  exists c, merge_flags c1 c2 = Ok c /\ wf_cfg c /\ all_lists c /\
    (forall k, lists_of c k = lists_of c1 k ++ lists_of c2 k) /\
    (forall k, dict_in k c = dict_in k c1 || dict_in k c2).
Proof.
  intros c2 c1 W1 W2 L1 L2. rewrite merge_flags_unfold. unfold dict_items.
  revert c1 W1 L1. induction c2 as [|[k0 v0] c2 IH]; intros c1 W1 L1.
  - exists c1. split; [reflexivity|]. repeat split; auto.
    + intros k. change (lists_of [] k) with (@nil flag). rewrite app_nil_r. auto.
    + intros k. change (dict_in k []) with false. rewrite orb_false_r. auto.
  - inversion L2 as [|? ? Hv0 L2']; subst. cbn in Hv0. destruct v0 as [l0|]; [|discriminate].
    unfold wf_cfg in W2. cbn in W2. inversion W2 as [|? ? Hnin W2']; subst.
    rewrite py_for_cons, (merge_body_lists c1 k0 l0 L1). cbn [bind].
    destruct (IH W2' L2' (dict_set c1 k0 (VL (lists_of c1 k0 ++ l0)))) as [c [E [Wc [Lc [Hc Hin]]]]].
    { apply dict_set_wf; auto. } { apply dict_set_all_lists; auto. }
    exists c. repeat split; auto.
    + (* the key of the first entry of c2 does not occur again in c2 *)
      intros k. rewrite Hc, lists_of_set, lists_of_cons. destruct (str_eqb k k0) eqn:Ek; [|reflexivity].
      apply str_eqb_eq in Ek. subst k0. now rewrite (lists_of_absent c2 k Hnin), app_nil_r.
    + intros k. rewrite Hin, dict_in_set.
      change (dict_in k ((k0, VL l0) :: c2)) with (str_eqb k k0 || dict_in k c2).
      destruct (str_eqb k k0), (dict_in k c1), (dict_in k c2); reflexivity.
Qed.

Lemma merge_body_err c1 k v e : merge_body c1 (k, v) = Err e ->
  e = TypeError /\ dict_in k c1 = true /\
  ((exists w, dict_get c1 k = Ok w /\ is_list w = false) \/ is_list v = false).
Proof.
  rewrite merge_body_cases. destruct (dict_get c1 k) as [w|e0] eqn:E; [|discriminate].
  assert (I : dict_in k c1 = true) by (apply dict_in_get; eauto).
  destruct w as [l1|t], v; intros [= <-]; (split; [reflexivity | split; [exact I|]]);
    [right; reflexivity | left; exists (VX t); split; reflexivity ..].
Qed.

Theorem merge_flags_error : forall c2 c1 e, merge_flags c1 c2 = Err e -> e = TypeError.
Proof.
  intros c2 c1 e. rewrite merge_flags_unfold. unfold dict_items.
  revert c1. induction c2 as [|[k0 v0] c2 IH]; intros c1; [discriminate|].
  rewrite py_for_cons. destruct (merge_body c1 (k0, v0)) as [c|e0] eqn:E; cbn [bind].
  - apply IH.
  - cbn. intros H. inversion H; subst. apply merge_body_err in E. tauto.
Qed.

Theorem merge_flags_rejects_nonlist : forall c1 k v w,
  dict_get c1 k = Ok w -> is_list w = false \/ is_list v = false ->
  merge_flags c1 [(k, v)] = Err TypeError.
Proof.
  intros c1 k v w Hg Hn. rewrite merge_flags_unfold. unfold dict_items.
  rewrite py_for_cons, merge_body_cases, Hg. destruct w, v, Hn; reflexivity || discriminate.
Qed.

Lemma startswith2 a b t : py_startswith t [a; b] = true <-> has_prefix a b t.
Proof.
  rewrite py_startswith_spec. unfold has_prefix. split; intros [r H]; exists r; exact H.
Qed.

Lemma startswith2_false a b t : py_startswith t [a; b] = false <-> ~ has_prefix a b t.
Proof.
  rewrite <- startswith2. destruct (py_startswith t [a; b]); split; intros H; try discriminate; auto.
  exfalso. apply H. reflexivity.
Qed.

Lemma macro_spec r : macro_of r (get_macros_macro (45 :: 68 :: r)).
Proof.
  unfold get_macros_macro, py_slice_from. cbn [skipn].
  destruct (py_contains_char 61 r) eqn:E.
  - destruct (py_split1_spec _ _ E) as [a [b [-> [-> Hn]]]]. cbn. apply macro_value. auto.
  - apply macro_plain. now apply py_contains_char_false.
Qed.

Lemma selected_listcomp {A B} (P : A -> Prop) (R : A -> B -> Prop) (e : A -> B) (c : A -> bool) l :
  (forall a, c a = true -> P a /\ R a (e a)) -> (forall a, c a = false -> ~ P a) ->
  selected P R l (py_listcomp e c l).
Proof.
  intros H1 H2. unfold py_listcomp. induction l as [|a l IH]; cbn; [constructor|].
  destruct (c a) eqn:E; cbn.
  - destruct (H1 _ E). apply sel_take; auto.
  - apply sel_skip; auto.
Qed.

Lemma selected_map {A B C} (P : A -> Prop) (R : A -> B -> Prop) (g : B -> C) (R' : A -> C -> Prop) l m :
  (forall a b, R a b -> R' a (g b)) -> selected P R l m -> selected P R' l (map g m).
Proof. intros H. induction 1; cbn; [constructor | apply sel_take; auto | apply sel_skip; auto]. Qed.

Lemma strip_routes (P : str -> Prop) a b l : (forall t, has_prefix a b t <-> P t) ->
  selected P (fun t f => exists x y r, t = x :: y :: r /\ f = FStr r) l
    (map FStr (py_listcomp (py_slice_from 2) (fun x => py_startswith x [a; b]) l)).
Proof.
  intros HP. eapply selected_map with (R := fun t r => exists x y, t = x :: y :: r).
  { intros t r (x & y & ->). eauto. }
  apply selected_listcomp; intros t H.
  - apply startswith2 in H. split; [apply HP, H|]. destruct H as [r ->]. cbn. eauto.
  - apply startswith2_false in H. rewrite <- HP. exact H.
Qed.

Lemma other_routes (P : str -> Prop) a b a' b' l :
  (forall t, ~ has_prefix a b t /\ ~ has_prefix a' b' t <-> P t) ->
  selected P (fun t f => f = FStr t) l
    (map FStr (py_listcomp (fun x => x)
                 (fun x => negb (py_startswith x [a; b]) && negb (py_startswith x [a'; b'])) l)).
Proof.
  intros HP. eapply selected_map with (R := fun t r => r = t).
  { intros t r ->. reflexivity. }
  apply selected_listcomp; intros t H.
  - apply andb_true_iff in H. destruct H as [H1 H2]. apply negb_true_iff, startswith2_false in H1, H2.
    split; [apply HP; split; assumption | reflexivity].
  - intros X. apply HP in X. apply andb_false_iff in H.
    destruct H as [H|H]; apply negb_false_iff, startswith2 in H; tauto.
Qed.

(* the list built for keyword k from the text of k's stream *)
Definition component (k : kw) (text : str) : list flag :=
  match k with
  | IncludeDirs => map FStr (get_include_dirs text)
  | LibraryDirs => map FStr (get_library_dirs text)
  | Libraries => map FStr (get_libraries text)
  | DefineMacros => get_macros text
  | ExtraCompileArgs => map FStr (get_other_cflags text)
  | ExtraLinkArgs => map FStr (get_other_libs text)
  end.

Theorem component_routes : forall k text,
  selected (fun t => token_kw (kw_stream k) t k) (stored k) (py_split text) (component k text).
Proof.
  intros k text. destruct k; cbn [component kw_stream stored].
  1-3: apply strip_routes; intros t; split; [intros H; constructor; exact H | inversion 1; assumption].
  2-3: apply other_routes; intros t; split; [intros [H1 H2]; constructor; assumption | inversion 1; auto].
  apply selected_listcomp; intros t H.
  - apply startswith2 in H. split; [constructor; exact H|].
    destruct H as [r ->]. exists 45, 68, r. split; [reflexivity | apply macro_spec].
  - apply startswith2_false in H. inversion 1; contradiction.
Qed.

(* the keyword of a token, as the tests of the six get_* comprehensions decide it *)
Definition kw_of (s : stream) (t : str) : kw :=
  match s with
  | Cflags => if py_startswith t [45; 73] then IncludeDirs
              else if py_startswith t [45; 68] then DefineMacros else ExtraCompileArgs
  | Libs => if py_startswith t [45; 76] then LibraryDirs
            else if py_startswith t [45; 108] then Libraries else ExtraLinkArgs
  end.

Lemma kw_of_spec s t : token_kw s t (kw_of s t) /\ kw_stream (kw_of s t) = s.
Proof.
  destruct s; cbn [kw_of].
  - destruct (py_startswith t [45; 73]) eqn:E1; [apply startswith2 in E1; split; [constructor|]; auto|].
    destruct (py_startswith t [45; 68]) eqn:E2; [apply startswith2 in E2; split; [constructor|]; auto|].
    apply startswith2_false in E1, E2. split; [constructor|]; auto.
  - destruct (py_startswith t [45; 76]) eqn:E1; [apply startswith2 in E1; split; [constructor|]; auto|].
    destruct (py_startswith t [45; 108]) eqn:E2; [apply startswith2 in E2; split; [constructor|]; auto|].
    apply startswith2_false in E1, E2. split; [constructor|]; auto.
Qed.

Lemma token_kw_is_kw_of s t k : token_kw s t k -> k = kw_of s t.
Proof.
  destruct 1 as [? [r ->]|? [r ->]|? H1 H2|? [r ->]|? [r ->]|? H1 H2]; cbn [kw_of].
  3, 6: apply startswith2_false in H1, H2; rewrite H1, H2; reflexivity.
  all: destruct r; reflexivity.
Qed.

Theorem token_kw_total s t : exists k, token_kw s t k /\ kw_stream k = s.
Proof. exists (kw_of s t). apply kw_of_spec. Qed.

Theorem token_kw_functional s t k1 k2 : token_kw s t k1 -> token_kw s t k2 -> k1 = k2.
Proof. intros H1 H2. rewrite (token_kw_is_kw_of _ _ _ H1), (token_kw_is_kw_of _ _ _ H2). reflexivity. Qed.

Lemma token_kw_stream s t k : token_kw s t k -> kw_stream k = s.
Proof. destruct 1; reflexivity. Qed.

Definition is_kw_name (k : str) : bool := existsb (fun kw => str_eqb k (kw_name kw)) all_kw.
Definition is_nil {A} (l : list A) : bool := match l with [] => true | _ => false end.

Section WithCall.
Variable call : str -> str -> res str.

Definition kwargs_dict (cflags libs : str) : cfg :=
  map (fun k => (kw_name k, VL (component k (match kw_stream k with Cflags => cflags | Libs => libs end)))) all_kw.

(* the six names differ in length or in their first letter *)
Lemma kw_name_inj k1 k2 : kw_name k1 = kw_name k2 -> k1 = k2.
Proof.
  intros H. apply (f_equal (fun s => (length s, hd 0 s))) in H.
  destruct k1, k2; try reflexivity; discriminate H.
Qed.

Lemma kwargs_unfold lib : kwargs call lib =
  bind (call lib (stream_flag Cflags)) (fun cflags =>
  bind (call lib (stream_flag Libs)) (fun libs => Ok (kwargs_dict cflags libs))).
Proof. reflexivity. Qed.

Lemma kwargs_dict_keys cflags libs : map fst (kwargs_dict cflags libs) = map kw_name all_kw.
Proof. reflexivity. Qed.

Lemma kwargs_dict_wf cflags libs : wf_cfg (kwargs_dict cflags libs).
Proof.
  unfold wf_cfg. rewrite kwargs_dict_keys. apply FinFun.Injective_map_NoDup; [exact kw_name_inj|].
  repeat constructor; cbn; intuition discriminate.
Qed.

Lemma kwargs_dict_lists cflags libs : all_lists (kwargs_dict cflags libs).
Proof. repeat constructor. Qed.

Lemma kwargs_dict_get cflags libs k :
  lists_of (kwargs_dict cflags libs) (kw_name k) =
  component k (match kw_stream k with Cflags => cflags | Libs => libs end).
Proof. destruct k; reflexivity. Qed.

Lemma dict_in_kwargs_dict cflags libs k : dict_in k (kwargs_dict cflags libs) = is_kw_name k.
Proof. reflexivity. Qed.

Lemma kwargs_ok lib cflags libs :
  call lib (stream_flag Cflags) = Ok cflags -> call lib (stream_flag Libs) = Ok libs ->
  kwargs call lib = Ok (kwargs_dict cflags libs).
Proof. intros H1 H2. rewrite kwargs_unfold, H1, H2. reflexivity. Qed.

Lemma kwargs_err lib e : kwargs call lib = Err e ->
  call lib (stream_flag Cflags) = Err e \/ call lib (stream_flag Libs) = Err e.
Proof.
  rewrite kwargs_unfold.
  destruct (call lib (stream_flag Cflags)); [destruct (call lib (stream_flag Libs))|]; cbn; intros [= <-]; auto.
Qed.

Lemma kwargs_ok_inv lib c : kwargs call lib = Ok c ->
  exists cflags libs, call lib (stream_flag Cflags) = Ok cflags /\ call lib (stream_flag Libs) = Ok libs /\
                      c = kwargs_dict cflags libs.
Proof.
  rewrite kwargs_unfold. intros H.
  apply bind_ok in H. destruct H as (cflags & H1 & H). apply bind_ok in H. destruct H as (libs & H2 & H).
  apply Ok_inj in H. eauto.
Qed.

Definition loop_body (ret : cfg) (libname : str) : res cfg :=
  bind (kwargs call libname) (fun t => bind (merge_flags ret t) (fun ret => Ok ret)).

Lemma flags_unfold libs :
  flags_from_pkgconfig call libs = bind (py_for loop_body libs []) (fun r => Ok r).
Proof. reflexivity. Qed.

(* both calls succeed for every package of libs *)
Definition calls_ok (libs : list str) : Prop :=
  forall lib, In lib libs -> exists c l, call lib (stream_flag Cflags) = Ok c /\ call lib (stream_flag Libs) = Ok l.

(* output of a package for stream s (only used for packages whose calls succeed) *)
Definition out (lib : str) (s : stream) : str :=
  match call lib (stream_flag s) with Ok t => t | Err _ => [] end.

(* The loop from a well-formed, list-valued accumulator.  It ends without exception exactly when every call
   succeeded; the accumulator then holds, per keyword, its old list followed by the packages' components in call
   order, and its key set has grown by the six keywords if there was a package.  Since merge_flags cannot fail
   on such dictionaries, an exception of the loop is one of kwargs. *)
Lemma loop_run : forall libs acc, wf_cfg acc -> all_lists acc ->
  match py_for loop_body libs acc with
  | Ok r => wf_cfg r /\ all_lists r /\
      calls_ok libs /\
      (forall k, lists_of r (kw_name k) =
         lists_of acc (kw_name k) ++ concat (map (fun lib => component k (out lib (kw_stream k))) libs)) /\
      (forall k, dict_in k r = dict_in k acc || (negb (is_nil libs) && is_kw_name k))
  | Err e => exists lib, In lib libs /\ kwargs call lib = Err e
  end.
Proof.
  induction libs as [|lib libs IH]; intros acc W L.
  - cbn. repeat split; auto.
    + intros lib [].
    + intros k. now rewrite app_nil_r.
    + intros k. now rewrite orb_false_r.
  - rewrite py_for_cons. unfold loop_body at 1.
    destruct (kwargs call lib) as [c|e] eqn:Ek; cbn [bind]; [|exists lib; split; [left|]; auto].
    destruct (kwargs_ok_inv _ _ Ek) as (cf & lf & H1 & H2 & ->). rewrite bind_ok_id.
    destruct (merge_flags_concat _ acc W (kwargs_dict_wf cf lf) L (kwargs_dict_lists cf lf))
      as (m & -> & Wm & Lm & Hm & Hin).
    cbn [bind]. specialize (IH m Wm Lm). destruct (py_for loop_body libs m) as [r|e].
    + destruct IH as (Wr & Lr & Hc & Hl & Hk). repeat split; auto.
      * intros lib0 [<-|I]; eauto.
      * intros k. rewrite Hl, Hm, kwargs_dict_get. cbn [map concat]. rewrite <- app_assoc. do 2 f_equal.
        unfold out. destruct (kw_stream k); [rewrite H1 | rewrite H2]; reflexivity.
      * intros k. rewrite Hk, Hin, dict_in_kwargs_dict. cbn [is_nil negb andb].
        destruct (dict_in k acc), (is_kw_name k), (is_nil libs); reflexivity.
    + destruct IH as (lib0 & I & E). exists lib0. split; [right|]; auto.
Qed.

Lemma loop_from : forall libs acc, wf_cfg acc -> all_lists acc ->
  calls_ok libs ->
  exists r, py_for loop_body libs acc = Ok r /\ wf_cfg r /\ all_lists r /\
    forall k, lists_of r (kw_name k) =
      lists_of acc (kw_name k) ++ concat (map (fun lib => component k (out lib (kw_stream k))) libs).
Proof.
  intros libs acc W L H. pose proof (loop_run libs acc W L) as R.
  destruct (py_for loop_body libs acc) as [r|e].
  - exists r. destruct R as (Wr & Lr & _ & Hr & _). auto.
  - destruct R as (lib & I & E). destruct (H lib I) as (c & l & Hc & Hl).
    rewrite (kwargs_ok lib c l Hc Hl) in E. discriminate.
Qed.

Theorem flags_concat : forall libs,
  calls_ok libs ->
  exists r, flags_from_pkgconfig call libs = Ok r /\
    forall k, lists_of r (kw_name k) = concat (map (fun lib => component k (out lib (kw_stream k))) libs).
Proof.
  intros libs Hc. rewrite flags_unfold, bind_ok_id.
  destruct (loop_from libs [] (NoDup_nil _) (Forall_nil _) Hc) as (r & E & _ & _ & H).
  exists r. split; [exact E | exact H].
Qed.

Lemma selected_app {A B} (P : A -> Prop) (R : A -> B -> Prop) l1 m1 l2 m2 :
  selected P R l1 m1 -> selected P R l2 m2 -> selected P R (l1 ++ l2) (m1 ++ m2).
Proof. induction 1; cbn; intros; [auto | apply sel_take; auto | apply sel_skip; auto]. Qed.

(* the statement of the property for flags_from_pkgconfig: for every keyword, the list returned is
   the order-preserving selection of that keyword's tokens from the concatenation, in call order,
   of the token lists of the packages' streams *)
Theorem flags_routes : forall libs,
  calls_ok libs ->
  exists r, flags_from_pkgconfig call libs = Ok r /\
    forall k, selected (fun t => token_kw (kw_stream k) t k) (stored k)
                (concat (map (fun lib => py_split (out lib (kw_stream k))) libs))
                (lists_of r (kw_name k)).
Proof.
  intros libs Hc. destruct (flags_concat libs Hc) as [r [E H]]. exists r. split; auto.
  intros k. rewrite H. clear. induction libs as [|lib libs IH]; cbn; [constructor|].
  apply selected_app; auto. apply component_routes.
Qed.

Lemma py_for_err_inv : forall libs acc e, py_for loop_body libs acc = Err e ->
  exists lib, In lib libs /\ (kwargs call lib = Err e \/ e = TypeError).
Proof.
  induction libs as [|lib libs IH]; intros acc e; [discriminate|].
  rewrite py_for_cons. unfold loop_body at 1.
  destruct (kwargs call lib) as [c|e1] eqn:Ek; cbn [bind].
  - rewrite bind_ok_id. destruct (merge_flags acc c) as [m|e2] eqn:Em; cbn [bind].
    + intros H. destruct (IH _ _ H) as [l [Hin Hl]]. exists l. split; [right|]; auto.
    + intros H. inversion H; subst. exists lib. split; [left; auto|]. right.
      eapply merge_flags_error; eauto.
  - intros H. inversion H; subst. exists lib. split; [left|]; auto.
Qed.

Theorem flags_failure_propagates : forall libs lib e s,
  In lib libs -> call lib (stream_flag s) = Err e ->
  exists e', flags_from_pkgconfig call libs = Err e'.
Proof.
  intros libs lib e s Hin Hc. rewrite flags_unfold, bind_ok_id.
  pose proof (loop_run libs [] (NoDup_nil _) (Forall_nil _)) as R.
  destruct (py_for loop_body libs []) as [r|e']; [exfalso | eauto].
  destruct R as (_ & _ & Hok & _). destruct (Hok lib Hin) as (c & l & H1 & H2). destruct s; congruence.
Qed.

End WithCall.

(* an exception of flags_from_pkgconfig is one of call()'s; stated for calls that only raise PkgConfigError *)
Theorem flags_error_is_pkgconfig : forall call libs e,
  (forall lib flag e0, call lib flag = Err e0 -> e0 = PkgConfigError) ->
  flags_from_pkgconfig call libs = Err e -> e = PkgConfigError.
Proof.
  intros call libs e Hcall. rewrite flags_unfold, bind_ok_id. intros H.
  pose proof (loop_run call libs [] (NoDup_nil _) (Forall_nil _)) as R. rewrite H in R.
  destruct R as (lib & _ & E). apply kwargs_err in E. destruct E as [E|E]; eapply Hcall; eauto.
Qed.

Theorem call_post_ok_iff : forall decode alt sp s,
  call_post decode alt sp = Ok s <->
  exists b, sp = Some (0%Z, b) /\ decode b = Some s /\ (alt = true \/ py_contains_char 92 s = false).
Proof.
  intros decode alt sp s. unfold call_post. split.
  - destruct sp as [[rc b]|]; [|discriminate].
    destruct (Z.eqb_spec rc 0) as [->|]; [|discriminate]. cbn [negb].
    destruct (decode b) as [s'|] eqn:Ed; [|discriminate].
    destruct alt; cbn [negb andb]; [intros [= <-]; eauto 6|].
    destruct (py_contains_char 92 s') eqn:E; intros [= <-]. eauto 6.
  - intros (b & -> & -> & Hc). cbn. destruct Hc as [->| ->]; [reflexivity | now rewrite andb_false_r].
Qed.

Theorem call_post_error : forall decode alt sp e, call_post decode alt sp = Err e -> e = PkgConfigError.
Proof.
  intros decode alt sp e. unfold call_post. destruct sp as [[rc b]|]; [|intros H; inversion H; auto].
  destruct (negb (Z.eqb rc 0)); [intros H; inversion H; auto|].
  destruct (decode b); [|intros H; inversion H; auto].
  destruct (negb alt && py_contains_char 92 s); intros H; inversion H; auto.
Qed.
