(* C07 — the agreement theorem for base types named through the declaration context (typedef
   names, standard names, struct/union/enum tags), followed by a simple declarator: the instance of
   Agree.agree_base whose base is what Names.parse_complete_named says of such a name. *)
From Coq Require Import List Arith NArith ZArith Lia Bool String.
Import ListNotations.
From Cffi Require Import C25.Model C25.Proofs C07.Model C07.Realize C07.PyModel C07.Lexer C07.Tokens C07.Specs
     C07.Parse C07.Sequel C07.Sequel2 C07.Agree C07.Tables C07.Names C07.NoFault2 C07.NoFault3.

Local Open Scope nat_scope.

Definition qual_toks (q1 : list qual) : kinds_texts := map (fun q => (qkind q, sp_qual q)) q1.

Definition named_te (q1 : list qual) (b : nbase) (d : decl) : tyexpr :=
  TE (map SQ q1 ++ nbase_stoks b) d.

Lemma tag_lexeme k : lexeme (sp_tag k) (KKw (kw_of_tag k)).
Proof. destruct k; apply ident_lexeme'; reflexivity. Qed.

Lemma named_tokens q1 b :
  List.concat (map stok_tokens (map SQ q1 ++ nbase_stoks b)) = map snd (qual_toks q1 ++ nbase_toks b).
Proof.
  unfold qual_toks. rewrite map_app, concat_app, map_app. f_equal.
  - induction q1; cbn; congruence.
  - destruct b; reflexivity.
Qed.

Lemma filter_named q1 b :
  filter (fun s => negb (is_qual s)) (map SQ q1 ++ nbase_stoks b) = nbase_stoks b.
Proof.
  rewrite filter_app, filter_quals.
  destruct b; reflexivity.
Qed.

Lemma base_decodes g b r : base_ok g b r -> forall out,
  match r with Some (op, m) => nth_error out 0 = Some op -> decodes g 1 out 0%Z m | None => True end.
Proof.
  intros H out. change 0%Z with (Z.of_nat 0).
  destruct H as [n i m Hn | n p Hni Hp | k n i u m Hk Hn | n i m Hn | n Hni];
    [| | destruct (Bool.eqb _ _); [|exact I] | | exact I]; intros Ho.
  2:{ pose proof (std_nonzero _ _ Hp).
      replace (MPrim p) with (prim_mty p) by (unfold prim_mty, PRIM_VOID; destruct (Z.eqb_spec p 0); [lia | reflexivity]).
      apply dec_prim. exact Ho. }
  (* a typedef name, a struct or union tag, an enum tag: one look-up in the context's table *)
  all: intros [|f] Hf; [lia|]; cbn [decode]; rewrite nthZ_nat, Ho.
  all: rewrite GETOP_OP, GETARG_OP by (cbv; split; [discriminate | reflexivity]); cbn.
  2: unfold IO_FILE_STRUCT; replace (Z.of_nat i =? -1)%Z with false by (symmetry; apply Z.eqb_neq; lia).
  all: rewrite nthZ_nat, Hn; reflexivity.
Qed.

Theorem agree_names_partial : forall (g : genv) (osz : nat) q1 b r d wtoks trailing,
  wf_genv g -> ident_ok (nbase_name b) -> base_ok g b r -> sdecl (g_globals g) d ->
  map snd wtoks = te_tokens (named_te q1 b d) ->
  sep_ok [] wtoks = true -> is_ws trailing = true ->
  S (nops d) <= osz -> cost d < 999 ->
  c_typeof osz g (spell wtoks trailing) = denote g (named_te q1 b d) /\
  denote_mty g (named_te q1 b d) = option_map (fun om => apply_decl (g_globals g) d (snd om)) r.
Proof.
  intros g osz q1 b r d wtoks trailing Wg Hid Hok Hd Htok Hsep Htr Hroom Hdepth.
  set (pre := qual_toks q1 ++ nbase_toks b).
  apply (agree_base g osz _ pre r d wtoks trailing); try assumption; [| apply named_tokens | | | | apply Wg].
  - apply Forall_app; split; [apply Forall_map, Forall_forall; intros q _; apply qual_lexeme|].
    destruct b; cbn [nbase_toks nbase_name] in *; repeat constructor; unfold is_lex; cbn [fst snd];
      try apply tag_lexeme; apply ident_ok_lexeme; exact Hid.
  - rewrite filter_named. exact (denote_base_named g b r Wg Hok).
  - intros op m ->. exact (base_decodes g b _ Hok).
  - intros input f L Hf.
    assert (Hnp : List.length pre = List.length q1 + List.length (nbase_toks b))
      by (unfold pre, qual_toks; rewrite app_length, map_length; reflexivity).
    assert (Hatp : At (pre ++ sdecl_toks d) 0 pre) by (intros j Hj; apply nth_error_app1; exact Hj).
    apply At_app in Hatp as [Hatq Hatb]. unfold qual_toks in Hatb. rewrite map_length in Hatb.
    apply At_kinds in Hatq. unfold qual_toks in Hatq. rewrite map_map in Hatq.
    pose proof (declarator_follower g input pre d L Hd) as Hfol. rewrite Hnp in Hfol.
    pose proof (parse_complete_named osz g input _ L Wg q1 b r f 0 [] Hatq Hatb Hfol Hid Hok ltac:(lia)) as Hspec.
    destruct r as [[op m]|]; [rewrite Hnp; exact Hspec|].
    rewrite parse_from_S', start_tok_T. apply is_err_Err, is_err_bind, Hspec.
Qed.
