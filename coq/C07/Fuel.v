(* C07 — the fuel of the model is never exhausted (termination of the recursive-descent parser).

   Model.v gives every loop / recursive call a fuel argument and returns `Err E_out_of_fuel` at nine
   places.  Here: for every function of the parser, a fuel-versus-remaining-input measure under which
   that outcome is impossible, and the fuel `fuel_for input = 6*|input|+24` given by parse_c_type
   satisfies it.  Measure: m t = number of characters from tok->p on (the current token included).
   Every next_token() on a token that is neither TOK_END nor TOK_START consumes >= 1 character
   (lex_from_pos), the four token loops (header / qualifiers / modifiers / brackets) need m+1, and
   the mutually recursive functions need 4*m + b with b = 1 (parens) < 2 (parse_sequel)
   < 3 (parse_complete) < 4 (args_loop, parse_c_type_from): one '(' pays for the four nested calls
   parens -> args_loop -> parse_complete -> parse_sequel -> parens.

   What this does NOT cover: Model.base_plain maps every error of the nested parse_c_type_from on a
   commontypes.c replacement text ("struct _IO_FILE", "_Bool") to E_internal, exactly like
   parse_common_type_replacement() (parse_c_type.c:852), so an exhausted fuel INSIDE that nested
   parse would surface as E_internal, not as E_out_of_fuel.  C07_nested_fuel_suffices (Props.v) is the nested
   parse taken on its own (fuel >= 64 = 4*15+4 under this coarse measure).  NOT mechanised: that the
   call site always has that much (parse_complete called with S f passes f to the nested parse; for
   short inputs such as "FILE", f = 6*4+24-2 = 46 < 64, although the real need is < 10: the finer
   measure 4 * #'(' + m would give 19 <= 22).  That case is covered by the correspondence only: the
   harness compares the model with parse_c_type.c on "FILE"/"bool" strings, where a starved nested
   parse would show as E_internal against a successful C parse. *)
From Coq Require Import List Arith NArith ZArith Lia Bool String.
Import ListNotations.
From Cffi Require Import C25.Model C07.Model C07.Lexer C07.NoFault C07.NoFault2 C07.NoFault3.

Local Open Scope nat_scope.

(* r is not the out-of-fuel error, and if it is a result the result satisfies P: the shape of every fuel statement *)
Definition nof {A} (P : A -> Prop) (r : res A) : Prop :=
  match r with Ok a => P a | Err e _ => e <> E_out_of_fuel | Fault => True end.

Lemma nof_bind {A B} (P : A -> Prop) (Q : B -> Prop) (r : res A) (f : A -> res B) :
  nof P r -> (forall a, P a -> nof Q (f a)) -> nof Q (bind r f).
Proof. destruct r; cbn; auto. Qed.

Lemma nof_impl {A} (P Q : A -> Prop) (r : res A) : nof P r -> (forall a, P a -> Q a) -> nof Q r.
Proof. destruct r; cbn; auto. Qed.

Lemma outcome_nof {A} F (P : A -> Prop) (r : res A) : outcome F P r -> nof P r.
Proof. destruct r; cbn; auto. Qed.

Definition m (t : tok) : nat := List.length (t_rest t).
(* the part of the token window the measure needs: the size fits and a real token is not empty.  NoFault.wf
   says what the characters of the window are; neither implies the other, and the fuel theorems assume this one only *)
Definition good (t : tok) : Prop :=
  t_size t <= m t /\ (t_kind t <> KEnd -> t_kind t <> KStart -> 1 <= t_size t).
(* t' has a good window and no more text left than t: how the result of a parser function stands to its argument *)
Definition le_tok (t t' : tok) : Prop := good t' /\ m t' <= m t.
Arguments le_tok : simpl never.

Lemma lex_from_pos : forall s k n kd, lex_from s = (k, n, kd) -> kd <> KEnd -> 1 <= n.
Proof. intros s k n kd H. apply (lex_from_props _ _ _ _ H). Qed.

Lemma good_next t : good (next_token t).
Proof.
  unfold next_token, good, m.
  destruct (lex_from (skipn (t_size t) (t_rest t))) as [[k n] kd] eqn:E. cbn [t_size t_rest t_kind].
  pose proof (lex_window _ _ _ _ E) as Hw. split.
  - rewrite skipn_length. lia.
  - intros H1 _. eapply lex_from_pos; eauto.
Qed.

Lemma m_next_le t : m (next_token t) <= m t - t_size t.
Proof.
  unfold next_token, m.
  destruct (lex_from (skipn (t_size t) (t_rest t))) as [[k n] kd]. cbn [t_rest].
  rewrite !skipn_length. lia.
Qed.

Lemma m_next_lt t : good t -> t_kind t <> KEnd -> t_kind t <> KStart -> m (next_token t) + 1 <= m t.
Proof. intros [G1 G2] H1 H2. specialize (G2 H1 H2). pose proof (m_next_le t). lia. Qed.
Lemma m_next_lt_char t c : good t -> t_kind t = KChar c -> m (next_token t) + 1 <= m t.
Proof. intros G E. apply m_next_lt; [exact G | rewrite E; discriminate | rewrite E; discriminate]. Qed.

Lemma le_tok_refl t : good t -> le_tok t t.
Proof. intros H. split; [exact H | lia]. Qed.
Lemma le_tok_next t : le_tok t (next_token t).
Proof. split; [apply good_next | pose proof (m_next_le t); lia]. Qed.
Lemma le_tok_trans a b c : le_tok a b -> le_tok b c -> le_tok a c.
Proof. intros [_ L1] [G L2]. split; [exact G | lia]. Qed.
Arguments le_tok_trans {a b c}.

Lemma le_adv t0 t t' : le_tok t0 t -> adv t t' -> le_tok t0 t'.
Proof. intros L [->|[_ ->]]; [exact L | exact (le_tok_trans L (le_tok_next t))]. Qed.

(* t' differs from t in the output buffer only *)
Definition same (t t' : tok) : Prop :=
  t_rest t' = t_rest t /\ t_size t' = t_size t /\ t_kind t' = t_kind t.
Lemma same_refl t : same t t.
Proof. repeat split. Qed.
Lemma same_trans a b c : same a b -> same b c -> same a c.
Proof. intros (A1 & A2 & A3) (B1 & B2 & B3). repeat split; congruence. Qed.
Lemma same_with_out t o : same t (with_out t o).
Proof. repeat split. Qed.
Lemma same_m t t' : same t t' -> m t' = m t.
Proof. intros (R & _ & _). unfold m. rewrite R. reflexivity. Qed.
Lemma same_good t t' : same t t' -> good t -> good t'.
Proof. intros (R & S & K) [G1 G2]. unfold good, m in *. rewrite R, S, K. split; assumption. Qed.
Lemma le_same t0 t t' : le_tok t0 t -> same t t' -> le_tok t0 t'.
Proof. intros [G L] S. split; [exact (same_good _ _ S G) | rewrite (same_m _ _ S); exact L]. Qed.
Lemma next_lt_same t t1 : same t t1 -> good t -> t_kind t <> KEnd -> t_kind t <> KStart ->
  m (next_token t1) + 1 <= m t.
Proof.
  intros S G H1 H2. pose proof S as (_ & _ & K). rewrite <- K in H1, H2.
  rewrite <- (same_m _ _ S). exact (m_next_lt t1 (same_good _ _ S G) H1 H2).
Qed.

Lemma loop_next t0 t t1 f : le_tok t0 t -> m t + 1 <= S f -> same t t1 ->
  t_kind t <> KEnd -> t_kind t <> KStart -> le_tok t0 (next_token t1) /\ m (next_token t1) + 1 <= f.
Proof.
  intros [G L] Hf S H1 H2. pose proof (next_lt_same t t1 S G H1 H2).
  split; [split; [apply good_next | lia] | lia].
Qed.

Section FU.
Variable osz : nat.
Variable cx : ctx.

Lemma write_ds_same t ds : nof (fun '(t', _) => same t t') (write_ds osz t ds).
Proof. unfold write_ds. destruct (_ <? _); [apply same_with_out | discriminate]. Qed.

Lemma set_out_same t i v : nof (fun t' => same t t') (set_out t i v).
Proof. unfold set_out. destruct (_ && _)%bool; [apply same_with_out | exact I]. Qed.

Lemma retarget_same t pc r a : nof (fun '(t', _) => same t t') (retarget t pc r a).
Proof.
  unfold retarget, get_cur, set_cur. destruct pc as [|x]; cbn [bind]; [apply same_refl|].
  unfold get_out. destruct (_ && _)%bool; [|exact I]. cbn [bind].
  eapply nof_bind; [apply set_out_same|]. intros t' S. exact S.
Qed.

Lemma reserve_same : forall n t, nof (fun t' => same t t') (reserve osz n t).
Proof.
  induction n as [|n IH]; intros t; cbn [reserve]; [apply same_refl|].
  eapply nof_bind; [apply write_ds_same|]. intros [t1 i1] S1.
  eapply nof_impl; [apply IH|]. intros t' S2. exact (same_trans _ _ _ S1 S2).
Qed.

Lemma array_length_fuel t : nof (fun _ => True) (array_length cx t).
Proof. eapply nof_impl; [apply (outcome_nof False), array_length_kind | auto]. Qed.

Lemma header_fuel : forall f t0 t outer abi, le_tok t0 t -> m t + 1 <= f ->
  nof (fun '(t', _, _) => le_tok t0 t') (header osz f t outer abi).
Proof.
  induction f as [|f IH]; intros t0 t outer abi L Hf; [lia|]. cbn [header].
  pose proof (fun t1 => loop_next t0 t t1 f L Hf) as Hgo.
  destruct (t_kind t) as [| | | | |c|[]]; try exact L;
    try (apply IH; apply (Hgo t (same_refl t)); discriminate).
  destruct (N.eqb c c_star); [|exact L].
  eapply nof_bind; [apply write_ds_same|]. intros [t1 idx] S1.
  apply IH; apply (Hgo t1 S1); discriminate.
Qed.

Lemma qualifiers_fuel : forall f t0 t, le_tok t0 t -> m t + 1 <= f ->
  nof (fun t' => le_tok t0 t') (qualifiers f t).
Proof.
  induction f as [|f IH]; intros t0 t L Hf; [lia|]. cbn [qualifiers].
  pose proof (loop_next t0 t t f L Hf (same_refl t)) as Hgo.
  destruct (t_kind t) as [| | | | |c|[]]; try exact L; (apply IH; apply Hgo; discriminate).
Qed.

Lemma modifiers_fuel : forall f t0 t a b, le_tok t0 t -> m t + 1 <= f ->
  nof (fun '(t', _, _) => le_tok t0 t') (modifiers f t a b).
Proof.
  induction f as [|f IH]; intros t0 t a b L Hf; [lia|]. cbn [modifiers].
  pose proof (loop_next t0 t t f L Hf (same_refl t)) as Hgo.
  destruct (t_kind t) as [| | | | |c|[]]; try exact L.
  - destruct (a <? 0)%Z; [discriminate|]. destruct (a >=? 2)%Z; [discriminate|]. apply IH; apply Hgo; discriminate.
  - destruct (negb (a =? 0)%Z); [discriminate|]. apply IH; apply Hgo; discriminate.
  - destruct (negb (b =? 0)%Z); [discriminate|]. apply IH; apply Hgo; discriminate.
  - destruct (negb (b =? 0)%Z); [discriminate|]. apply IH; apply Hgo; discriminate.
Qed.

Lemma brackets_fuel : forall f t0 t pc result, le_tok t0 t -> m t + 1 <= f ->
  nof (fun '(t', _, _) => le_tok t0 t') (brackets osz cx f t pc result).
Proof.
  induction f as [|f IH]; intros t0 t pc result L Hf; [lia|]. cbn [brackets].
  destruct (is_ch t c_lbr) eqn:Eb; [|exact L].
  apply is_ch_true in Eb. cbv zeta.
  eapply nof_bind; [apply retarget_same|]. intros [t1 r1] S1.
  pose proof (next_lt_same t t1 S1 (proj1 L) ltac:(rewrite Eb; discriminate) ltac:(rewrite Eb; discriminate)) as L2.
  eapply nof_bind with (P := fun t5 => le_tok (next_token t1) t5).
  - destruct (negb (is_ch (next_token t1) c_rbr)).
    + eapply nof_bind; [apply array_length_fuel|]. intros lenv _.
      eapply nof_bind; [apply write_ds_same|]. intros [t4 i4] S4.
      eapply nof_bind; [apply write_ds_same|]. intros [t5 i5] S5.
      exact (le_same _ _ _ (le_same _ _ _ (le_tok_next _) S4) S5).
    + eapply nof_bind; [apply write_ds_same|]. intros [t3 i3] S3.
      exact (le_same _ _ _ (le_tok_refl _ (good_next t1)) S3).
  - intros t5 [G5 L5]. destruct (negb (is_ch t5 c_rbr)); [discriminate|].
    pose proof (m_next_le t5) as L6.
    apply IH; [split; [apply good_next | destruct L; lia] | lia].
Qed.

Lemma base_mod_fuel t a b : good t ->
  nof (fun '(t', _) => le_tok t t') (base_with_modifiers t a b).
Proof.
  intros Hg. eapply nof_impl; [apply (outcome_nof False), base_mod_adv|].
  intros [t' op] A. exact (le_adv _ _ _ (le_tok_refl t Hg) A).
Qed.

(* whatever the nested parser pf returns: its errors become E_internal (parse_c_type.c:852) *)
Lemma base_plain_fuel pf t : good t ->
  nof (fun '(t3, _, _) => le_tok t t3) (base_plain cx pf t).
Proof.
  intros Hg. eapply nof_impl; [eapply outcome_nof, base_plain_adv|].
  intros [[t3 op] cplx] [_ [A3|(repl & out' & n & _ & ->)]].
  - exact (le_adv _ _ _ (le_tok_refl t Hg) A3).
  - exact (le_same _ _ _ (le_tok_refl t Hg) (same_with_out t out')).
Qed.

Definition F_parens (f : nat) : Prop := forall t0 t pc result abi cfg, le_tok t0 t -> 4 * m t + 1 <= f ->
  nof (fun '(t', _, _, _) => le_tok t0 t') (parens osz cx f t pc result abi cfg).
Definition F_sequel (f : nat) : Prop := forall t0 t outer, le_tok t0 t -> 4 * m t + 2 <= f ->
  nof (fun '(t', _) => le_tok t0 t') (parse_sequel osz cx f t outer).
Definition F_complete (f : nat) : Prop := forall t0 t, le_tok t0 t -> 4 * m t + 3 <= f ->
  nof (fun '(t', _) => le_tok t0 t') (parse_complete osz cx f t).
Definition F_args (f : nat) : Prop := forall t0 t an fl, le_tok t0 t -> 4 * m t + 4 <= f ->
  nof (fun '(t', _, _) => le_tok t0 t') (args_loop osz cx f t an fl).
Definition F_from (f : nat) : Prop := forall input out, 4 * List.length input + 4 <= f ->
  nof (fun _ => True) (parse_from osz cx f input out).

Lemma fsequel_step f : F_parens f -> F_sequel (S f).
Proof.
  intros HP t0 t outer L Hf. rewrite parse_sequel_S'.
  eapply nof_bind; [apply header_fuel; [exact (le_tok_refl t (proj1 L)) | lia]|].
  intros [[t1 outer1] abi] L1.
  destruct (ident_skip t1) as (t2 & cfg & -> & A2). apply (le_adv _ _ _ L1) in A2 as L2.
  eapply nof_bind; [apply HP; [exact L2 | destruct L2; lia]|].
  intros [[[t3 pc] result] abi3] L3.
  destruct abi3; [discriminate|].
  eapply nof_bind; [apply brackets_fuel; [exact L3 | destruct L3; lia]|].
  intros [[t4 pc4] r4] L4.
  eapply nof_bind; [apply retarget_same|].
  intros [t5 r5] S5. exact (le_tok_trans L (le_same _ _ _ L4 S5)).
Qed.

Lemma fcomplete_step f : F_sequel f -> F_complete (S f).
Proof.
  intros HS t0 t L Hf. rewrite parse_complete_S.
  eapply nof_bind; [apply qualifiers_fuel; [exact (le_tok_refl t (proj1 L)) | lia]|].
  intros t1 L1.
  eapply nof_bind; [apply modifiers_fuel; [exact L1 | destruct L1; lia]|].
  intros [[t2 mlen] msign] L2.
  eapply nof_bind with (P := fun '(t5, _, _) => le_tok t t5).
  { destruct (negb (mlen =? 0)%Z || negb (msign =? 0)%Z)%bool.
    - eapply nof_bind; [apply base_mod_fuel, L2|].
      intros [t3 op] L3. exact (le_tok_trans L2 L3).
    - eapply nof_bind; [apply base_plain_fuel, L2|].
      intros [[t3 op] cplx] L3. exact (le_tok_trans L2 (le_tok_trans L3 (le_tok_next t3))). }
  intros [[t5 t1op] t1c] L5.
  eapply nof_bind; [apply (outcome_nof False), complex_skip|].
  intros [t6 op6] A6. apply (le_adv _ _ _ L5) in A6 as L6.
  eapply nof_bind; [apply write_ds_same|].
  intros [t7 idx] S7. pose proof (le_same _ _ _ L6 S7) as L7.
  apply HS; [exact (le_tok_trans L L7) | destruct L7; lia].
Qed.

Lemma m_start input out : m (start_tok input out) <= List.length input.
Proof. pose proof (m_next_le (mkTok input 0 0 KStart out)) as H. unfold start_tok, m in *. cbn [t_rest t_size] in H. lia. Qed.

Lemma ffrom_step f : F_complete f -> F_from (S f).
Proof.
  intros HC input out Hf. rewrite parse_from_S'.
  pose proof (m_start input out) as Hm.
  eapply nof_bind; [apply HC; [apply le_tok_refl, good_next | lia]|].
  intros [t1 result] _. destruct (negb (kind_eqb (t_kind t1) KEnd)); [discriminate | exact I].
Qed.

Lemma fargs_step f : F_complete f -> F_args f -> F_args (S f).
Proof.
  intros HC HA t0 t an fl L Hf. rewrite args_loop_S.
  destruct (kind_eqb (t_kind t) KDots); [exact (le_tok_trans L (le_tok_next t))|].
  specialize (HC t t (le_tok_refl t (proj1 L)) ltac:(lia)).
  destruct (parse_complete osz cx f t) as [[t1 arg]| |]; [|exact HC|exact I].
  eapply nof_bind with (P := fun _ => True); [unfold get_out; destruct (_ && _)%bool; exact I|].
  intros o _.
  eapply nof_bind with (P := fun _ => True).
  { cbv zeta. destruct (_ || _)%bool; [exact I|]. destruct (_ =? _)%Z; exact I. }
  intros oarg _.
  eapply nof_bind; [apply set_out_same|]. intros t2 S2.
  pose proof (le_same _ _ _ HC S2) as L2.
  destruct (negb (is_ch t2 c_comma)) eqn:Ec; [exact (le_tok_trans L L2)|].
  apply negb_false_iff, is_ch_true in Ec.
  pose proof (m_next_lt_char t2 _ (proj1 L2) Ec) as L3.
  apply HA; [exact (le_tok_trans L (le_tok_trans L2 (le_tok_next t2))) | destruct L2; lia].
Qed.

Lemma paren_group_fuel f t0 t2 abi2 : F_sequel f -> le_tok t0 t2 -> 4 * m t0 + 2 <= f ->
  nof (fun '(t9, _, _, _) => le_tok t0 t9) (paren_group osz cx f t2 abi2).
Proof.
  intros HS L2 Hf. unfold paren_group. cbv zeta.
  eapply nof_bind; [apply write_ds_same|].
  intros [t3 i3] S3. pose proof (le_same _ _ _ L2 S3) as L3.
  eapply nof_bind; [apply HS; [exact L3 | destruct L3; lia]|].
  intros [t4 x'] L4. exact L4.
Qed.

Lemma paren_func_fuel f t0 t2 pc result abi2 : F_args f -> le_tok t0 t2 -> 4 * m t0 + 4 <= f ->
  nof (fun '(t9, _, _, _) => le_tok t0 t9) (paren_func osz cx f t2 pc result abi2).
Proof.
  intros HA L2 Hf. unfold paren_func. cbv zeta.
  pose proof (le_adv _ _ _ L2 (void_skip t2)) as L3.
  set (t3 := if (is_kw t2 K_void && _)%bool then next_token t2 else t2) in *.
  eapply nof_bind; [apply retarget_same|]. intros [t4 r4] S4.
  eapply nof_bind; [apply write_ds_same|]. intros [t5 base] S5.
  eapply nof_bind; [apply reserve_same|]. intros t6 S6.
  pose proof (le_same _ _ _ (le_same _ _ _ (le_same _ _ _ L3 S4) S5) S6) as L6.
  eapply nof_bind with (P := fun '(t7, _, _) => le_tok t0 t7).
  - destruct (negb (is_ch t6 c_rpar)); [apply HA; [exact L6 | destruct L6; lia] | exact L6].
  - intros [[t7 an] fl7] L7.
    eapply nof_bind; [apply set_out_same|]. intros t8 S8. exact (le_same _ _ _ L7 S8).
Qed.

Lemma fparens_step f : F_sequel f -> F_args f -> F_parens f -> F_parens (S f).
Proof.
  intros HS HA HP t0 t pc result abi cfg L Hf. rewrite parens_S.
  destruct (is_ch t c_lpar) eqn:El; [|exact L].
  apply is_ch_true in El.
  pose proof (m_next_lt_char t _ (proj1 L) El) as L1.
  destruct (abi_skip (next_token t) abi) as (t2 & abi2 & -> & A2).
  apply (le_adv _ _ _ (le_tok_refl _ (good_next t))) in A2 as L2.
  eapply nof_bind with (P := fun '(t9, _, _, _) => le_tok (next_token t) t9).
  - destruct (is_grouping cfg t2); [apply paren_group_fuel | apply paren_func_fuel];
      try assumption; lia.
  - intros [[[t9 pc9] r9] abi9] L9. unfold paren_close.
    destruct (negb (is_ch t9 c_rpar)); [discriminate|].
    pose proof (m_next_le t9) as L10.
    apply HP; [exact (le_tok_trans L (le_tok_trans (le_tok_next t) (le_tok_trans L9 (le_tok_next t9)))) | destruct L9; lia].
Qed.

Theorem all_fuel : forall f, F_sequel f /\ F_parens f /\ F_args f /\ F_complete f /\ F_from f.
Proof.
  induction f as [|f (IS & IP & IA & IC & IF)].
  - repeat split; intro; intros; lia.
  - split; [apply fsequel_step; exact IP|].
    split; [apply fparens_step; assumption|].
    split; [apply fargs_step; assumption|].
    split; [apply fcomplete_step; assumption | apply ffrom_step; exact IC].
Qed.

Theorem parse_from_fuel : forall f input out p, 4 * List.length input + 4 <= f ->
  parse_from osz cx f input out <> Err E_out_of_fuel p.
Proof.
  intros f input out p Hf H. destruct (all_fuel f) as (_ & _ & _ & _ & HF).
  specialize (HF input out Hf). rewrite H in HF. exact (HF eq_refl).
Qed.

End FU.
