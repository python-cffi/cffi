(* C07 — base types named through the declaration context: typedef names, the standard *_t names,
   struct / union / enum tags.  What parse_complete does with them (parse_complete_named) and what
   cparser does with them (denote_base_named); Agree2 puts the two under a simple declarator. *)
From Coq Require Import List Arith NArith ZArith Lia Bool String.
Import ListNotations.
From Cffi Require Import C25.Model C25.Proofs C07.Model C07.Realize C07.PyModel C07.Lexer C07.Tokens C07.Specs
     C07.Tables C07.Parse C07.Sequel C07.NoFault3.

Local Open Scope nat_scope.

Definition wf_genv (g : genv) : Prop :=
  table_ok (map fst (g_typedefs g)) /\
  table_ok (map (fun x => fst (fst x)) (g_structs g)) /\
  table_ok (map fst (g_enums g)) /\
  table_ok (map fst (g_globals g)).


Inductive nbase := NTypedef (n : str) | NStd (n : str) | NTag (k : tagkind) (n : str).

Definition kw_of_tag (k : tagkind) : kw :=
  match k with TKstruct => K_struct | TKunion => K_union | TKenum => K_enum end.

Definition nbase_stoks (b : nbase) : list stok :=
  match b with NTypedef n | NStd n => [SName n] | NTag k n => [STag k n] end.
Definition nbase_name (b : nbase) : str := match b with NTypedef n | NStd n | NTag _ n => n end.
Definition nbase_toks (b : nbase) : kinds_texts :=
  match b with
  | NTypedef n | NStd n => [(KIdent, n)]
  | NTag k n => [(KKw (kw_of_tag k), sp_tag k); (KIdent, n)]
  end.

(* what the base type is in the context g: the opcode the C parser writes and the type it stands
   for; None: rejected *)
Inductive base_ok (g : genv) : nbase -> option (Z * mty) -> Prop :=
| BO_typedef : forall n i m, nth_error (g_typedefs g) i = Some (n, m) ->
    base_ok g (NTypedef n) (Some (OP OP_TYPENAME (Z.of_nat i), m))
| BO_std : forall n p, ~ In n (map fst (g_typedefs g)) -> search_standard_typename n = Some p ->
    base_ok g (NStd n) (Some (OP OP_PRIMITIVE p, MPrim p))
| BO_su : forall k n i u m, k <> TKenum -> nth_error (g_structs g) i = Some (n, u, m) ->
    base_ok g (NTag k n) (if Bool.eqb u (tagkind_eqb k TKunion)
                          then Some (OP OP_STRUCT_UNION (Z.of_nat i), m) else None)
| BO_enum : forall n i m, nth_error (g_enums g) i = Some (n, m) ->
    base_ok g (NTag TKenum n) (Some (OP OP_ENUM (Z.of_nat i), m))
| BO_enum_none : forall n, ~ In n (map fst (g_enums g)) -> base_ok g (NTag TKenum n) None.

Lemma std_nonzero n p : search_standard_typename n = Some p -> (16 <= p <= 51)%Z.
Proof.
  intros H. destruct (assoc_some_nth _ _ _ H) as [i Hi]. apply nth_error_In in Hi.
  assert (Hall : forallb (fun kv => (16 <=? snd kv)%Z && (snd kv <=? 51)%Z) standard_typenames = true)
    by (vm_compute; reflexivity).
  rewrite forallb_forall in Hall. apply Hall, andb_true_iff in Hi as [A B].
  apply Z.leb_le in A, B. exact (conj A B).
Qed.

Lemma denote_base_named g b r : wf_genv g -> base_ok g b r ->
  denote_base g (nbase_stoks b) = option_map snd r.
Proof.
  intros (Wt & Ws & We & Wgl) H. destruct H as [n i m Hn | n p Hni Hp | k n i u m Hk Hn | n i m Hn | n Hni];
    cbn [nbase_stoks denote_base option_map snd].
  - rewrite (assoc_nth _ i n m (proj2 Wt) Hn). reflexivity.
  - rewrite (assoc_none _ n Hni), Hp. reflexivity.
  - unfold lookup_tag.
    assert (Ha : assoc_str (map (fun x => (fst (fst x), (snd (fst x), snd x))) (g_structs g)) n = Some (u, m)).
    { apply (assoc_nth _ i).
      - rewrite map_map. cbn [fst]. exact (proj2 Ws).
      - rewrite nth_error_map, Hn. reflexivity. }
    destruct k; try congruence; rewrite Ha; destruct (Bool.eqb u _); reflexivity.
  - unfold lookup_tag. rewrite (assoc_nth _ i n m (proj2 We) Hn). reflexivity.
  - unfold lookup_tag. rewrite (assoc_none _ n Hni). reflexivity.
Qed.

(* what base_plain does on a name and on a tag. Stated for an arbitrary token state t: once its kind is a
   constructor both sides compute, so each is proved by destructing the token *)
Section BasePlain.
Variable cx : ctx.
Variable pf : str -> list Z -> res (list Z * Z).

Lemma base_plain_typedef t i : t_kind t = KIdent -> search_sorted (c_typenames cx) (tok_text t) = Some i ->
  base_plain cx pf t = Ok (t, OP OP_TYPENAME (Z.of_nat i), 0%Z).
Proof. destruct t as [r p s k o]. cbn [t_kind]. intros -> H. cbn [base_plain t_kind]. rewrite H. reflexivity. Qed.

Lemma base_plain_std t n : t_kind t = KIdent -> search_sorted (c_typenames cx) (tok_text t) = None ->
  search_standard_typename (tok_text t) = Some n -> base_plain cx pf t = Ok (t, OP OP_PRIMITIVE n, 0%Z).
Proof. destruct t as [r p s k o]. cbn [t_kind]. intros -> H1 H2. cbn [base_plain t_kind]. rewrite H1, H2. reflexivity. Qed.

Lemma base_plain_su t k n : t_kind t = KKw (kw_of_tag k) -> k <> TKenum -> t_kind (next_token t) = KIdent ->
  search_sorted (map fst (c_structs cx)) (tok_text (next_token t)) = Some n ->
  base_plain cx pf t =
  if xorb (snd (nth n (c_structs cx) ([], false))) (tagkind_eqb k TKunion)
  then parse_error (next_token t) E_wrong_kind
  else Ok (next_token t, OP OP_STRUCT_UNION (Z.of_nat n), 0%Z).
Proof.
  destruct t as [r p s k0 o]. destruct k; cbn [t_kind kw_of_tag]; intros -> Hk H Hs; [| |congruence];
    cbn [base_plain t_kind]; cbv zeta; rewrite H, Hs; reflexivity.
Qed.

Lemma base_plain_enum t : t_kind t = KKw K_enum -> t_kind (next_token t) = KIdent ->
  base_plain cx pf t =
  match search_sorted (c_enums cx) (tok_text (next_token t)) with
  | None => parse_error (next_token t) E_undefined_enum
  | Some n => Ok (next_token t, OP OP_ENUM (Z.of_nat n), 0%Z)
  end.
Proof. destruct t as [r p s k o]. cbn [t_kind]. intros -> H. cbn [base_plain t_kind]. cbv zeta. rewrite H. reflexivity. Qed.

End BasePlain.

Section CSide.
Variable osz : nat.
Variable g : genv.
Variable input : str.
Variable toks : kinds_texts.
Hypothesis L : lexed input toks.
Hypothesis Wg : wf_genv g.

Notation T := (T input).
Notation K := (K toks).
Notation At := (At toks).
Notation cx := (ctx_of g).

Lemma At_Kat i l : At i l -> Kat toks i (map fst l).
Proof. apply At_kinds. Qed.

Lemma base_named b r j o pf : At j (nbase_toks b) -> ident_ok (nbase_name b) -> base_ok g b r ->
  let res := bind (base_plain cx pf (T j o)) (fun '(t3, op, cplx) => Ok (next_token t3, op, cplx)) in
  match r with
  | Some (op, _) => res = Ok (T (j + List.length (nbase_toks b)) o, op, 0%Z)
  | None => is_err res
  end.
Proof.
  intros Hb Hid Hok. destruct Wg as (Wt & Ws & We & Wgl).
  pose proof (ident_ok_nulfree _ Hid) as Hnul. cbv zeta.
  destruct Hok as [n i0 m Hn | n pp Hni Hp | k n i0 u m Hk Hn | n i0 m Hn | n Hni];
    cbn [nbase_toks nbase_name List.length] in *;
    apply (At_cons toks) in Hb as [H0 Hb]; destruct (T_at input toks L _ _ o H0) as [Hk0 Htx0];
    cbn [fst snd] in *.
  3-5: apply (At_cons toks) in Hb as [H1 _]; destruct (T_at input toks L _ _ o H1) as [Hk1 Htx];
       cbn [fst snd] in *; rewrite <- T_next in Hk1, Htx.
  - rewrite (base_plain_typedef cx pf _ i0 Hk0)
      by (rewrite Htx0; apply (search_member _ i0 n Wt); rewrite nth_error_map, Hn; reflexivity).
    cbn [bind]. rewrite T_next, Nat.add_1_r. reflexivity.
  - rewrite (base_plain_std cx pf _ pp Hk0) by (rewrite Htx0; first [exact (search_absent _ n Wt Hnul Hni) | exact Hp]).
    cbn [bind]. rewrite T_next, Nat.add_1_r. reflexivity.
  - assert (Hsu : search_sorted (map fst (c_structs cx)) n = Some i0).
    { cbn [ctx_of c_structs]. rewrite map_map. cbn [fst].
      apply (search_member _ i0 n Ws). rewrite nth_error_map, Hn. reflexivity. }
    assert (Hflag : snd (nth i0 (c_structs cx) ([], false)) = u).
    { cbn [ctx_of c_structs].
      erewrite nth_error_nth by (rewrite nth_error_map, Hn; reflexivity). reflexivity. }
    rewrite (base_plain_su cx pf _ k i0 Hk0 Hk Hk1) by (rewrite Htx; exact Hsu).
    rewrite Hflag, !T_next.
    destruct (tagkind_eqb k TKunion), u; cbn [xorb Bool.eqb bind]; rewrite ?T_next, ?Nat.add_succ_r, ?Nat.add_0_r;
      first [reflexivity | exact I].
  - rewrite (base_plain_enum cx pf _ Hk0 Hk1), Htx. cbn [ctx_of c_enums].
    rewrite (search_member _ i0 n We) by (rewrite nth_error_map, Hn; reflexivity).
    cbn [bind]. rewrite !T_next, !Nat.add_succ_r, Nat.add_0_r. reflexivity.
  - rewrite (base_plain_enum cx pf _ Hk0 Hk1), Htx. cbn [ctx_of c_enums].
    rewrite (search_absent _ n We Hnul Hni). exact I.
Qed.

Lemma parse_complete_named : forall (q1 : list qual) b r f i o,
  Kat toks i (map qkind q1) -> At (i + List.length q1) (nbase_toks b) ->
  follower (K (i + List.length q1 + List.length (nbase_toks b))) ->
  ident_ok (nbase_name b) -> base_ok g b r -> List.length q1 + 4 < f ->
  match r with
  | Some (op, _) =>
    parse_complete osz cx (S f) (T i o) =
    bind (write_ds osz (T (i + List.length q1 + List.length (nbase_toks b)) o) op)
         (fun '(t7, idx) => parse_sequel osz cx f t7 idx)
  | None => is_err (parse_complete osz cx (S f) (T i o))
  end.
Proof.
  intros q1 b r f i o Hq Hb Hfol Hid Hok Hf.
  set (p := i + List.length q1) in *.
  (* the first token of the base is neither a qualifier nor a modifier *)
  assert (Hk0 : K p = KIdent \/ exists k, K p = KKw (kw_of_tag k)).
  { destruct b; cbn [nbase_toks] in Hb; apply (At_cons toks) in Hb as [H0 _];
      rewrite (At_K toks _ _ H0); cbn; eauto. }
  assert (Hq1 : qualifiers f (T i o) = Ok (T p o)).
  { apply (qualifiers_run input toks L); auto; try lia; fold p;
      destruct Hk0 as [-> | [k ->]]; try discriminate; destruct k; discriminate. }
  assert (Hm : modifiers f (T p o) 0%Z 0%Z = Ok (T p o, 0%Z, 0%Z)).
  { destruct f as [|f']; [lia|]. cbn [modifiers]. rewrite (kind_T input toks L).
    destruct Hk0 as [-> | [k ->]]; [reflexivity | destruct k; reflexivity]. }
  rewrite parse_complete_S, Hq1. cbn [bind]. rewrite Hm. cbn [bind Z.eqb negb orb].
  pose proof (base_named b r p o (parse_from osz cx f) Hb Hid Hok) as Hbase. cbv zeta in Hbase.
  destruct r as [[op m]|]; [|apply is_err_bind; exact Hbase].
  rewrite Hbase. cbn [bind].
  rewrite (complex_run input toks L [] _ o op 0%Z Hfol). reflexivity.
Qed.

End CSide.
