(* C07 — Python and C type-string parsers denote the same type.  The statements of the
   property, each with a short derivation or the lemma of the other files that proves it.

   Models:  Model.v   parse_c_type.c at character/token level (next_token, parse_complete,
                      parse_sequel, write_ds, the opcode buffer);
            Realize.v realize_c_type_or_func_now as `decode` + the backend's type constructors as `build`;
            PyModel.v the grammar's syntax trees, their spellings (`render`/`spell`), and
                      cparser._get_type_and_quals on pycparser's declarator tree (`denote`).

   FULL STATEMENT (not proved; false as it stands, see the _refuted theorems):
     for every declaration context, every syntax tree t of the common declarator grammar and
     every white space choice,   c_typeof FFI_COMPLEXITY_OUTPUT g_c (render t gaps) = py_typeof g_py t gaps.

   PROVED (C07_agree_partial): the sub-grammar
       qualifiers* specifier-keywords+  declarator
     where the specifier keywords are ANY list over signed/unsigned/short/long/int/char/void/
     _Bool/float/double/_Complex (valid or not; `signed` not combined with what makes cparser drop
     it), and the declarator is built from '*', const/volatile, arbitrarily nested grouping
     parentheses around declarators that start with '*', and array suffixes [ ], [decimal],
     [octal], [hexadecimal] (value <= SSIZE_MAX), [NAME] where NAME is an integer constant of the
     declaration context (macro or enumerator, 0 <= value <= SSIZE_MAX); any white space that
     separates the tokens; any declaration context whose table of globals is sorted; any output
     buffer that is large enough;  and, after a grouping parenthesis, a parameter list "()" or
     "(void)" (pointers to functions without parameters, at any depth: pointer to function
     returning pointer to function ..., arrays of such pointers), with __cdecl or __stdcall
     allowed as the first token inside that grouping parenthesis.
   SIDE THEOREMS (all strings): C07_no_fault, C07_result_index_in_range,
     C07_next_token_stops_at_terminator, C07_lookahead_stops_at_terminator,
     C07_fuel_suffices (the model's E_out_of_fuel outcome never happens: termination),
     C07_token_nonempty, C07_parse_from_fuel / C07_parse_complete_fuel / C07_parse_sequel_fuel.
   REGENERATED TABLES (C07/Gen.v, from the sources on every run): C07_tables_are_the_sources,
     C07_keyword_lookup_is_source, C07_opcode_numbers_are_source.
   PROVED (C07_agree_names_partial): the same declarators over a base type named through the
     declaration context: declared typedef names, standard *_t names, struct/union tags (declared,
     right or wrong kind), enum tags (declared or not), in any well-formed context.
   MISSING from the full statement: parameter lists with parameters or "..." (argument decay),
     function types that are not behind a pointer, __cdecl/__stdcall anywhere else (both parsers
     accept it in a declarator header; without a function the C parser rejects it),
     the common types bool/FILE, undeclared struct/union tags, array lengths named by negative or
     undeclared constants (both reject), declarator names, arrays longer than SSIZE_MAX (both
     reject), nesting deeper than 999; qualifiers after the specifiers and before the first '*' are
     covered only as part of the declarator header.
     These are covered by the correspondence runs only. *)
From Coq Require Import List Arith NArith ZArith Lia Bool String.
Import ListNotations.
From Cffi Require Import C25.Model C25.Proofs C07.Model C07.Realize C07.PyModel C07.Lexer C07.Tokens C07.Specs
     C07.SpecsAgree C07.Parse C07.Sequel C07.Sequel2 C07.Agree C07.Tables C07.Names C07.Agree2 C07.NoFault C07.NoFault2 C07.NoFault3 C07.Fuel C07.Gen C07.GenFacts.

(* "any ordering of primitive specifiers": on every list of specifier keywords the C parser
   (c_spec_abs: modifiers loop, base-type switch, _Complex, nothing left over) and the Python
   parser (normalise + ALL_PRIMITIVE_TYPES lookup) accept the same lists with the same primitive
   type and reject the same lists *)
Theorem C07_specifier_orderings : forall ws : list word, ws <> [] -> sign_ok ws = true ->
  c_spec_abs ws = option_map (OP OP_PRIMITIVE) (py_spec_abs ws).
Proof. exact spec_agree. Qed.
Print Assumptions C07_specifier_orderings.

(* a spelled token list is read back by next_token token by token, then TOK_END for ever *)
Theorem C07_lexer : forall wtoks trailing kinds,
  seps [] wtoks -> is_ws trailing = true ->
  Forall2 (fun wt k => lexeme (snd wt) k) wtoks kinds ->
  lexed (spell wtoks trailing) (combine kinds (map snd wtoks)).
Proof. exact spell_lexed. Qed.
Print Assumptions C07_lexer.

(* the C parser's strtoull and cparser's _parse_constant read the same literals to the same value *)
Theorem C07_integer_literals : forall text n, py_int text = Some n ->
  lexeme text KInteger /\ strtoull0 text = (n, List.length text).
Proof. intros text n H. split; [eapply py_int_lexeme | apply py_int_strtoull]; exact H. Qed.
Print Assumptions C07_integer_literals.

(* what parse_sequel writes for a declarator decodes to the declarator applied to the base type *)
Theorem C07_declarator_opcodes : forall osz cx g input toks, lexed input toks ->
  table_ok (map fst (c_globals cx)) ->
  forall d, sdecl (c_globals cx) d -> forall f i o outer,
  At toks i (sdecl_toks d) -> final_stop (K toks (i + ntoks d)) ->
  (List.length o + nops d <= osz)%nat -> (ntoks d + 1 < f)%nat ->
  exists o' idx,
    parse_sequel osz cx f (T input i o) outer = Ok (T input (i + ntoks d) o', idx) /\
    List.length o' = (List.length o + nops d)%nat /\
    (forall j, (j < List.length o)%nat -> nth_error o' j = nth_error o j) /\
    (forall out'', agree out'' o' (List.length o) (List.length o') ->
       forall m n, decodes g n out'' outer m -> decodes g (n + cost d) out'' idx (apply_decl (c_globals cx) d m)).
Proof. exact sequel_run. Qed.
Print Assumptions C07_declarator_opcodes.

(* the agreement theorem for the sub-grammar described above *)
Theorem C07_agree_partial : forall (g : genv) (osz : nat) q1 ws d wtoks trailing,
  ws <> [] -> sign_ok ws = true -> table_ok (map fst (g_globals g)) -> sdecl (g_globals g) d ->
  map snd wtoks = te_tokens (simple_te q1 ws d) ->
  sep_ok [] wtoks = true -> is_ws trailing = true ->
  (S (nops d) <= osz)%nat -> (cost d < 999)%nat ->
  c_typeof osz g (spell wtoks trailing) = denote g (simple_te q1 ws d).
Proof. exact agree_partial. Qed.
Print Assumptions C07_agree_partial.

(* the same with a base type named through the declaration context g:
     NTypedef n  a declared typedef name (its meaning is looked up by both parsers),
     NStd n      a standard name (wchar_t, intN_t, size_t, ...) that is not a declared typedef,
     NTag k n    struct / union n declared (with the right or the wrong kind: both reject the
                 wrong kind), enum n declared or not (both reject an undeclared enum),
   over any well-formed context (the four name tables sorted without NULs, as the code generator
   emits them).  `r` says what the base is: Some (opcode, type) or None (rejected). *)
Theorem C07_agree_names_partial : forall (g : genv) (osz : nat) q1 b r d wtoks trailing,
  wf_genv g -> ident_ok (nbase_name b) -> base_ok g b r -> sdecl (g_globals g) d ->
  map snd wtoks = te_tokens (named_te q1 b d) ->
  sep_ok [] wtoks = true -> is_ws trailing = true ->
  (S (nops d) <= osz)%nat -> (cost d < 999)%nat ->
  c_typeof osz g (spell wtoks trailing) = denote g (named_te q1 b d) /\
  denote_mty g (named_te q1 b d) = option_map (fun om => apply_decl (g_globals g) d (snd om)) r.
Proof. exact agree_names_partial. Qed.
Print Assumptions C07_agree_names_partial.

(* Every load tok->output[i] and every store tok->output[i] = .. / *p_current = .. of the model goes
   through get_out / set_out, which return Fault unless 0 <= i < output_index; write_ds is the only
   operation that appends and it refuses (error "internal type complexity limit reached") unless
   output_index < output_size.  For EVERY input string, type context and buffer size the parser
   never faults: all indices used are inside the part of the buffer already written.
   (The heart of the proof is the bound  arg_next + commas-still-ahead + 1 < output_index  that
   justifies the number_of_commas()+2 slots reserved for the arguments of a function type.
   A read of tok->output[arg] with arg == -1 after a failed argument is a Fault in this model; the
   C code returns before it.) *)
Theorem C07_no_fault : forall (output_size : nat) (cx : ctx) (input : str),
  parse_c_type output_size cx input <> Fault.
Proof. exact parse_no_fault. Qed.
Print Assumptions C07_no_fault.

(* ... and a successful parse returns an index inside the written part of the buffer *)
Theorem C07_result_index_in_range : forall (output_size : nat) (cx : ctx) (input : str) out r,
  parse_c_type output_size cx input = Ok (out, r) -> (0 <= r < Z.of_nat (List.length out))%Z.
Proof. exact result_index_in_range. Qed.
Print Assumptions C07_result_index_in_range.

(* next_token / get_following_char / number_of_commas never depend on what is stored after the
   terminating NUL, and the token they deliver lies before it: for a NUL-free text s,
   scanning  s NUL junk  is scanning  s *)
Theorem C07_next_token_stops_at_terminator : forall s junk, nulfree s = true ->
  lex_from (s ++ 0%N :: junk) = lex_from s /\
  (forall k n kd, lex_from s = (k, n, kd) -> (k + n <= List.length s)%nat).
Proof. exact next_token_stops_at_terminator. Qed.
Print Assumptions C07_next_token_stops_at_terminator.

Theorem C07_lookahead_stops_at_terminator : forall s junk,
  first_nonspace (s ++ 0%N :: junk) = first_nonspace s /\
  (forall d acc, ncommas (s ++ 0%N :: junk) d acc = ncommas s d acc).
Proof. exact lookahead_stops_at_terminator. Qed.
Print Assumptions C07_lookahead_stops_at_terminator.

(* Model.v threads a fuel argument through every loop and recursive call and returns
   Err E_out_of_fuel at nine places; that outcome does not exist in the C code.  For EVERY input,
   context and buffer size it never happens with the fuel parse_c_type gives (6*|input|+24): an `Err`
   of the model is always one of the 24 parse_error() messages of parse_c_type.c.  (So C07_no_fault
   and C30_type_parser_outcome do not hide a model that "gave up".)
   NOT covered: base_plain maps every error of the nested parse of a commontypes.c replacement text to
   E_internal, as parse_common_type_replacement() does; an exhausted fuel inside that nested parse would
   be an E_internal, see C07_nested_fuel_suffices and the header of Fuel.v. *)
Theorem C07_fuel_suffices : forall (osz : nat) (cx : ctx) (s : str) (p : nat),
  parse_c_type osz cx s <> Err E_out_of_fuel p.
Proof. intros osz cx s p. unfold parse_c_type. apply parse_from_fuel. unfold fuel_for. lia. Qed.
Print Assumptions C07_fuel_suffices.

(* the tokenizer: every token other than TOK_END consumes at least one character *)
Theorem C07_token_nonempty : forall s k n kd, lex_from s = (k, n, kd) -> kd <> KEnd -> (1 <= n)%nat.
Proof. exact lex_from_pos. Qed.
Print Assumptions C07_token_nonempty.

(* each recursive function separately, under an explicit fuel-versus-remaining-input bound
   (m t = characters from tok->p on; good t = the token's size fits in them, and a token other than
   TOK_END and the start token is not empty: what next_token guarantees of the size, not of the text) *)
Theorem C07_parse_from_fuel : forall osz cx f input out p, (4 * List.length input + 4 <= f)%nat ->
  parse_from osz cx f input out <> Err E_out_of_fuel p.
Proof. exact parse_from_fuel. Qed.
Print Assumptions C07_parse_from_fuel.

Theorem C07_parse_complete_fuel : forall osz cx f t p, good t -> (4 * m t + 3 <= f)%nat ->
  parse_complete osz cx f t <> Err E_out_of_fuel p.
Proof.
  intros osz cx f t p Hg Hf H. destruct (all_fuel osz cx f) as (_ & _ & _ & HC & _).
  specialize (HC t t (le_tok_refl t Hg) Hf). rewrite H in HC. exact (HC eq_refl).
Qed.
Print Assumptions C07_parse_complete_fuel.

Theorem C07_parse_sequel_fuel : forall osz cx f t outer p, good t -> (4 * m t + 2 <= f)%nat ->
  parse_sequel osz cx f t outer <> Err E_out_of_fuel p.
Proof.
  intros osz cx f t outer p Hg Hf H. destruct (all_fuel osz cx f) as (HS & _).
  specialize (HS t t outer (le_tok_refl t Hg) Hf). rewrite H in HS. exact (HS eq_refl).
Qed.
Print Assumptions C07_parse_sequel_fuel.

(* the nested parse of a commontypes.c replacement text, on its own: the two texts have at most 15
   characters, 64 = 4*15+4 *)
Theorem C07_nested_fuel_suffices : forall osz cx f repl out p,
  In repl (map snd C07.Model.common_simple_types) -> (64 <= f)%nat ->
  parse_from osz cx f repl out <> Err E_out_of_fuel p.
Proof.
  intros osz cx f repl out p Hin Hf. apply parse_from_fuel.
  assert (Hl : (List.length repl <= 15)%nat) by (cbn in Hin; destruct Hin as [<- | [<- | []]]; cbn; lia).
  lia.
Qed.
Print Assumptions C07_nested_fuel_suffices.

(* non-vacuity: `good` holds of every token next_token delivers, in particular of the first one *)
Example C07_good_start : forall input out, good (start_tok input out).
Proof. intros. unfold start_tok. apply good_next. Qed.

(* C07/Gen.v is rewritten from src/c/parse_c_type.c (keyword switch of next_token), src/cffi/parse_c_type.h
   and src/cffi/cffi_opcode.py (opcode numbers), src/c/realize_c_type.c (recursion limit), src/c/ffi_obj.c
   (FFI_COMPLEXITY_OUTPUT) and src/c/commontypes.c on every run; the model's hand-written tables are
   those (closed by computation: an edit of a source table breaks this obligation) *)
Theorem C07_tables_are_the_sources :
  C07.Gen.keywords = C07.Model.keywords /\
  forallb op_row_ok model_ops = true /\
  C07.Gen.c_ops = C07.Gen.py_ops /\
  Z.of_nat realize_fuel = realize_recursion_limit /\
  ffi_complexity_output = 1200%Z /\
  C07.Gen.common_simple_types = C07.Model.common_simple_types.
Proof.
  split; [exact gen_keywords_pinned|]. split; [exact gen_ops_pinned_b|]. split; [exact gen_ops_c_eq_py|].
  split; [exact gen_realize_fuel_pinned|]. split; [exact gen_complexity_pinned | exact gen_common_types_pinned].
Qed.
Print Assumptions C07_tables_are_the_sources.

Theorem C07_keyword_lookup_is_source : forall s, kw_of s = assoc_str C07.Gen.keywords s.
Proof. intros s. unfold kw_of. rewrite <- gen_keywords_pinned. reflexivity. Qed.
Print Assumptions C07_keyword_lookup_is_source.

Theorem C07_opcode_numbers_are_source : forall n v, In (n, v) model_ops ->
  assoc_str C07.Gen.c_ops n = Some v /\ assoc_str C07.Gen.py_ops n = Some v.
Proof.
  intros n v H. pose proof (proj1 (forallb_forall _ _) gen_ops_pinned_b _ H) as Hb.
  unfold op_row_ok in Hb. cbn [fst snd] in Hb.
  destruct (assoc_str C07.Gen.c_ops n) as [a|]; [|discriminate].
  destruct (assoc_str C07.Gen.py_ops n) as [b|]; [|discriminate].
  apply andb_true_iff in Hb as [Ha Hb]. apply Z.eqb_eq in Ha, Hb. subst. split; reflexivity.
Qed.
Print Assumptions C07_opcode_numbers_are_source.

(* witnesses that the full statement is false *)
Definition nog : genv := mkGenv [] [] [] [].
Definition disagree (t : tyexpr) : Prop :=
  c_typeof 1200 nog (render t []) <> py_typeof nog t [].

(* 'long const int': a qualifier between two specifier keywords *)
Theorem C07_qualifier_between_specifiers_refuted :
  disagree (TE [SM Mlong; SQ Qconst; SB Bint] (D [] None None [] [])).
Proof. vm_compute. discriminate. Qed.
Print Assumptions C07_qualifier_between_specifiers_refuted.

(* 'int (( * ))': grouping parentheses directly inside grouping parentheses *)
Theorem C07_nested_grouping_parens_refuted :
  disagree (TE [SB Bint] (D [] None (Some (None, D [] None (Some (None, D [HStar] None None [] [])) [] [])) [] [])).
Proof. vm_compute. discriminate. Qed.
Print Assumptions C07_nested_grouping_parens_refuted.

(* 'signed double' *)
Theorem C07_signed_ignored_refuted :
  disagree (TE [SM Msigned; SB Bdouble] (D [] None None [] [])).
Proof. vm_compute. discriminate. Qed.
Print Assumptions C07_signed_ignored_refuted.

(* 'const *': no type specifier at all *)
Theorem C07_implicit_int_refuted :
  disagree (TE [SQ Qconst] (D [HStar] None None [] [])).
Proof. vm_compute. discriminate. Qed.
Print Assumptions C07_implicit_int_refuted.

(* 'int( * )(...)' *)
Theorem C07_ellipsis_only_refuted :
  disagree (TE [SB Bint] (D [] None (Some (None, D [HStar] None None [] [])) [F [] false true] [])).
Proof. vm_compute. discriminate. Qed.
Print Assumptions C07_ellipsis_only_refuted.

(* 'int( * )(const void)' *)
Theorem C07_sole_void_param_refuted :
  disagree (TE [SB Bint] (D [] None (Some (None, D [HStar] None None [] []))
                           [F [TE [SQ Qconst; SB Bvoid] (D [] None None [] [])] false false] [])).
Proof. vm_compute. discriminate. Qed.
Print Assumptions C07_sole_void_param_refuted.

(* 'int __stdcall' *)
Theorem C07_stray_abi_refuted :
  disagree (TE [SB Bint] (D [HAbi true] None None [] [])).
Proof. vm_compute. discriminate. Qed.
Print Assumptions C07_stray_abi_refuted.

(* 'void( * )(int(const int))': a parameter list starting with a qualifier where a grouping could stand *)
Theorem C07_qualifier_first_param_refuted :
  disagree (TE [SB Bvoid] (D [] None (Some (None, D [HStar] None None [] []))
                            [F [TE [SB Bint] (D [] None None
                                   [F [TE [SQ Qconst; SB Bint] (D [] None None [] [])] false false] [])]
                               false false] [])).
Proof. vm_compute. discriminate. Qed.
Print Assumptions C07_qualifier_first_param_refuted.

(* "  const unsigned long int*const( *volatile[0x10])[3] ": the hypotheses of C07_agree_partial hold and
   both sides are the same accepted type *)
Example C07_example :
  let q1 := [Qconst] in
  let ws := [WM Munsigned; WM Mlong; WB Bint] in
  let d := D [HStar; HQ Qconst] None (Some (None, D [HStar; HQ Qvolatile] None None [] [ALLit (s2l "0x10")]))
             [] [ALLit (s2l "3")] in
  let t := simple_te q1 ws d in
  let wtoks := attach [] [[32%N; 32%N]; []; []; []; []; []; []; []; []; []; []; []; [32%N]] (te_tokens t) in
  (ws <> [] /\ sign_ok ws = true /\ sdecl [] d /\ map snd wtoks = te_tokens t /\ sep_ok [] wtoks = true) /\
  c_typeof 1200 nog (spell wtoks []) =
    Some (CArr (CPtr (CArr (CPtr (CPrim 10)) (Some 3%Z))) (Some 16%Z)) /\
  denote nog t = Some (CArr (CPtr (CArr (CPtr (CPrim 10)) (Some 3%Z))) (Some 16%Z)).
Proof.
  cbv zeta. split; [|split; vm_compute; reflexivity].
  repeat split; try (vm_compute; congruence).
  apply SD1; try reflexivity.
  - repeat constructor; vm_compute; congruence.
  - apply SD0; [reflexivity|]. repeat constructor; vm_compute; congruence.
Qed.

(* "long(__stdcall*const*[2])(void)": an array of pointers to constant pointers to a function
   without parameters; the hypotheses of C07_agree_partial hold and both sides are the same
   accepted type *)
Example C07_function_example :
  let ws := [WM Mlong] in
  let d := D [] None (Some (Some true, D [HStar; HQ Qconst; HStar] None None [] [ALLit (s2l "2")]))
             [F [] true false] [] in
  let t := simple_te [] ws d in
  let wtoks := map (fun tk => ([], tk)) (te_tokens t) in
  (ws <> [] /\ sign_ok ws = true /\ sdecl [] d /\ map snd wtoks = te_tokens t /\ sep_ok [] wtoks = true) /\
  spell wtoks [] = s2l "long(__stdcall*const*[2])(void)" /\
  c_typeof 1200 nog (spell wtoks []) = Some (CArr (CPtr (CFunc (CPrim 9) [] false)) (Some 2%Z)) /\
  denote nog t = Some (CArr (CPtr (CFunc (CPrim 9) [] false)) (Some 2%Z)).
Proof.
  cbv zeta. split; [|split; [|split]; vm_compute; reflexivity].
  repeat split; try (vm_compute; congruence).
  apply SD2; try reflexivity.
  apply SD0; [reflexivity|]. repeat constructor; vm_compute; congruence.
Qed.

(* " const t *[3][N]" and "union s" in a context with `typedef int *t;`, `struct s` (8 bytes) and
   `#define N 5` *)
Definition ex_genv : genv :=
  mkGenv [(s2l "t", MPtr (MPrim 7))] [(s2l "s", false, MAgg AStruct (s2l "struct s") (Some 8%Z))] []
         [(s2l "N", GInt false 0 5)].

Example C07_names_example :
  wf_genv ex_genv /\
  (let b := NTypedef (s2l "t") in
   let d := D [HStar] None None [] [ALLit (s2l "3"); ALName (s2l "N")] in
   ident_ok (nbase_name b) /\ base_ok ex_genv b (Some (OP OP_TYPENAME 0, MPtr (MPrim 7))) /\
   sdecl (g_globals ex_genv) d /\
   c_typeof 1200 ex_genv (s2l " const t *[3][N]") =
     Some (CArr (CArr (CPtr (CPtr (CPrim 7))) (Some 5%Z)) (Some 3%Z)) /\
   denote ex_genv (named_te [Qconst] b d) =
     Some (CArr (CArr (CPtr (CPtr (CPrim 7))) (Some 5%Z)) (Some 3%Z))) /\
  (let b := NTag TKunion (s2l "s") in
   base_ok ex_genv b None /\ c_typeof 1200 ex_genv (s2l "union s") = None).
Proof.
  assert (Hs1 : forall x : cstr, sorted [x]) by (intros x i j H; cbn in H; lia).
  split; [|split].
  - split; [|split; [|split]]; (split; [cbn [map g_typedefs g_structs g_enums g_globals ex_genv fst] | first [apply Hs1 | intros i j H; cbn in H; lia]]).
    + constructor; [|constructor]. constructor; [discriminate | constructor].
    + constructor; [|constructor]. constructor; [discriminate | constructor].
    + constructor.
    + constructor; [|constructor]. constructor; [discriminate | constructor].
  - cbv zeta. split; [split; [cbn; auto | reflexivity]|].
    split; [apply (BO_typedef ex_genv (s2l "t") 0 (MPtr (MPrim 7))); reflexivity|].
    split; [apply SD0; [reflexivity | repeat constructor; vm_compute; congruence]|].
    split; vm_compute; reflexivity.
  - cbv zeta. split; [|vm_compute; reflexivity].
    exact (BO_su ex_genv TKunion (s2l "s") 0 false _ ltac:(discriminate) eq_refl).
Qed.

(* non-vacuity of the NStd case of base_ok (C07_agree_names_partial): a standard name that is not a
   declared typedef of the example context *)
Example C07_base_ok_std_example :
  base_ok ex_genv (NStd (s2l "uint16_t")) (Some (OP OP_PRIMITIVE 20, MPrim 20)) /\
  c_typeof 1200 ex_genv (s2l "uint16_t *") = Some (CPtr (CPrim 20)).
Proof.
  split; [|vm_compute; reflexivity].
  apply BO_std; [|vm_compute; reflexivity].
  cbn. intros [H | H]; [discriminate H | exact H].
Qed.
