(* C07 — the model of parse_complete follows c_spec_run on a lexed token list. *)
From Coq Require Import List Arith NArith ZArith Lia Bool String.
Import ListNotations.
From Cffi Require Import C25.Model C07.Model C07.Realize C07.PyModel C07.Lexer C07.Tokens C07.Specs C07.NoFault3.

Local Open Scope nat_scope.

Definition is_err {A} (r : res A) : Prop := match r with Err _ _ => True | _ => False end.

Lemma is_err_bind {A B} (r : res A) (f : A -> res B) : is_err r -> is_err (bind r f).
Proof. destruct r; cbn; tauto. Qed.
Lemma is_err_Err {A} (r : res A) : is_err r -> exists e pos, r = Err e pos.
Proof. destruct r; cbn; [tauto | eauto | tauto]. Qed.

Section Run.
Variable osz : nat.
Variable cx : ctx.
Variable input : str.
Variable toks : kinds_texts.
Hypothesis L : lexed input toks.

(* the kind of the i-th token of the lexed list, counted from 0; TOK_END past the last *)
Definition K (i : nat) : kind := nth i (map fst toks) KEnd.
Notation T := (T input).

Lemma kind_T i o : t_kind (T i o) = K i.
Proof. rewrite T_kind. apply (lx_kind _ _ L). Qed.

(* the tokens from position i on have the kinds l *)
Definition Kat (i : nat) (l : list kind) : Prop :=
  forall j, j < List.length l -> K (i + j) = nth j l KEnd.

Lemma Kat_cons i k l : Kat i (k :: l) -> K i = k /\ Kat (S i) l.
Proof.
  intros H. split.
  - specialize (H 0). cbn in H. rewrite Nat.add_0_r in H. apply H. lia.
  - intros j Hj. specialize (H (S j)). cbn in H. rewrite Nat.add_succ_r in H. apply H. lia.
Qed.

Lemma Kat_app i a b : Kat i (a ++ b) -> Kat i a /\ Kat (i + List.length a) b.
Proof.
  intros H. split.
  - intros j Hj. rewrite (H j) by (rewrite app_length; lia). apply app_nth1. exact Hj.
  - intros j Hj. rewrite <- Nat.add_assoc. rewrite (H (List.length a + j)) by (rewrite app_length; lia).
    rewrite app_nth2 by lia. f_equal. lia.
Qed.

(* what may stand after the specifier words without being taken for one of them: the end, a
   punctuation character or a qualifier *)
Definition follower (k : kind) : Prop :=
  k = KEnd \/ (exists c, k = KChar c) \/ k = KKw K_const \/ k = KKw K_volatile.
Definition follower_nq (k : kind) : Prop := k = KEnd \/ (exists c, k = KChar c).

Lemma qualifiers_run : forall qs f i o,
  Kat i (map qkind qs) -> K (i + List.length qs) <> KKw K_const -> K (i + List.length qs) <> KKw K_volatile ->
  List.length qs < f ->
  qualifiers f (T i o) = Ok (T (i + List.length qs) o).
Proof.
  induction qs as [|q qs IH]; intros f i o Hk H1 H2 Hf; destruct f as [|f]; try (cbn in Hf; lia).
  - cbn [List.length] in *. rewrite Nat.add_0_r in *. cbn [qualifiers]. rewrite kind_T.
    destruct (K i) as [| | | | |c|[]]; try reflexivity; congruence.
  - cbn [map] in Hk. apply Kat_cons in Hk as [Hq Hk].
    cbn [qualifiers]. rewrite kind_T, Hq, T_next.
    cbn [List.length] in *. rewrite Nat.add_succ_r in *.
    destruct q; cbn [qkind]; apply IH; auto; lia.
Qed.

Lemma not_follower_word k w : follower k -> k <> wkind w.
Proof.
  intros [->|[[c ->]|[->| ->]]]; destruct w as [[]|[]|]; discriminate.
Qed.

Lemma modifiers_run : forall ws f i o mlen msign,
  Kat i (map wkind ws) -> follower (K (i + List.length ws)) -> List.length ws < f ->
  match c_mods ws mlen msign with
  | Some (n, a, b) =>
    modifiers f (T i o) mlen msign = Ok (T (i + n) o, a, b) /\ n <= List.length ws /\
    head_nonmod (skipn n ws) = true
  | None => is_err (modifiers f (T i o) mlen msign)
  end.
Proof.
  induction ws as [|w ws IH]; intros f i o mlen msign Hk Hfol Hf; destruct f as [|f]; try (cbn in Hf; lia).
  - cbn [c_mods List.length] in *. rewrite Nat.add_0_r in *. split; [|split; [lia | reflexivity]].
    cbn [modifiers]. rewrite kind_T.
    destruct Hfol as [->|[[c ->]|[->| ->]]]; reflexivity.
  - cbn [map] in Hk. apply Kat_cons in Hk as [Hw Hk].
    cbn [List.length] in *. rewrite Nat.add_succ_r in Hfol.
    assert (Hf' : List.length ws < f) by lia.
    cbn [modifiers]. rewrite kind_T, Hw.
    destruct w as [[]|b|]; cbn [c_mods wkind kw_of_word kw_of_mod].
    5:{ rewrite Nat.add_0_r. split; [destruct b; reflexivity|]. split; [lia | reflexivity]. }
    5:{ rewrite Nat.add_0_r. split; [reflexivity|]. split; [lia | reflexivity]. }
    (* a modifier: the C guards are those of c_mods; then the rest of the list, one token further *)
    all: repeat match goal with |- context [if ?c then _ else _] => destruct c; [exact I|] end.
    all: rewrite T_next.
    all: match goal with |- context [c_mods ?l ?a ?b] =>
           specialize (IH f (S i) o a b Hk Hfol Hf'); destruct (c_mods l a b) as [[[n x] y]|] end;
         [|exact IH].
    all: destruct IH as (A & B & C); rewrite Nat.add_succ_r; repeat split; [exact A | lia | exact C].
Qed.

Lemma K_word : forall ws i n, Kat i (map wkind ws) -> follower (K (i + List.length ws)) -> n <= List.length ws ->
  match skipn n ws with w :: _ => K (i + n) = wkind w | [] => follower (K (i + n)) end.
Proof.
  intros ws i n Hk Hfol Hn. pose proof (skipn_length n ws) as Hl.
  destruct (skipn n ws) as [|w r] eqn:E; cbn [List.length] in Hl.
  - replace n with (List.length ws) by lia. exact Hfol.
  - rewrite (Hk n) by (rewrite map_length; lia).
    rewrite <- (firstn_skipn n ws), E, map_app, app_nth2; rewrite map_length, firstn_length_le by lia; [|lia].
    rewrite Nat.sub_diag. reflexivity.
Qed.

Lemma follower_is_kw k kw0 : follower k -> kw0 <> K_const -> kw0 <> K_volatile ->
  kind_eqb k (KKw kw0) = false.
Proof.
  intros [->|[[c ->]|[->| ->]]] H1 H2; try reflexivity; destruct kw0; try reflexivity; congruence.
Qed.

(* for any token state t, not T j o: once t's kind is a constructor both sides compute *)
Lemma base_dispatch (t : tok) rest mlen msign pf : head_nonmod rest = true ->
  match rest with w :: _ => t_kind t = wkind w | [] => follower (t_kind t) end ->
  let r := if (negb (mlen =? 0)%Z || negb (msign =? 0)%Z)%bool
           then bind (base_with_modifiers t mlen msign) (fun '(t3, op) => Ok (t3, op, 0%Z))
           else bind (base_plain cx pf t) (fun '(t3, op, cplx) => Ok (next_token t3, op, cplx)) in
  match c_base rest mlen msign with
  | Some (op, cplx, n) => r = Ok (Nat.iter n next_token t, op, cplx) /\ n <= List.length rest
  | None => is_err r
  end.
Proof.
  intros Hn H. destruct t as [tr tp ts tk tout]. cbn [t_kind] in H. unfold c_base. cbv zeta.
  destruct (negb (mlen =? 0)%Z || negb (msign =? 0)%Z)%bool; destruct rest as [|[m|b|] rest']; try discriminate Hn.
  all: try subst tk.
  all: try (destruct H as [->|[[c ->]|[->| ->]]]; first [exact I | split; [reflexivity | apply le_n]]).
  all: try exact I.
  all: destruct b; try exact I.
  all: unfold base_with_modifiers; cbn [t_kind wkind kw_of_word kw_of_base].
  all: repeat match goal with |- context [if (negb ?c) then _ else _] => destruct (negb c); [exact I|]
                            | |- context [if (negb ?c || ?c')%bool then _ else _] => destruct (negb c || c')%bool; [exact I|] end.
  all: split; [reflexivity | cbn; lia].
Qed.

Lemma base_run rest j o mlen msign pf : head_nonmod rest = true ->
  match rest with w :: _ => K j = wkind w | [] => follower (K j) end ->
  let r := if (negb (mlen =? 0)%Z || negb (msign =? 0)%Z)%bool
           then bind (base_with_modifiers (T j o) mlen msign) (fun '(t3, op) => Ok (t3, op, 0%Z))
           else bind (base_plain cx pf (T j o)) (fun '(t3, op, cplx) => Ok (next_token t3, op, cplx)) in
  match c_base rest mlen msign with
  | Some (op, cplx, n) => r = Ok (T (j + n) o, op, cplx) /\ n <= List.length rest
  | None => is_err r
  end.
Proof.
  intros Hn H. rewrite <- (kind_T j o) in H. apply (base_dispatch _ _ mlen msign pf Hn) in H. cbv zeta in H |- *.
  destruct (c_base rest mlen msign) as [[[op cplx] n]|]; [rewrite <- T_iter|]; exact H.
Qed.

Lemma complex_run rest j o (op cplx : Z) :
  match rest with w :: _ => K j = wkind w | [] => follower (K j) end ->
  let r := if is_kw (T j o) K_Complex
           then if (cplx =? 0)%Z then parse_error (T j o) E_complex else Ok (next_token (T j o), cplx)
           else Ok (T j o, op) in
  match rest with
  | WComplex :: _ => if (cplx =? 0)%Z then is_err r else r = Ok (T (S j) o, cplx)
  | _ => r = Ok (T j o, op)
  end.
Proof.
  intros H. unfold is_kw. rewrite kind_T. cbv zeta. destruct rest as [|w rest'].
  - rewrite (follower_is_kw _ K_Complex H) by discriminate. reflexivity.
  - rewrite H. destruct w as [[]|[]|]; try reflexivity. cbn [wkind kw_of_word kind_eqb kw_eqb].
    destruct (cplx =? 0)%Z; [exact I | rewrite T_next; reflexivity].
Qed.

Lemma parse_complete_specs : forall q1 ws f i o,
  Kat i (map qkind q1 ++ map wkind ws) -> ws <> [] ->
  follower (K (i + List.length q1 + List.length ws)) ->
  List.length q1 + List.length ws + 2 < f ->
  match c_spec_run ws with
  | Some (op, n) =>
    n <= List.length ws /\
    parse_complete osz cx (S f) (T i o) =
    bind (write_ds osz (T (i + List.length q1 + n) o) op) (fun '(t7, idx) => parse_sequel osz cx f t7 idx)
  | None => is_err (parse_complete osz cx (S f) (T i o))
  end.
Proof.
  intros q1 ws f i o Hk Hne Hfol Hf.
  apply Kat_app in Hk as [Hq Hw]. rewrite map_length in Hw.
  assert (Hq1 : qualifiers f (T i o) = Ok (T (i + List.length q1) o)).
  { destruct ws as [|w0 ws']; [congruence|]. cbn [map] in Hw. apply Kat_cons in Hw as [Hw0 _].
    apply qualifiers_run; auto; try lia; rewrite Hw0; destruct w0 as [[]|[]|]; discriminate. }
  set (p := i + List.length q1) in *.
  pose proof (modifiers_run ws f p o 0%Z 0%Z Hw Hfol ltac:(lia)) as Hm.
  rewrite parse_complete_S, Hq1. cbn [bind]. unfold c_spec_run.
  destruct (c_mods ws 0 0) as [[[n1 mlen] msign]|]; [|apply is_err_bind; exact Hm].
  destruct Hm as (Hm & Hn1 & Hnm). rewrite Hm. cbn [bind].
  pose proof (base_run (skipn n1 ws) (p + n1) o mlen msign (parse_from osz cx f) Hnm (K_word ws p n1 Hw Hfol Hn1)) as Hb.
  cbv zeta in Hb.
  destruct (c_base (skipn n1 ws) mlen msign) as [[[op cplx] n2]|]; [|apply is_err_bind; exact Hb].
  destruct Hb as [Hb Hn2]. rewrite Hb, <- Nat.add_assoc. cbn [bind]. rewrite skipn_length in Hn2.
  pose proof (complex_run (skipn (n1 + n2) ws) (p + (n1 + n2)) o op cplx
                (K_word ws p (n1 + n2) Hw Hfol ltac:(lia))) as Hc. cbv zeta in Hc.
  pose proof (skipn_length (n1 + n2) ws) as Hl.
  destruct (skipn (n1 + n2) ws) as [|[| |] r]; cbn [List.length] in Hl;
    [| | |destruct (cplx =? 0)%Z; [apply is_err_bind; exact Hc|]]; rewrite Hc; cbn [bind];
    (split; [lia|]); unfold p; rewrite <- ?Nat.add_succ_r, ?Nat.add_assoc; reflexivity.
Qed.

End Run.
