(* C07 — agreement of the two parsers on a base type followed by a simple declarator (pointers,
   qualifiers, nested grouping parentheses, arrays with decimal/octal/hexadecimal lengths, empty
   parameter lists).  agree_base has the base abstract: its tokens, the one opcode the C parser writes
   for it (base_runs) and the type cparser gives it.  agree_partial is its instance for primitive
   specifiers in any order, with qualifiers before them (specs_run). *)
From Coq Require Import List Arith NArith ZArith Lia Bool String.
Import ListNotations.
From Cffi Require Import C25.Model C07.Model C07.Realize C07.PyModel C07.Lexer C07.Tokens C07.Tables C07.Specs
     C07.SpecsAgree C07.Parse C07.Sequel C07.Sequel2 C07.NoFault2 C07.NoFault3.

Local Open Scope nat_scope.

Definition stok_of_word (w : word) : stok :=
  match w with WM m => SM m | WB b => SB b | WComplex => SComplex end.
Definition sp_word (w : word) : str :=
  match w with WM m => sp_mod m | WB b => sp_base b | WComplex => s2l "_Complex" end.

Definition spec_toks (q1 : list qual) (ws : list word) : kinds_texts :=
  map (fun q => (qkind q, sp_qual q)) q1 ++ map (fun w => (wkind w, sp_word w)) ws.

Lemma ident_lexeme' s k :
  match s with c :: tl => (is_ident_first c && forallb is_ident_next tl)%bool | [] => false end = true ->
  word_kind s = k -> lexeme s k.
Proof.
  destruct s as [|c tl]; [discriminate|]. intros H <-. apply andb_true_iff in H as [A B].
  apply ident_lexeme; assumption.
Qed.

Lemma qual_lexeme q : lexeme (sp_qual q) (qkind q).
Proof. destruct q; apply ident_lexeme'; reflexivity. Qed.

Lemma abi_lexeme a : lexeme (sp_abi a) (hkind (HAbi a)).
Proof. destruct a; apply ident_lexeme'; reflexivity. Qed.

Lemma word_lexeme w : lexeme (sp_word w) (wkind w).
Proof. destruct w as [[]|[]|]; apply ident_lexeme'; reflexivity. Qed.

Lemma lpar_lexeme : lexeme [c_lpar] (KChar c_lpar).
Proof. apply punct_lexeme; reflexivity. Qed.
Lemma rpar_lexeme : lexeme [c_rpar] (KChar c_rpar).
Proof. apply punct_lexeme; reflexivity. Qed.
Lemma lbr_lexeme : lexeme [c_lbr] (KChar c_lbr).
Proof. apply punct_lexeme; reflexivity. Qed.
Lemma rbr_lexeme : lexeme [c_rbr] (KChar c_rbr).
Proof. apply punct_lexeme; reflexivity. Qed.
Lemma star_lexeme : lexeme [c_star] (KChar c_star).
Proof. apply punct_lexeme; reflexivity. Qed.

Definition is_lex (kt : kind * str) : Prop := lexeme (snd kt) (fst kt).

Lemma sdecl_lexemes : forall gl d, sdecl gl d -> Forall is_lex (sdecl_toks d).
Proof.
  intros gl. apply sdecl_shape_ind. intros hdr group fn arrays Hh Ha _ IH.
  rewrite sdecl_toks_shape. repeat (apply Forall_app; split).
  - induction hdr as [|h hdr IHh]; cbn in *; constructor.
    + apply andb_true_iff in Hh as [H0 _]. destruct h as [|q|a]; unfold is_lex; cbn;
        [apply star_lexeme | apply qual_lexeme | discriminate].
    + apply IHh. apply andb_true_iff in Hh as [_ H]. exact H.
  - destruct group as [[abi d']|]; [|constructor]. unfold group_toks. repeat (apply Forall_app; split).
    + constructor; [apply lpar_lexeme|]. destruct abi as [a|]; constructor; [exact (abi_lexeme a) | constructor].
    + exact (IH abi d' eq_refl).
    + constructor; [apply rpar_lexeme | constructor].
  - destruct fn as [[]|]; cbn; repeat (constructor; [first [apply lpar_lexeme | apply rpar_lexeme | exact (word_lexeme (WB Bvoid))]|]);
      constructor.
  - induction Ha as [|a arrays H0 _ IHa]; cbn; [constructor|]. apply Forall_app. split; [|exact IHa].
    destruct a as [|t|n]; cbn in *.
    + constructor; [apply lbr_lexeme|]. constructor; [apply rbr_lexeme|]. constructor.
    + destruct (py_int t) as [v|] eqn:E; [|congruence].
      constructor; [apply lbr_lexeme|]. constructor; [eapply py_int_lexeme; exact E|].
      constructor; [apply rbr_lexeme|]. constructor.
    + destruct (ident_okb n) eqn:E; [|congruence].
      constructor; [apply lbr_lexeme|]. constructor; [apply ident_ok_lexeme, ident_okb_ok; exact E|].
      constructor; [apply rbr_lexeme|]. constructor.
Qed.

Lemma alen_tokens_toks arrays : List.concat (map alen_tokens arrays) = map snd (List.concat (map alen_toks arrays)).
Proof. induction arrays as [|a arrays IH]; cbn; [reflexivity|]. rewrite map_app, <- IH. destruct a; reflexivity. Qed.

Lemma sdecl_tokens : forall gl d, sdecl gl d -> decl_tokens d = map snd (sdecl_toks d).
Proof.
  intros gl. apply sdecl_shape_ind. intros hdr group fn arrays _ _ _ IH.
  rewrite sdecl_toks_shape, !map_app, map_map, <- alen_tokens_toks. cbn [decl_tokens app].
  f_equal. f_equal; [|f_equal; destruct fn as [[]|]; reflexivity].
  destruct group as [[abi d']|]; [|reflexivity].
  rewrite (IH abi d' eq_refl). unfold group_toks. rewrite !map_app. destruct abi; reflexivity.
Qed.

Lemma spec_tokens : forall q1 ws,
  List.concat (map stok_tokens (map SQ q1 ++ map stok_of_word ws)) = map snd (spec_toks q1 ws).
Proof.
  intros q1 ws. unfold spec_toks. rewrite map_app, concat_app, map_app. f_equal.
  - induction q1; cbn; congruence.
  - induction ws as [|w ws IH]; cbn; [reflexivity|]. rewrite IH. destruct w as [[]|[]|]; reflexivity.
Qed.

Section Py.
Variable g : genv.
Notation gl := (g_globals g).

Lemma wrap_stars_sem : forall hdr inner,
  denote_py g (wrap_stars hdr inner) = option_map (wrap_ptrs (nstars hdr)) (denote_py g inner).
Proof.
  unfold wrap_stars. induction hdr as [|h hdr IH]; intros inner; cbn [fold_left].
  - cbn. destruct (denote_py g inner); reflexivity.
  - rewrite IH. destruct h.
    + change (nstars (HStar :: hdr)) with (S (nstars hdr)). cbn [denote_py].
      destruct (denote_py g inner); cbn [option_map]; [rewrite wrap_ptrs_S|]; reflexivity.
    + reflexivity.
    + reflexivity.
Qed.

Lemma arrays_sem : forall arrays t1, Forall (fun a => alen_val gl a <> None) arrays ->
  denote_py g (fold_right (fun a acc => PyArr acc a) t1 arrays) =
  option_map (fun m => fold_right (fun a acc => MArr acc (lenval gl a)) m arrays) (denote_py g t1).
Proof.
  induction arrays as [|a arrays IH]; intros t1 H; cbn [fold_right].
  - destruct (denote_py g t1); reflexivity.
  - inversion H as [|? ? H0 H1]; subst. cbn [denote_py]. rewrite IH by exact H1.
    assert (Hd : py_dim g a = Some (lenval gl a)).
    { unfold lenval. destruct a as [|t|n]; cbn [alen_val py_dim] in *; [reflexivity| |].
      - destruct (py_int t); [|congruence]. destruct (_ <=? _)%Z; [reflexivity|congruence].
      - destruct (ident_okb n); [|congruence]. unfold const_len, py_const in *.
        destruct (assoc_str (g_globals g) n) as [[e neg value|]|]; cbn in H0 |- *; try congruence.
        destruct (neg =? 0)%Z; cbn in H0 |- *; [|congruence].
        destruct ((0 <=? value)%Z && (value <=? MAX_SSIZE_T)%Z); cbn in H0 |- *; [reflexivity|congruence]. }
    rewrite Hd. destruct (denote_py g t1); reflexivity.
Qed.

Lemma fn_sem fn t :
  denote_py g (fold_right py_fs t (opt_fn fn)) =
  option_map (fun m => fold_right (fun _ acc => MFun acc [] false) m (opt_fn fn)) (denote_py g t).
Proof.
  destruct fn as [[]|]; cbn [opt_fn fold_right py_fs map denote_py andb].
  - change (denote_base g [SB Bvoid]) with (Some MVoid). reflexivity.
  - reflexivity.
  - destruct (denote_py g t); reflexivity.
Qed.

Lemma py_decl_sdecl : forall d, sdecl gl d -> forall inner,
  denote_py g (py_decl d inner) = option_map (apply_decl gl d) (denote_py g inner).
Proof.
  apply (sdecl_shape_ind gl (fun d => forall inner, _ = _)).
  intros hdr group fn arrays _ Ha _ IH inner. cbn [py_decl apply_decl].
  destruct group as [[abi d']|]; [rewrite (IH abi d' eq_refl)|];
    rewrite fn_sem, arrays_sem, wrap_stars_sem by exact Ha; destruct (denote_py g inner); reflexivity.
Qed.

(* cparser on a type expression: the base type its specifiers name, under the declarator *)
Lemma denote_mty_TE : forall stoks d, sdecl gl d ->
  denote_mty g (TE stoks d) = option_map (apply_decl gl d) (denote_base g (filter (fun s => negb (is_qual s)) stoks)).
Proof. intros stoks d Hd. unfold denote_mty. cbn [py_te]. rewrite py_decl_sdecl by exact Hd. reflexivity. Qed.

Lemma words_of_words : forall ws, words_of (map stok_of_word ws) = Some ws.
Proof. induction ws as [|w ws IH]; cbn; [reflexivity|]. rewrite IH. destruct w; reflexivity. Qed.

Lemma filter_quals : forall q1, filter (fun s => negb (is_qual s)) (map SQ q1) = [].
Proof. induction q1; cbn; auto. Qed.

Lemma filter_specs : forall q1 ws,
  filter (fun s => negb (is_qual s)) (map SQ q1 ++ map stok_of_word ws) = map stok_of_word ws.
Proof.
  intros. rewrite filter_app.
  rewrite filter_quals.
  cbn. induction ws as [|w ws IH]; cbn; [reflexivity|]. rewrite IH. destruct w; reflexivity.
Qed.

Lemma denote_base_words : forall ws, ws <> [] ->
  denote_base g (map stok_of_word ws) = option_map prim_mty (py_spec_abs ws).
Proof.
  intros ws Hne. destruct ws as [|w ws]; [congruence|].
  unfold denote_base. pose proof (words_of_words (w :: ws)) as Hw.
  destruct w as [m|b|]; cbn [map stok_of_word] in *; rewrite Hw; reflexivity.
Qed.

End Py.

Section CEnd.
Variable osz : nat.
Variable cx : ctx.
Variable input : str.
Variable toks : kinds_texts.
Hypothesis L : lexed input toks.
Notation T := (T input).
Notation K := (K toks).

(* a left-over specifier keyword stops parse_sequel at once *)
Lemma sequel_stuck f i o outer w : K i = wkind w ->
  parse_sequel osz cx (S (S f)) (T i o) outer = Ok (T i o, outer).
Proof.
  intros Hk. rewrite parse_sequel_S'.
  assert (Hh : header osz (S f) (T i o) outer None = Ok (T i o, outer, None)).
  { cbn [header]. rewrite (kind_T _ _ L), Hk. destruct w as [[]|[]|]; reflexivity. }
  rewrite Hh. cbn [bind]. rewrite (kind_T _ _ L), Hk.
  assert (Hni : forall A (x y : A), match wkind w with KIdent => x | _ => y end = y)
    by (intros; destruct w as [[]|[]|]; reflexivity).
  rewrite Hni.
  rewrite parens_stop by (unfold is_ch; rewrite (kind_T _ _ L), Hk; destruct w as [[]|[]|]; reflexivity).
  cbn [bind].
  assert (Hb : brackets osz cx (S f) (T i o) PRes 0%Z = Ok (T i o, PRes, 0%Z)).
  { cbn [brackets]. unfold is_ch. rewrite (kind_T _ _ L), Hk. destruct w as [[]|[]|]; reflexivity. }
  rewrite Hb. cbn [bind retarget get_cur set_cur].
  rewrite GETARG_OP by (cbv; split; [discriminate | reflexivity]). reflexivity.
Qed.

End CEnd.

Lemma spell_length : forall wtoks trailing, Forall (fun wt => snd wt <> []) wtoks ->
  List.length wtoks <= List.length (spell wtoks trailing).
Proof.
  unfold spell. induction wtoks as [|[w s] l IH]; intros tr H; cbn; [lia|].
  inversion H; subst. rewrite <- app_assoc, !app_length. specialize (IH tr H3).
  rewrite app_length in IH. cbn in H2. destruct s; [congruence|]. cbn. lia.
Qed.

Lemma arr_ops_toks arrays : list_sum (map arr_ops arrays) <= List.length (List.concat (map alen_toks arrays)).
Proof.
  induction arrays as [|a l IH]; cbn [map list_sum List.concat List.length fold_right]; [lia|]. rewrite app_length.
  change (fold_right Nat.add 0 (map arr_ops l)) with (list_sum (map arr_ops l)). destruct a; cbn; lia.
Qed.

Lemma nstars_le hdr : nstars hdr <= List.length hdr.
Proof. unfold nstars. induction hdr as [|h hdr IH]; cbn; [lia|]. destruct h; cbn; lia. Qed.

(* each part of a declarator has at least as many tokens as opcodes, the parentheses of a group paying for the
   three opcodes of the parameter list behind it *)
Lemma cost_le_ntoks : forall gl d, sdecl gl d -> cost d <= ntoks d /\ nops d <= ntoks d.
Proof.
  intros gl. apply sdecl_shape_ind. intros hdr group fn arrays _ _ Hmid IH.
  unfold ntoks. rewrite sdecl_toks_shape, !app_length, map_length.
  cbn [cost nops]. pose proof (nstars_le hdr). pose proof (arr_ops_toks arrays). pose proof (arrays_count arrays).
  destruct group as [[abi d']|]; [|cbn in Hmid; subst fn; cbn [group_toks opt_fn map List.concat List.length]; lia].
  destruct (IH abi d' eq_refl) as [IH1 IH2]. destruct (group_toks_length abi d') as [-> ?].
  destruct fn as [[]|]; cbn [opt_fn fs_toks map List.concat List.length app]; lia.
Qed.

Lemma te_tokens_TE specs d : te_tokens (TE specs d) = List.concat (map stok_tokens specs) ++ decl_tokens d.
Proof. reflexivity. Qed.

Lemma lex_nonempty : forall (wtoks : list (str * str)) (toks : kinds_texts),
  Forall is_lex toks -> map snd wtoks = map snd toks -> Forall (fun wt => snd wt <> []) wtoks.
Proof.
  induction wtoks as [|[w s] l IH]; intros [|[k s'] t] Hl E; cbn in *; try discriminate; constructor.
  - inversion E; subst. inversion Hl as [|? ? Hx Hl']; subst. unfold is_lex in Hx. cbn [fst snd] in Hx.
    destruct Hx as [Hn _]. exact Hn.
  - inversion E as [[E1 E2]]. inversion Hl as [|? ? Hx Hl']; subst. apply (IH t Hl' E2).
Qed.

Lemma sdecl_first_follower gl d k s rest : sdecl gl d -> sdecl_toks d = (k, s) :: rest -> follower k.
Proof. intros Hd Ed. pose proof (sdecl_first gl d Hd) as H. rewrite Ed in H. exact H. Qed.

Lemma spelled_lexed : forall (toks : kinds_texts) wtoks trailing,
  Forall is_lex toks -> map snd wtoks = map snd toks -> sep_ok [] wtoks = true -> is_ws trailing = true ->
  lexed (spell wtoks trailing) toks /\ List.length toks <= List.length (spell wtoks trailing).
Proof.
  intros toks wtoks trailing Hlex Htexts Hsep Htr. split.
  - replace toks with (combine (map fst toks) (map snd wtoks)).
    + apply spell_lexed; [apply sep_ok_seps; exact Hsep | exact Htr |].
      clear - Hlex Htexts.
      revert wtoks Htexts. induction Hlex as [|[k s] l Hx Hl IH]; intros [|[w s'] wt] E; cbn in *; try discriminate; constructor.
      * inversion E; subst. exact Hx.
      * apply IH. inversion E; reflexivity.
    + rewrite Htexts. clear. induction toks as [|[k s] l IH]; cbn; congruence.
  - rewrite <- (map_length snd toks), <- Htexts, map_length.
    apply spell_length, (lex_nonempty wtoks toks Hlex Htexts).
Qed.

Section Declarator.
Variable g : genv.
Variable input : str.
Variables pre : kinds_texts.
Variable d : decl.
Notation toks := (pre ++ sdecl_toks d).
Hypothesis L : lexed input toks.
Hypothesis Hd : sdecl (g_globals g) d.

Lemma At_declarator : At toks (List.length pre) (sdecl_toks d).
Proof. intros j Hj. rewrite nth_error_app2, Nat.add_comm, Nat.add_sub by lia. reflexivity. Qed.

Lemma K_end : Parse.K toks (List.length pre + ntoks d) = KEnd.
Proof. apply nth_overflow. rewrite map_length, app_length. apply le_n. Qed.

Lemma declarator_follower : follower (Parse.K toks (List.length pre)).
Proof.
  pose proof K_end as He. pose proof At_declarator as Hat. unfold ntoks in He.
  destruct (sdecl_toks d) as [|[k s] rest] eqn:Ed.
  - cbn in He. rewrite Nat.add_0_r in He. rewrite He. left. reflexivity.
  - apply At_cons in Hat as [H0 _]. rewrite (At_K _ _ _ H0). exact (sdecl_first_follower _ _ _ _ _ Hd Ed).
Qed.

End Declarator.

(* what the C parser makes of the tokens `pre` of a base type standing before the declarator d: it writes the
   one opcode op at index 0 and goes on with parse_sequel; or (None) it rejects the input *)
Definition base_runs (osz : nat) (g : genv) (pre : kinds_texts) (d : decl) (r : option (Z * mty)) : Prop :=
  forall input f, lexed input (pre ++ sdecl_toks d) -> List.length pre + 4 < f ->
  match r with
  | Some (op, _) =>
    parse_complete osz (ctx_of g) (S f) (T input 0 []) =
    bind (write_ds osz (T input (List.length pre) []) op) (fun '(t7, idx) => parse_sequel osz (ctx_of g) f t7 idx)
  | None => exists e pos, parse_from osz (ctx_of g) (S (S f)) input [] = Err e pos
  end.

(* Agreement for any base type before a simple declarator.  The base is given by its tokens `pre` (spelling
   stoks) and by what both parsers make of it, r: the C parser writes the one opcode op at index 0 and goes on
   with parse_sequel, op decodes to the type m that cparser gives the base; or (None) both reject.
   cost d < 999: the decode of the result stays within realize_fuel = 1000 steps, one of them for the base. *)
Theorem agree_base : forall (g : genv) (osz : nat) stoks (pre : kinds_texts) (r : option (Z * mty)) d wtoks trailing,
  Forall is_lex pre -> List.concat (map stok_tokens stoks) = map snd pre ->
  denote_base g (filter (fun s => negb (is_qual s)) stoks) = option_map snd r ->
  (forall op m, r = Some (op, m) -> forall out, nth_error out 0 = Some op -> decodes g 1 out 0%Z m) ->
  base_runs osz g pre d r ->
  table_ok (map fst (g_globals g)) -> sdecl (g_globals g) d ->
  map snd wtoks = te_tokens (TE stoks d) -> sep_ok [] wtoks = true -> is_ws trailing = true ->
  S (nops d) <= osz -> cost d < 999 ->
  c_typeof osz g (spell wtoks trailing) = denote g (TE stoks d) /\
  denote_mty g (TE stoks d) = option_map (fun om => apply_decl (g_globals g) d (snd om)) r.
Proof.
  intros g osz stoks pre r d wtoks trailing Hlexpre Htokpre Hpybase Hdec Hruns Hgl Hd Htok Hsep Htr Hroom Hdepth.
  set (input := spell wtoks trailing). set (toks := pre ++ sdecl_toks d).
  assert (Hlex : Forall is_lex toks)
    by (apply Forall_app; split; [exact Hlexpre | apply (sdecl_lexemes (g_globals g)); exact Hd]).
  destruct (spelled_lexed toks wtoks trailing Hlex) as [L Hlen]; [|exact Hsep | exact Htr|].
  { rewrite Htok, te_tokens_TE, Htokpre, (sdecl_tokens _ d Hd), <- map_app. reflexivity. }
  fold input in L, Hlen.
  assert (Hpy : denote_mty g (TE stoks d) = option_map (fun om => apply_decl (g_globals g) d (snd om)) r).
  { rewrite denote_mty_TE, Hpybase by exact Hd. destruct r as [[op m]|]; reflexivity. }
  split; [|exact Hpy].
  destruct (cost_le_ntoks _ d Hd) as [Hc1 Hc2].
  assert (Htl : List.length toks = List.length pre + ntoks d) by apply app_length.
  unfold c_typeof, parse_c_type, fuel_for. fold input.
  destruct (6 * List.length input + 24) as [|[|f1]] eqn:EF; try lia.
  specialize (Hruns input f1 L ltac:(lia)). unfold denote. rewrite Hpy.
  destruct r as [[op m]|]; [|destruct Hruns as (e & pos & ->); reflexivity].
  (* the base is written at index 0; the declarator is parsed to the end of the input and decodes over it *)
  rewrite parse_from_S', start_tok_T, Hruns, (write_ds_ok osz input) by (cbn; lia).
  cbn [bind app List.length]. change (Z.of_nat 0) with 0%Z.
  pose proof (K_end pre d) as Hend. fold toks in Hend.
  destruct (sequel_run osz (ctx_of g) g input toks L Hgl d Hd f1 (List.length pre) [op] 0%Z (At_declarator pre d))
    as (o' & idx & Hrun & Hlo & Hpre & Hsem);
    [rewrite Hend; left; reflexivity | cbn [List.length]; lia | lia |].
  rewrite Hrun. cbn [bind]. rewrite (kind_T _ _ L), Hend. cbn [kind_eqb negb t_out T with_out option_map snd]. unfold realize.
  rewrite (Hsem o' (fun j _ => eq_refl) m 1); [reflexivity | | unfold realize_fuel; lia].
  apply (Hdec op m eq_refl). rewrite Hpre by (cbn; lia). reflexivity.
Qed.

(* specifier keywords as a base: what c_spec_abs says, which is what py_spec_abs says *)
Lemma specs_run osz g q1 ws d : ws <> [] -> sign_ok ws = true -> sdecl (g_globals g) d -> 1 <= osz ->
  base_runs osz g (spec_toks q1 ws) d (option_map (fun p => (OP OP_PRIMITIVE p, prim_mty p)) (py_spec_abs ws)).
Proof.
  intros Hne Hsign Hd Hosz input f L Hf. set (toks := spec_toks q1 ws ++ sdecl_toks d) in *.
  assert (Hns : List.length (spec_toks q1 ws) = List.length q1 + List.length ws).
  { unfold spec_toks. rewrite app_length, !map_length. reflexivity. }
  rewrite Hns in *.
  assert (Hkat : Kat toks 0 (map qkind q1 ++ map wkind ws)).
  { replace (map qkind q1 ++ map wkind ws) with (map fst (spec_toks q1 ws))
      by (unfold spec_toks; rewrite map_app, !map_map; reflexivity).
    apply At_kinds. intros j Hj. apply nth_error_app1. exact Hj. }
  pose proof (declarator_follower g input (spec_toks q1 ws) d L Hd) as Hfol. rewrite Hns in Hfol.
  pose proof (parse_complete_specs osz (ctx_of g) input toks L q1 ws f 0 [] Hkat Hne Hfol ltac:(lia)) as Hspec.
  pose proof (spec_agree ws Hne Hsign) as Hagree. unfold c_spec_abs in Hagree.
  destruct (c_spec_run ws) as [[op n]|].
  2:{ destruct (py_spec_abs ws); [discriminate|]. cbn [option_map]. rewrite parse_from_S', start_tok_T.
      apply is_err_Err, is_err_bind, Hspec. }
  destruct Hspec as [Hn Hspec]. cbn [Nat.add] in Hspec.
  destruct (Nat.eqb_spec n (List.length ws)) as [->|En]; destruct (py_spec_abs ws) as [p|]; try discriminate;
    cbn [option_map] in *.
  - injection Hagree as ->. exact Hspec.
  - (* a specifier keyword is left over: "unexpected symbol" *)
    apply Kat_app in Hkat as [_ Hw]. rewrite map_length in Hw.
    pose proof (K_word toks ws _ n Hw Hfol Hn) as Hk. pose proof (skipn_length n ws) as Hl.
    destruct (skipn n ws) as [|w r]; [cbn in Hl; lia|]. cbn [Nat.add] in Hk.
    rewrite parse_from_S', start_tok_T, Hspec.
    rewrite (write_ds_ok osz input) by (cbn; lia). cbn [bind app List.length].
    destruct f as [|[|f2]]; try lia.
    rewrite (sequel_stuck osz (ctx_of g) input toks L f2 _ _ _ _ Hk). cbn [bind].
    rewrite (kind_T _ _ L), Hk.
    replace (negb (kind_eqb (wkind w) KEnd)) with true by (destruct w as [[]|[]|]; reflexivity).
    eexists. eexists. reflexivity.
Qed.

Definition simple_te (q1 : list qual) (ws : list word) (d : decl) : tyexpr :=
  TE (map SQ q1 ++ map stok_of_word ws) d.

Theorem agree_partial : forall (g : genv) (osz : nat) q1 ws d wtoks trailing,
  ws <> [] -> sign_ok ws = true -> table_ok (map fst (g_globals g)) -> sdecl (g_globals g) d ->
  map snd wtoks = te_tokens (simple_te q1 ws d) ->
  sep_ok [] wtoks = true -> is_ws trailing = true ->
  S (nops d) <= osz -> cost d < 999 ->
  c_typeof osz g (spell wtoks trailing) = denote g (simple_te q1 ws d).
Proof.
  intros g osz q1 ws d wtoks trailing Hne Hsign Hgl Hd Htok Hsep Htr Hroom Hdepth.
  apply (agree_base g osz _ (spec_toks q1 ws) (option_map (fun p => (OP OP_PRIMITIVE p, prim_mty p)) (py_spec_abs ws))
           d wtoks trailing); try assumption; [| apply spec_tokens | | | apply specs_run; [assumption .. | lia]].
  - apply Forall_app; split; apply Forall_map, Forall_forall; intros x _; [apply qual_lexeme | apply word_lexeme].
  - rewrite filter_specs, denote_base_words by exact Hne. destruct (py_spec_abs ws); reflexivity.
  - intros op m E out Ho. destruct (py_spec_abs ws) as [p|]; [|discriminate]. injection E as <- <-.
    change 0%Z with (Z.of_nat 0). apply dec_prim. exact Ho.
Qed.
