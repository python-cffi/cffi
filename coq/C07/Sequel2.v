(* C07 — the whole of parse_sequel on a simple declarator (sequel_run): the state it ends in, and
   that the opcodes written decode to the declarator applied to the outer type.  The hole *p_current
   is followed through the loops after the header under one invariant (hole_ok, over HoleSem): the
   loop over '(' leaves the hole of the declarator without header and arrays (parens_phase), the loop
   over '[' moves it into each array in turn (brackets_hole), and pointing it at the last '*' of the
   header closes it (hole_close).  sequel_shape puts the phases together for every shape a simple
   declarator has. *)
From Coq Require Import List Arith NArith ZArith Lia Bool String.
Import ListNotations.
From Cffi Require Import C25.Model C07.Model C07.Realize C07.PyModel C07.Lexer C07.Tokens C07.Tables C07.Specs C07.Parse
     C07.Sequel C07.NoFault C07.NoFault2 C07.NoFault3.

Local Open Scope nat_scope.

(* the decode steps a declarator adds on the way from its entry point to the base type: one for
   each '*', array, function and group *)
Fixpoint cost (d : decl) : nat :=
  match d with
  | D hdr _ group _ arrays =>
    nstars hdr + List.length arrays + match group with Some (_, d') => S (cost d') | None => 0 end
    + match d with D _ _ _ funcs _ => List.length funcs end
  end.

Definition ntoks (d : decl) : nat := List.length (sdecl_toks d).

Definition open_toks (abi : option bool) : kinds_texts :=
  (KChar c_lpar, [c_lpar]) :: match abi with Some a => [(hkind (HAbi a), sp_abi a)] | None => [] end.

Definition group_toks (group : option (option bool * decl)) : kinds_texts :=
  match group with
  | Some (abi, d') => open_toks abi ++ sdecl_toks d' ++ [(KChar c_rpar, [c_rpar])]
  | None => []
  end.

Lemma group_toks_length abi d' :
  List.length (group_toks (Some (abi, d'))) = List.length (open_toks abi) + ntoks d' + 1 /\
  1 <= List.length (open_toks abi).
Proof. unfold group_toks, ntoks. rewrite !app_length. destruct abi; cbn [open_toks List.length]; lia. Qed.

Definition opt_fn (fn : option bool) : list fsuffix := match fn with Some v => [F [] v false] | None => [] end.

Lemma sdecl_toks_shape hdr n group funcs arrays :
  sdecl_toks (D hdr n group funcs arrays) =
  map (fun h => (hkind h, hitem_token h)) hdr ++ group_toks group ++ List.concat (map fs_toks funcs)
  ++ List.concat (map alen_toks arrays).
Proof. destruct group as [[[a|] d']|]; reflexivity. Qed.

Section Shape.
Variable gl : list (str * gkind).

(* what may stand between the header and the arrays: nothing; a group; a group and an empty parameter list
   (which is what uses up a calling convention given in the group) *)
Definition mid_shape (group : option (option bool * decl)) (fn : option bool) : Prop :=
  match group with
  | Some (abi, d') => sdecl gl d' /\ starts_star d' = true /\ (fn = None -> abi = None)
  | None => fn = None
  end.

(* The three constructors of sdecl are one shape, D hdr None group (opt_fn fn) arrays with mid_shape group fn,
   whose tokens are one concatenation (sdecl_toks_shape). A proof about simple declarators takes this one case
   and goes by the parts: header, group (its declarator by the induction hypothesis), parameter list, arrays. *)
Lemma sdecl_shape_ind (P : decl -> Prop) :
  (forall hdr group fn arrays,
     forallb hitem_plain hdr = true -> Forall (fun a => alen_val gl a <> None) arrays -> mid_shape group fn ->
     (forall abi d', group = Some (abi, d') -> P d') ->
     P (D hdr None group (opt_fn fn) arrays)) ->
  forall d, sdecl gl d -> P d.
Proof.
  intros H. induction 1 as [hdr arrays Hh Ha | hdr arrays d' Hh Ha Hd' IH Hst | hdr d' abi void Hh Hd' IH Hst].
  - apply (H hdr None None arrays Hh Ha eq_refl). discriminate.
  - apply (H hdr (Some (None, d')) None arrays Hh Ha); [repeat split; auto|].
    intros abi d0 [= <- <-]. exact IH.
  - apply (H hdr (Some (abi, d')) (Some void) [] Hh (Forall_nil _)); [repeat split; auto; discriminate|].
    intros abi0 d0 [= <- <-]. exact IH.
Qed.

(* a simple declarator begins with '*', a qualifier, '(' or '[' *)
Lemma sdecl_first d : sdecl gl d -> match sdecl_toks d with (k, _) :: _ => follower k | [] => True end.
Proof.
  revert d. apply sdecl_shape_ind. intros hdr group fn arrays Hh _ Hmid _. rewrite sdecl_toks_shape.
  destruct hdr as [|[|[]|] hdr]; try discriminate Hh; cbn [map app hkind qkind fst]; unfold follower; eauto.
  destruct group as [[abi d']|]; [cbn; eauto|]. cbn in Hmid. subst fn.
  destruct arrays as [|[] arrays]; cbn; eauto.
Qed.

End Shape.

(* get_following_char sees ')' exactly when the next token is ')': both skip the same white space,
   and the lexer makes a token of kind ')' only of that character *)
Lemma first_nonspace_lex : forall s k n kd, lex_from s = (k, n, kd) ->
  N.eqb (first_nonspace s) c_rpar = kind_eqb kd (KChar c_rpar).
Proof.
  intros s k n kd H. destruct (lex_from_props _ _ _ _ H) as (-> & T & P).
  rewrite first_nonspace_span. exact (head_rpar _ _ _ T P).
Qed.

Lemma following_rpar t :
  N.eqb (following_char t) c_rpar = kind_eqb (t_kind (next_token t)) (KChar c_rpar).
Proof.
  unfold following_char, next_token.
  destruct (lex_from (skipn (t_size t) (t_rest t))) as [[k n] kd] eqn:E. cbn [t_kind].
  exact (first_nonspace_lex _ _ _ _ E).
Qed.

Lemma commas_at_rpar t : wf t -> t_kind t = KChar c_rpar -> number_of_commas t = 0.
Proof.
  intros Hwf Hk. unfold number_of_commas. rewrite (scan_next t Hwf), Hk. reflexivity.
Qed.

Lemma wf_T input i o : wf (T input i o).
Proof. unfold T. apply wf_with_out. unfold st. cbn [Nat.iter]. apply wf_next. Qed.

Section Sem.
Variable g : genv.
Variable gl : list (str * gkind).

(* the hole *p_current: whatever index it is finally pointed to, the entry point decodes to W of it,
   c decode steps deeper, in any buffer that agrees with this one from index lo on *)
Definition HoleSem (lo : nat) (o : list Z) (pc : pcur) (result : Z) (W : mty -> mty) (c : nat) : Prop :=
  forall target out'',
    agree out'' (fst (retarget_pure o pc result target)) lo (List.length o) ->
    forall m n, decodes g n out'' target m ->
                decodes g (n + c) out'' (GETARG (snd (retarget_pure o pc result target))) (W m).

Lemma HoleSem_init lo o : HoleSem lo o PRes 0%Z (fun m => m) 0.
Proof.
  intros target out'' _ m n H. cbn [retarget_pure snd].
  rewrite GETARG_OP by (cbv; split; [discriminate | reflexivity]).
  rewrite Nat.add_0_r. exact H.
Qed.

(* the hole is pointed at a new entry OP op _ :: tl appended to the buffer, and becomes that entry's own
   argument: whatever such an entry decodes to (V of its argument's type) goes inside W *)
Lemma HoleSem_push lo o pc result W c op tl V :
  HoleSem lo o pc result W c -> lo <= List.length o -> (0 <= op < 256)%Z ->
  (forall out'' target m n, nth_error out'' (List.length o) = Some (OP op target) ->
     (forall k, k < List.length tl -> nth_error out'' (S (List.length o) + k) = nth_error tl k) ->
     decodes g n out'' target m -> decodes g (S n) out'' (Z.of_nat (List.length o)) (V m)) ->
  let oi := Z.of_nat (List.length o) in
  let o2 := fst (retarget_pure o pc result oi) ++ OP op 0 :: tl in
  HoleSem lo o2 (POut oi) (snd (retarget_pure o pc result oi)) (fun m => W (V m)) (S c).
Proof.
  intros HS Hlo Hop Hnew oi o2 target out'' Hag m n Hm. subst oi.
  assert (Hl1 : List.length (fst (retarget_pure o pc result (Z.of_nat (List.length o)))) = List.length o)
    by apply retarget_pure_length.
  assert (Hl2 : List.length o2 = S (List.length o + List.length tl)).
  { unfold o2. rewrite app_length, Hl1. cbn [List.length]. lia. }
  cbn [retarget_pure fst snd] in Hag |- *. rewrite Nat2Z.id in Hag.
  replace (n + S c) with (S n + c) by lia.
  apply (HS (Z.of_nat (List.length o)) out'').
  - intros j Hj. rewrite (Hag j) by lia. rewrite set_nth_other by lia. unfold o2. apply nth_error_app1. lia.
  - apply (Hnew out'' target m n); [| |exact Hm].
    + rewrite (Hag (List.length o)) by lia. rewrite set_nth_same by lia.
      unfold o2. rewrite app_nth2, Hl1, Nat.sub_diag by lia. cbn [nth]. rewrite GETOP_OP by exact Hop. reflexivity.
    + intros k Hk. rewrite (Hag (S (List.length o) + k)) by lia. rewrite set_nth_other by lia.
      unfold o2. rewrite nth_error_app2 by lia. rewrite Hl1.
      replace (S (List.length o) + k - List.length o) with (S k) by lia. reflexivity.
Qed.

Lemma HoleSem_array lo o pc result W c a :
  HoleSem lo o pc result W c -> lo <= List.length o ->
  let oi := Z.of_nat (List.length o) in
  let o1 := fst (retarget_pure o pc result oi) in
  let r1 := snd (retarget_pure o pc result oi) in
  let o2 := o1 ++ match lenval gl a with Some n => [OP OP_ARRAY 0; n] | None => [OP OP_OPEN_ARRAY 0] end in
  HoleSem lo o2 (POut oi) r1 (fun m => W (MArr m (lenval gl a))) (S c).
Proof.
  intros HS Hlo. destruct (lenval gl a) as [len|].
  - apply (HoleSem_push lo o pc result W c OP_ARRAY [len] (fun m => MArr m (Some len)) HS Hlo);
      [cbv; split; [discriminate | reflexivity]|].
    intros out'' target m n H0 Htl Hm. eapply dec_arr; [exact H0 | | exact Hm].
    specialize (Htl 0 (le_n 1)). rewrite Nat.add_0_r in Htl. exact Htl.
  - apply (HoleSem_push lo o pc result W c OP_OPEN_ARRAY [] (fun m => MArr m None) HS Hlo);
      [cbv; split; [discriminate | reflexivity]|].
    intros out'' target m n H0 _ Hm. eapply dec_open; [exact H0 | exact Hm].
Qed.

Lemma HoleSem_func0 lo o pc result W c flags :
  HoleSem lo o pc result W c -> lo <= List.length o -> (flags = 0 \/ flags = 2)%Z ->
  let oi := Z.of_nat (List.length o) in
  let o1 := fst (retarget_pure o pc result oi) in
  let r1 := snd (retarget_pure o pc result oi) in
  let o2 := o1 ++ [OP OP_FUNCTION 0; OP OP_FUNCTION_END flags; OP 0 0] in
  HoleSem lo o2 (POut oi) r1 (fun m => W (MFun m [] false)) (S c).
Proof.
  intros HS Hlo Hfl.
  apply (HoleSem_push lo o pc result W c OP_FUNCTION [OP OP_FUNCTION_END flags; OP 0 0] (fun m => MFun m [] false) HS Hlo);
    [cbv; split; [discriminate | reflexivity]|].
  intros out'' target m n H0 Htl Hm. eapply dec_func0; [exact H0 | | exact Hfl | exact Hm].
  specialize (Htl 0 (le_S _ _ (le_n 1))). rewrite Nat.add_0_r in Htl. exact Htl.
Qed.

(* the hole once the header has written o1: the buffer keeps o1, and the hole's slot lies beyond it *)
Definition hole_ok (o1 og : list Z) (lo : nat) (pc : pcur) (r : Z) (W : mty -> mty) (c : nat) : Prop :=
  HoleSem lo og pc r W c /\ lo <= List.length o1 <= List.length og /\
  (forall j, j < List.length o1 -> nth_error og j = nth_error o1 j) /\
  match pc with PRes => True | POut x => (Z.of_nat (List.length o1) <= x < Z.of_nat (List.length og))%Z end.

Lemma hole_ok_init o1 lo : lo <= List.length o1 -> hole_ok o1 o1 lo PRes 0%Z (fun m => m) 0.
Proof. intros H. split; [apply HoleSem_init|]. split; [lia|]. split; [reflexivity | exact I]. Qed.

Lemma hole_pc_ok o1 og lo pc r W c : hole_ok o1 og lo pc r W c -> pc_ok og pc.
Proof. intros (_ & _ & _ & H). destruct pc; [exact I | cbn; lia]. Qed.

(* the hole is pointed at new entries ext appended to the buffer and moves into them *)
Lemma hole_ok_grow o1 og lo pc r W c ext W' c' :
  hole_ok o1 og lo pc r W c -> ext <> [] ->
  let oi := Z.of_nat (List.length og) in
  HoleSem lo (fst (retarget_pure og pc r oi) ++ ext) (POut oi) (snd (retarget_pure og pc r oi)) W' c' ->
  hole_ok o1 (fst (retarget_pure og pc r oi) ++ ext) lo (POut oi) (snd (retarget_pure og pc r oi)) W' c'.
Proof.
  intros (_ & Hl & Hpre & Hpos) Hext oi HS.
  pose proof (retarget_pure_length og pc r oi) as Hl1.
  assert (Hle : 1 <= List.length ext) by (destruct ext; [congruence | cbn; lia]).
  split; [exact HS|]. split; [rewrite app_length, Hl1; lia|]. split.
  - intros j Hj. rewrite nth_error_app1 by lia. rewrite <- Hpre by exact Hj.
    destruct pc as [|x]; cbn [retarget_pure fst]; [reflexivity | apply set_nth_other; lia].
  - rewrite app_length, Hl1. unfold oi. lia.
Qed.

Lemma HoleSem_group lo og x x' W' c' :
  lo <= x -> x < List.length og -> nth_error og x = Some (OP OP_NOOP 0) ->
  (forall out'', agree out'' og (S x) (List.length og) ->
     forall m n, decodes g n out'' (Z.of_nat x) m -> decodes g (n + c') out'' x' (W' m)) ->
  HoleSem lo og (POut (Z.of_nat x)) (OP (GETOP 0) x') W' (S c').
Proof.
  intros Hlo Hx Hnoop Hin target out'' Hag m n Hm.
  cbn [retarget_pure fst snd] in *. rewrite Nat2Z.id in *.
  change (GETOP 0) with 0%Z. rewrite GETARG_OP by (cbv; split; [discriminate | reflexivity]).
  replace (n + S c') with (S n + c') by lia.
  apply Hin.
  - intros j Hj. rewrite Hag by lia. apply set_nth_other. lia.
  - eapply dec_noop; [|exact Hm].
    rewrite Hag by lia. rewrite set_nth_same by exact Hx.
    rewrite (nth_error_nth _ _ 0%Z Hnoop).
    rewrite GETOP_OP by (cbv; split; [discriminate | reflexivity]). reflexivity.
Qed.

Lemma hole_close : forall hdr o outer o1 outer1 of pcf rf W c,
  hdr_ok g hdr o outer o1 outer1 -> hole_ok o1 of (List.length o) pcf rf W c ->
  let final := fst (retarget_pure of pcf rf outer1) in
  let idx := GETARG (snd (retarget_pure of pcf rf outer1)) in
  (forall j, j < List.length o -> nth_error final j = nth_error o j) /\
  (forall out'', agree out'' final (List.length o) (List.length final) ->
     forall m n, decodes g n out'' outer m ->
                 decodes g (n + (nstars hdr + c)) out'' idx (W (wrap_ptrs (nstars hdr) m))).
Proof.
  intros hdr o outer o1 outer1 of pcf rf W c (Hl1 & [ext Ep] & Hdec) (HS & Hle & Hpres & Hpc) final idx.
  assert (Hfin : forall j, j < List.length o1 -> nth_error final j = nth_error o1 j).
  { intros j Hj. rewrite <- Hpres by exact Hj. unfold final.
    destruct pcf as [|x]; cbn [retarget_pure fst]; [reflexivity | apply set_nth_other; lia]. }
  assert (Hlf : List.length final = List.length of) by apply retarget_pure_length.
  split.
  - intros j Hj. rewrite Hfin by lia. rewrite Ep. apply nth_error_app1. exact Hj.
  - intros out'' Hag m n Hm.
    replace (n + (nstars hdr + c)) with ((n + nstars hdr) + c) by lia.
    apply HS.
    + fold final. rewrite <- Hlf. exact Hag.
    + apply Hdec; [|exact Hm]. intros j Hj. rewrite Hag by lia. apply Hfin. lia.
Qed.

End Sem.

Section Run2.
Variable osz : nat.
Variable cx : ctx.
Variable g : genv.
Variable input : str.
Variable toks : kinds_texts.
Hypothesis L : lexed input toks.
Notation gl := (c_globals cx).
Hypothesis Hgl : table_ok (map fst gl).

Notation T := (T input).
Notation K := (K toks).
Notation At := (At toks).

(* what ends a declarator: the end of the input, or the ')' of the group it stands in *)
Definition final_stop (k : kind) : Prop := k = KEnd \/ k = KChar c_rpar.

Lemma parens_stop f t pc result abi cfg : is_ch t c_lpar = false ->
  parens osz cx (S f) t pc result abi cfg = Ok (t, pc, result, abi).
Proof. intros H. rewrite parens_S, H. reflexivity. Qed.

Lemma stopper_not_ident k : stopper k -> forall A (x y : A), match k with KIdent => x | _ => y end = y.
Proof. intros [->|[->|[->| ->]]] A x y; reflexivity. Qed.

Lemma sequel_header hdr f i o outer :
  At i (map (fun h => (hkind h, hitem_token h)) hdr) -> forallb hitem_plain hdr = true ->
  stopper (K (i + List.length hdr)) -> List.length o + nstars hdr <= osz -> List.length hdr < f ->
  exists o1 outer1, hdr_ok g hdr o outer o1 outer1 /\
  parse_sequel osz cx (S f) (T i o) outer =
  bind (parens osz cx f (T (i + List.length hdr) o1) PRes 0%Z None 1%Z)
    (fun '(t3, pc, result, abi3) =>
      if match abi3 with Some _ => true | None => false end then parse_error t3 E_lparen
      else bind (brackets osz cx f t3 pc result) (fun '(t4, pc4, result4) =>
             bind (retarget t4 pc4 result4 outer1) (fun '(t5, result5) =>
               Ok (t5, GETARG result5)))).
Proof.
  intros Hat Hp Hs Hroom Hf. apply At_kinds in Hat. rewrite map_map in Hat.
  destruct (header_run osz g input toks L hdr f i o outer None Hat Hp Hs Hroom Hf) as (o1 & outer1 & Hrun & Hok).
  exists o1, outer1. split; [exact Hok|].
  rewrite parse_sequel_S', Hrun. cbn [bind]. rewrite (kind_T _ _ L), stopper_not_ident by exact Hs. reflexivity.
Qed.

Definition abi_kw (a : bool) : kw := if a then K_stdcall else K_cdecl.

Lemma At_layout i hdr n group funcs arrays : At i (sdecl_toks (D hdr n group funcs arrays)) ->
  At i (map (fun h => (hkind h, hitem_token h)) hdr) /\
  At (i + List.length hdr) (group_toks group) /\
  At (i + List.length hdr + List.length (group_toks group)) (List.concat (map fs_toks funcs)) /\
  At (i + List.length hdr + List.length (group_toks group) + List.length (List.concat (map fs_toks funcs)))
     (List.concat (map alen_toks arrays)) /\
  i + ntoks (D hdr n group funcs arrays) =
  i + List.length hdr + List.length (group_toks group) + List.length (List.concat (map fs_toks funcs))
  + List.length (List.concat (map alen_toks arrays)).
Proof.
  intros Hat. unfold ntoks. rewrite sdecl_toks_shape in *. rewrite !app_length, map_length.
  apply At_app in Hat as [H1 Hat]. rewrite map_length in Hat.
  apply At_app in Hat as [H2 Hat]. apply At_app in Hat as [H3 H4].
  repeat split; try assumption. lia.
Qed.

Lemma parens_group f i o abi :
  Kat toks i (map fst (open_toks abi)) -> K (i + List.length (open_toks abi)) = KChar c_star ->
  parens osz cx (S f) (T i o) PRes 0%Z None 1%Z =
  bind (bind (write_ds osz (T (i + List.length (open_toks abi)) o) (OP OP_NOOP 0)) (fun '(t3, _) =>
          bind (parse_sequel osz cx f t3 (Z.of_nat (List.length o))) (fun '(t4, x') =>
            Ok (t4, POut (Z.of_nat (List.length o)), OP (GETOP 0) x', option_map abi_kw abi))))
       (fun '(t9, pc9, result9, abi9) =>
          if negb (is_ch t9 c_rpar) then parse_error t9 E_rparen
          else parens osz cx f (next_token t9) pc9 result9 abi9 (1 - 1)%Z).
Proof.
  intros Hk Hstar. cbn [open_toks map fst] in Hk. apply Kat_cons in Hk as [H0 Hk].
  rewrite parens_S. unfold is_ch at 1. rewrite (kind_T _ _ L), H0. cbn [kind_eqb]. rewrite N.eqb_refl, T_next.
  assert (Ea : abi_step (T (S i) o) None = (T (i + List.length (open_toks abi)) o, option_map abi_kw abi)).
  { unfold abi_step. rewrite (kind_T _ _ L). destruct abi as [a|]; cbn [open_toks List.length option_map map fst] in *.
    - apply Kat_cons in Hk as [H1 _]. cbn [hkind] in H1. rewrite H1, T_next.
      replace (i + 2) with (S (S i)) by lia. destruct a; reflexivity.
    - replace (i + 1) with (S i) in * by lia. rewrite Hstar. reflexivity. }
  rewrite Ea. unfold is_grouping, is_ch at 1. rewrite (kind_T _ _ L), Hstar. reflexivity.
Qed.

Lemma parens_group_abi f i o a :
  K i = KChar c_lpar -> K (S i) = KKw (abi_kw a) -> K (S (S i)) = KChar c_star ->
  parens osz cx (S f) (T i o) PRes 0%Z None 1%Z =
  bind (bind (write_ds osz (T (S (S i)) o) (OP OP_NOOP 0)) (fun '(t3, _) =>
          bind (parse_sequel osz cx f t3 (Z.of_nat (List.length o))) (fun '(t4, x') =>
            Ok (t4, POut (Z.of_nat (List.length o)), OP (GETOP 0) x', Some (abi_kw a)))))
       (fun '(t9, pc9, result9, abi9) =>
          if negb (is_ch t9 c_rpar) then parse_error t9 E_rparen
          else parens osz cx f (next_token t9) pc9 result9 abi9 (1 - 1)%Z).
Proof.
  intros H0 H1 H2. replace (S (S i)) with (i + 2) in * by lia.
  apply (parens_group f i o (Some a)); [|exact H2].
  intros [|[|j]] Hj; [rewrite Nat.add_0_r; exact H0 | rewrite Nat.add_1_r; destruct a; exact H1 | cbn in Hj; lia].
Qed.

Lemma set_nth_app_mid : forall (a : list Z) x y z v, set_nth (a ++ [x; y; z]) (S (List.length a)) v = a ++ [x; v; z].
Proof. induction a as [|h a IH]; intros; cbn; [reflexivity|]. f_equal. apply IH. Qed.

(* a parameter list "( )" or "( void )", entered at j0 behind the "(": OP_FUNCTION, OP_FUNCTION_END and one
   spare slot; it is left standing on the ")" *)
Lemma paren_func_empty f j0 o pc result (abi : option kw) (void : bool) :
  (if void then K j0 = KKw K_void /\ K (S j0) = KChar c_rpar else K j0 = KChar c_rpar) ->
  pc_ok o pc -> List.length o + 3 <= osz ->
  let flags := match abi with Some K_stdcall => 2%Z | _ => 0%Z end in
  paren_func osz cx f (T j0 o) pc result abi =
  Ok (T (if void then S j0 else j0)
        (fst (retarget_pure o pc result (Z.of_nat (List.length o)))
           ++ [OP OP_FUNCTION 0; OP OP_FUNCTION_END flags; OP 0 0]),
      POut (Z.of_nat (List.length o)), snd (retarget_pure o pc result (Z.of_nat (List.length o))), None).
Proof.
  intros Hv Hpc Hroom flags. unfold paren_func. cbv zeta. fold flags.
  pose proof (retarget_pure_length o pc result (Z.of_nat (List.length o))) as Hl1.
  set (o1 := fst (retarget_pure o pc result (Z.of_nat (List.length o)))) in *.
  set (r1 := snd (retarget_pure o pc result (Z.of_nat (List.length o)))) in *.
  set (j := if void then S j0 else j0).
  assert (Hj : K j = KChar c_rpar) by (destruct void; [apply Hv | exact Hv]).
  assert (Ev : (if (is_kw (T j0 o) K_void && N.eqb (following_char (T j0 o)) c_rpar)%bool
                then next_token (T j0 o) else T j0 o) = T j o).
  { unfold is_kw. rewrite following_rpar, T_next, !(kind_T _ _ L). unfold j.
    destruct void; [destruct Hv as [-> ->] | rewrite Hv]; reflexivity. }
  rewrite Ev, commas_at_rpar by (try apply wf_T; rewrite (kind_T _ _ L); exact Hj).
  rewrite T_out, retarget_ok by exact Hpc. fold o1 r1. cbn [bind].
  rewrite (write_ds_ok osz input) by lia. cbn [bind reserve].
  rewrite (write_ds_ok osz input) by (rewrite app_length; cbn; lia). cbn [bind].
  rewrite (write_ds_ok osz input) by (rewrite !app_length; cbn; lia). cbn [bind].
  unfold is_ch. rewrite (kind_T _ _ L), Hj. cbn [kind_eqb]. rewrite N.eqb_refl. cbn [negb bind].
  unfold set_out. rewrite idx_in by (unfold len; rewrite T_out, !app_length; cbn [List.length]; lia).
  rewrite T_out, T_with_out. cbn [bind].
  replace (Z.to_nat (Z.of_nat (List.length o1) + 1)) with (S (List.length o1)) by lia.
  rewrite <- !app_assoc. cbn [app]. rewrite set_nth_app_mid. reflexivity.
Qed.

Lemma parens_func0 f i o pc result (abi : option kw) cfg (void : bool) :
  K i = KChar c_lpar ->
  (if void then K (S i) = KKw K_void /\ K (S (S i)) = KChar c_rpar else K (S i) = KChar c_rpar) ->
  pc_ok o pc -> List.length o + 3 <= osz ->
  let flags := match abi with Some K_stdcall => 2%Z | _ => 0%Z end in
  parens osz cx (S f) (T i o) pc result abi cfg =
  parens osz cx f (T ((if void then 3 else 2) + i)
                     (fst (retarget_pure o pc result (Z.of_nat (List.length o)))
                        ++ [OP OP_FUNCTION 0; OP OP_FUNCTION_END flags; OP 0 0]))
         (POut (Z.of_nat (List.length o))) (snd (retarget_pure o pc result (Z.of_nat (List.length o))))
         None (cfg - 1).
Proof.
  intros H0 Hv Hpc Hroom flags. rewrite parens_S. unfold is_ch at 1. rewrite (kind_T _ _ L), H0. cbn [kind_eqb].
  rewrite N.eqb_refl, T_next.
  (* neither a calling convention nor the start of a declarator follows the "(" *)
  assert (E1 : exists k, K (S i) = k /\ (k = KKw K_void \/ k = KChar c_rpar))
    by (destruct void; [destruct Hv as [-> _] | rewrite Hv]; eauto).
  destruct E1 as (k & E1 & Hk).
  assert (Ea : abi_step (T (S i) o) abi = (T (S i) o, abi))
    by (unfold abi_step; rewrite (kind_T _ _ L), E1; destruct Hk as [-> | ->]; reflexivity).
  assert (Eg : is_grouping cfg (T (S i) o) = false)
    by (unfold is_grouping, is_ch, is_kw; rewrite (kind_T _ _ L), E1; destruct Hk as [-> | ->]; apply andb_false_r).
  rewrite Ea, Eg, (paren_func_empty f (S i) o pc result abi void Hv Hpc Hroom). cbn [bind paren_close].
  unfold is_ch. rewrite (kind_T _ _ L).
  replace (K (if void then S (S i) else S i)) with (KChar c_rpar) by (destruct void; symmetry; apply Hv).
  cbn [kind_eqb]. rewrite N.eqb_refl, T_next. destruct void; reflexivity.
Qed.

Lemma sdecl_first_star d : sdecl gl d -> starts_star d = true ->
  exists rest, sdecl_toks d = (KChar c_star, [c_star]) :: rest.
Proof.
  intros Hd. destruct Hd using sdecl_shape_ind. rewrite sdecl_toks_shape.
  destruct hdr as [|[] hdr]; try discriminate. eexists. reflexivity.
Qed.

(* what sequel_run proves of every simple declarator; sequel_shape, group_run and parens_phase assume it of the inner one *)
Definition sequel_spec (d : decl) : Prop := forall f i o outer,
  At i (sdecl_toks d) -> final_stop (K (i + ntoks d)) ->
  List.length o + nops d <= osz -> ntoks d + 1 < f ->
  exists o' idx,
    parse_sequel osz cx f (T i o) outer = Ok (T (i + ntoks d) o', idx) /\
    List.length o' = List.length o + nops d /\
    (forall j, j < List.length o -> nth_error o' j = nth_error o j) /\
    (forall out'', agree out'' o' (List.length o) (List.length o') ->
       forall m n, decodes g n out'' outer m -> decodes g (n + cost d) out'' idx (apply_decl gl d m)).

(* "( d' )": a OP_NOOP slot, the inner declarator with that slot as its outer type, then the hole is the slot *)
Lemma group_run d' abi f p oh lo :
  sdecl gl d' -> sequel_spec d' -> starts_star d' = true ->
  At p (group_toks (Some (abi, d'))) -> lo <= List.length oh ->
  List.length oh + 1 + nops d' <= osz -> ntoks d' + 1 < f ->
  exists og x',
    parens osz cx (S f) (T p oh) PRes 0%Z None 1%Z =
    parens osz cx f (T (p + List.length (group_toks (Some (abi, d')))) og)
           (POut (Z.of_nat (List.length oh))) (OP (GETOP 0) x') (option_map abi_kw abi) (1 - 1)%Z /\
    List.length og = List.length oh + 1 + nops d' /\
    hole_ok g oh og lo (POut (Z.of_nat (List.length oh))) (OP (GETOP 0) x') (apply_decl gl d') (S (cost d')).
Proof.
  intros Hd' IH Hst Hat Hlo Hroom Hf. destruct (group_toks_length abi d') as [Hlen _]. rewrite Hlen.
  cbn [group_toks] in Hat. apply At_app in Hat as [Hopen Hat]. apply At_app in Hat as [Hin Hrp]. apply At_cons in Hrp as [Hrp _].
  set (p1 := p + List.length (open_toks abi)) in *. fold (ntoks d') in Hrp.
  apply At_K in Hrp. cbn [fst] in Hrp.
  destruct (sdecl_first_star d' Hd' Hst) as [rest Efirst].
  assert (Hstar : K p1 = KChar c_star).
  { rewrite Efirst in Hin. apply At_cons in Hin as [H0 _]. rewrite (At_K _ _ _ H0). reflexivity. }
  destruct (IH f p1 (oh ++ [OP OP_NOOP 0]) (Z.of_nat (List.length oh)) Hin)
    as (og & x' & Hrun & Hlg & Hpg & Hsg).
  { right. exact Hrp. }
  { rewrite app_length. cbn [List.length]. lia. }
  { exact Hf. }
  rewrite app_length in Hlg, Hpg, Hsg. cbn [List.length] in Hlg, Hpg, Hsg.
  assert (Hpre : forall j, j < List.length oh -> nth_error og j = nth_error oh j)
    by (intros j Hj; rewrite Hpg by lia; apply nth_error_app1; exact Hj).
  exists og, x'. split; [|split; [lia|split; [|split; [lia | split; [exact Hpre | lia]]]]].
  - rewrite (parens_group f p oh abi (At_kinds _ _ _ Hopen) Hstar). fold p1.
    rewrite (write_ds_ok osz input) by lia. cbn [bind]. rewrite Hrun. cbn [bind].
    unfold is_ch at 1. rewrite (kind_T _ _ L), Hrp. cbn [kind_eqb]. rewrite N.eqb_refl. cbn [negb].
    rewrite T_next. replace (S (p1 + ntoks d')) with (p + (List.length (open_toks abi) + ntoks d' + 1)) by (subst p1; lia).
    reflexivity.
  - apply HoleSem_group; [exact Hlo | lia | |].
    + rewrite Hpg by lia. rewrite nth_error_app2, Nat.sub_diag by lia. reflexivity.
    + intros out'' Hag m n Hm. apply Hsg; [|exact Hm].
      replace (List.length oh + 1) with (S (List.length oh)) by lia. exact Hag.
Qed.

Lemma func0_run f q o1 og pc result (abi : option bool) cfg void lo W c :
  At q (fs_toks (F [] void false)) -> List.length og + 3 <= osz -> hole_ok g o1 og lo pc result W c ->
  exists of r1,
    parens osz cx (S f) (T q og) pc result (option_map abi_kw abi) cfg =
    parens osz cx f (T (q + List.length (fs_toks (F [] void false))) of)
           (POut (Z.of_nat (List.length og))) r1 None (cfg - 1) /\
    List.length of = List.length og + 3 /\
    hole_ok g o1 of lo (POut (Z.of_nat (List.length og))) r1 (fun m => W (MFun m [] false)) (S c).
Proof.
  intros Hat Hroom Hok.
  set (flags := match option_map abi_kw abi with Some K_stdcall => 2%Z | _ => 0%Z end).
  exists (fst (retarget_pure og pc result (Z.of_nat (List.length og)))
            ++ [OP OP_FUNCTION 0; OP OP_FUNCTION_END flags; OP 0 0]),
         (snd (retarget_pure og pc result (Z.of_nat (List.length og)))).
  split; [|split].
  - apply At_cons in Hat as [H0 Hat]. apply At_K in H0.
    replace (q + List.length (fs_toks (F [] void false))) with ((if void then 3 else 2) + q)
      by (destruct void; cbn; lia).
    apply parens_func0; [exact H0 | | exact (hole_pc_ok g _ _ _ _ _ _ _ Hok) | exact Hroom].
    destruct void; cbn [app] in Hat; apply At_cons in Hat as [H1 Hat]; apply At_K in H1; [|exact H1].
    apply At_cons in Hat as [H2 _]. apply At_K in H2. split; assumption.
  - rewrite app_length, retarget_pure_length. reflexivity.
  - apply (hole_ok_grow g o1 og lo pc result W c _ _ _ Hok); [discriminate|].
    apply (HoleSem_func0 g lo og pc result W c flags (proj1 Hok)); [destruct Hok as (_ & ? & _); lia|].
    destruct abi as [[]|]; auto.
Qed.

(* the loop over '[': every "[...]" points the hole at a new array entry and moves it there *)
Lemma brackets_hole : forall arrs f q o1 og lo pc r W c,
  hole_ok g o1 og lo pc r W c -> At q (List.concat (map alen_toks arrs)) ->
  Forall (fun a => alen_val gl a <> None) arrs ->
  K (q + List.length (List.concat (map alen_toks arrs))) <> KChar c_lbr ->
  List.length og + list_sum (map arr_ops arrs) <= osz -> List.length arrs < f ->
  exists o' pc' r',
    brackets osz cx f (T q og) pc r = Ok (T (q + List.length (List.concat (map alen_toks arrs))) o', pc', r') /\
    List.length o' = List.length og + list_sum (map arr_ops arrs) /\
    hole_ok g o1 o' lo pc' r' (fun m => W (fold_right (fun a acc => MArr acc (lenval gl a)) m arrs)) (c + List.length arrs).
Proof.
  induction arrs as [|a arrs IH]; intros f q o1 og lo pc r W c Hok Hat Hv Hstop Hroom Hf;
    destruct f as [|f]; try (cbn in Hf; lia).
  - cbn [map List.concat List.length list_sum fold_right] in *. rewrite !Nat.add_0_r in *.
    exists og, pc, r. split; [|split; [reflexivity | exact Hok]].
    cbn [brackets]. unfold is_ch. rewrite (kind_T _ _ L).
    destruct (kind_eqb (K q) (KChar c_lbr)) eqn:E; [|reflexivity].
    exfalso. apply Hstop. destruct (K q) as [| | | | |c0|k]; try discriminate.
    cbn in E. apply N.eqb_eq in E. subst. reflexivity.
  - change (list_sum (map arr_ops (a :: arrs))) with (arr_ops a + list_sum (map arr_ops arrs)) in *.
    cbn [map List.concat] in Hat, Hstop |- *. apply At_app in Hat as [Ha Hat].
    inversion Hv as [|? ? Hva Hv']; subst.
    rewrite app_length, Nat.add_assoc in *. cbn [List.length fold_right] in *.
    rewrite (brackets_step osz cx input toks L Hgl a f q og pc r Ha Hva (hole_pc_ok g _ _ _ _ _ _ _ Hok)) by lia.
    pose proof (HoleSem_array g gl lo og pc r W c a (proj1 Hok) ltac:(destruct Hok as (_ & ? & _); lia)) as HS. cbv zeta in HS.
    apply (hole_ok_grow g o1 og lo pc r W c _ _ _ Hok) in HS; [|destruct (lenval gl a); discriminate].
    destruct (IH f _ _ _ _ _ _ _ _ HS Hat Hv' Hstop) as (o' & pc' & r' & Hrun & Hlen & Hok');
      rewrite ?app_length, ?retarget_pure_length, ?(array_ops_length cx a Hva); try lia.
    exists o', pc', r'. split; [exact Hrun|]. split; [|rewrite Nat.add_succ_r; exact Hok'].
    rewrite Hlen, app_length, retarget_pure_length, (array_ops_length cx a Hva). lia.
Qed.

Lemma sequel_finish hdr o outer o1 outer1 arrays f q og pcg rg W c :
  hdr_ok g hdr o outer o1 outer1 -> hole_ok g o1 og (List.length o) pcg rg W c ->
  At q (List.concat (map alen_toks arrays)) -> Forall (fun a => alen_val gl a <> None) arrays ->
  final_stop (K (q + List.length (List.concat (map alen_toks arrays)))) ->
  List.length og + list_sum (map arr_ops arrays) <= osz -> List.length arrays < f ->
  exists o' idx,
    bind (brackets osz cx f (T q og) pcg rg) (fun '(t4, pc4, result4) =>
      bind (retarget t4 pc4 result4 outer1) (fun '(t5, result5) =>
        Ok (t5, GETARG result5)))
    = Ok (T (q + List.length (List.concat (map alen_toks arrays))) o', idx) /\
    List.length o' = List.length og + list_sum (map arr_ops arrays) /\
    (forall j, j < List.length o -> nth_error o' j = nth_error o j) /\
    (forall out'', agree out'' o' (List.length o) (List.length o') ->
       forall m n, decodes g n out'' outer m ->
         decodes g (n + (nstars hdr + (c + List.length arrays))) out'' idx
           (W (fold_right (fun a acc => MArr acc (lenval gl a)) (wrap_ptrs (nstars hdr) m) arrays))).
Proof.
  intros Hh Hok Hat Ha Hfin Hroom Hf.
  destruct (brackets_hole arrays f q _ og _ pcg rg W c Hok Hat Ha) as (of & pcf & rf & Hrun & Hlen & Hsem);
    try assumption; [destruct Hfin as [->| ->]; discriminate|].
  rewrite Hrun. cbn [bind]. rewrite retarget_ok by exact (hole_pc_ok g _ _ _ _ _ _ _ Hsem). cbn [bind].
  eexists. eexists. split; [reflexivity|]. split; [rewrite retarget_pure_length; exact Hlen|].
  exact (hole_close g hdr o outer o1 outer1 of pcf rf _ _ Hh Hsem).
Qed.

Lemma arrays_first_stopper arrays i : At i (List.concat (map alen_toks arrays)) ->
  final_stop (K (i + List.length (List.concat (map alen_toks arrays)))) ->
  stopper (K i) /\ forall o, is_ch (T i o) c_lpar = false.
Proof.
  intros Hat Hfin. unfold is_ch. setoid_rewrite (kind_T _ _ L). destruct arrays as [|a arrays].
  - cbn in Hfin. rewrite Nat.add_0_r in Hfin. unfold stopper. destruct Hfin as [->| ->]; split; auto.
  - cbn [map List.concat] in Hat. apply At_app in Hat as [Hat _].
    destruct a; cbn [alen_toks] in Hat; apply At_cons in Hat as [H0 _]; rewrite (At_K _ _ _ H0);
      unfold stopper; split; auto.
Qed.

Lemma arrays_count arrays : List.length arrays <= List.length (List.concat (map alen_toks arrays)).
Proof. induction arrays as [|a l IH]; cbn; [lia|]. rewrite app_length. destruct a; cbn; lia. Qed.

(* the loop over '(' of parse_sequel: the hole it leaves is the declarator without header and arrays *)
Lemma parens_phase group fn f p oh lo :
  let mid := D [] None group (opt_fn fn) [] in
  let n := List.length (group_toks group) + List.length (List.concat (map fs_toks (opt_fn fn))) in
  mid_shape gl group fn -> (forall abi d', group = Some (abi, d') -> sequel_spec d') -> At p (group_toks group) ->
  At (p + List.length (group_toks group)) (List.concat (map fs_toks (opt_fn fn))) ->
  (forall o, is_ch (T (p + n) o) c_lpar = false) ->
  lo <= List.length oh -> List.length oh + nops mid <= osz -> n < f ->
  exists of pc r,
    parens osz cx f (T p oh) PRes 0%Z None 1%Z = Ok (T (p + n) of, pc, r, None) /\
    List.length of = List.length oh + nops mid /\
    hole_ok g oh of lo pc r (apply_decl gl mid) (cost mid).
Proof.
  intros mid n Hmid Hspec Hgrp Hfs Hnolp Hlo Hroom Hf. subst mid n.
  cbn [nops cost apply_decl nstars filter List.length map list_sum fold_right Nat.add] in *.
  unfold wrap_ptrs. cbn [Nat.iter]. rewrite ?Nat.add_0_r, Nat.add_assoc in *.
  destruct group as [[abi d']|]; [destruct Hmid as (Hd' & Hst & Habi); pose proof (Hspec abi d' eq_refl) as IH | cbn in Hmid; subst fn].
  - destruct (group_toks_length abi d') as [Hlg0 Hno].
    destruct f as [|[|f]]; try lia.
    destruct (group_run d' abi (S f) p oh lo Hd' IH Hst Hgrp Hlo) as (og & x' & Hpar & Hlg & Hok); try lia.
    rewrite Hpar. destruct fn as [void|]; cbn [opt_fn map List.concat List.length fold_right] in *.
    + rewrite app_nil_r in *.
      assert (2 <= List.length (fs_toks (F [] void false))) by (destruct void; cbn; lia).
      destruct f as [|f]; [lia|].
      destruct (func0_run (S f) _ _ og _ _ abi (1 - 1)%Z void _ _ _ Hfs ltac:(lia) Hok) as (of & r1 & Hfun & Hlf & Hok').
      rewrite Hfun, parens_stop by apply Hnolp. do 3 eexists. split; [reflexivity|]. split; [lia|].
      replace (S (cost d') + 1) with (S (S (cost d'))) by lia. exact Hok'.
    + rewrite ?Nat.add_0_r in *. rewrite (Habi eq_refl) in *. rewrite parens_stop by apply Hnolp.
      do 3 eexists. split; [reflexivity|]. split; [lia | exact Hok].
  - cbn [opt_fn group_toks map List.concat List.length] in *. rewrite ?Nat.add_0_r in *.
    destruct f as [|f]; [lia|]. rewrite parens_stop by apply Hnolp. do 3 eexists. split; [reflexivity|]. split; [reflexivity|].
    apply hole_ok_init. exact Hlo.
Qed.

Lemma sequel_shape hdr group fn arrays :
  forallb hitem_plain hdr = true -> Forall (fun a => alen_val gl a <> None) arrays -> mid_shape gl group fn ->
  (forall abi d', group = Some (abi, d') -> sequel_spec d') ->
  sequel_spec (D hdr None group (opt_fn fn) arrays).
Proof.
  intros Hh Ha Hmid Hspec f i o outer Hat Hfin Hroom Hf.
  set (mid := D [] None group (opt_fn fn) []).
  destruct (At_layout _ _ _ _ _ _ Hat) as (Hat1 & Hgrp & Hfs & Hat3 & Hn). rewrite Hn in Hfin |- *.
  set (p := i + List.length hdr) in *.
  set (n := List.length (group_toks group) + List.length (List.concat (map fs_toks (opt_fn fn)))).
  rewrite <- (Nat.add_assoc p) in Hat3, Hfin, Hn |- *. fold n in Hat3, Hfin, Hn |- *.
  destruct (arrays_first_stopper _ _ Hat3 Hfin) as [Hstop' Hnolp].
  assert (Hstop : stopper (K p)).
  { destruct group as [[abi d']|].
    - pose proof Hgrp as H0. apply At_cons in H0 as [H0 _]. rewrite (At_K _ _ _ H0). unfold stopper. auto.
    - cbn in Hmid. subst fn. cbn in n. subst n. rewrite Nat.add_0_r in Hstop'. exact Hstop'. }
  pose proof (arrays_count arrays) as Hna.
  assert (Hnops : nops (D hdr None group (opt_fn fn) arrays) = nstars hdr + nops mid + list_sum (map arr_ops arrays))
    by (unfold mid; cbn [nops nstars filter List.length map list_sum fold_right]; lia).
  destruct f as [|f]; [lia|].
  destruct (sequel_header hdr f i o outer) as (o1 & outer1 & Hh1 & Hseq); try assumption; try lia.
  rewrite Hseq. fold p. pose proof (proj1 Hh1) as Hlh.
  destruct (parens_phase group fn f p o1 (List.length o) Hmid Hspec Hgrp Hfs Hnolp)
    as (of & pc & r & Hpar & Hlf & Hok); try (unfold p, n, mid in *; lia).
  fold mid n in Hpar, Hlf, Hok. rewrite Hpar. cbn [bind].
  destruct (sequel_finish hdr o outer o1 outer1 arrays f (p + n) of _ _ _ _ Hh1 Hok Hat3 Ha Hfin)
    as (o' & idx & Hrun & Hlen & Hpre & Hsem); try (unfold p, n, mid in *; lia).
  exists o', idx. split; [exact Hrun | split; [lia | split; [exact Hpre|]]].
  intros out'' Hag m k Hm.
  replace (cost (D hdr None group (opt_fn fn) arrays)) with (nstars hdr + (cost mid + List.length arrays))
    by (unfold mid; cbn [cost nstars filter List.length]; lia).
  replace (apply_decl gl (D hdr None group (opt_fn fn) arrays) m)
    with (apply_decl gl mid (fold_right (fun a acc => MArr acc (lenval gl a)) (wrap_ptrs (nstars hdr) m) arrays))
    by (unfold mid; destruct group as [[? ?]|]; reflexivity).
  apply Hsem; assumption.
Qed.

Theorem sequel_run : forall d, sdecl gl d -> sequel_spec d.
Proof. apply sdecl_shape_ind. intros. apply sequel_shape; assumption. Qed.

End Run2.
