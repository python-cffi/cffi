(* C07 — identifiers, and name-sorted association tables searched with search_sorted (C25). *)
From Coq Require Import List Arith NArith ZArith Lia Bool String.
Import ListNotations.
From Cffi Require Import Base.ListFacts C25.Model C25.Proofs C07.Model C07.Realize C07.PyModel C07.Lexer C07.Tokens.

Local Open Scope nat_scope.

Definition ident_ok (n : str) : Prop :=
  match n with
  | c :: tl => is_ident_first c = true /\ forallb is_ident_next tl = true
  | [] => False
  end /\ kw_of n = None.

Lemma ident_ok_lexeme n : ident_ok n -> lexeme n KIdent.
Proof.
  intros [H Hk]. destruct n as [|c tl]; [contradiction|]. destruct H as [A B].
  pose proof (ident_lexeme c tl A B) as Hl. unfold word_kind in Hl. rewrite Hk in Hl. exact Hl.
Qed.

Lemma ident_next_nonzero c : is_ident_next c = true -> c <> 0%N.
Proof. intros H E. subst. discriminate. Qed.

Lemma ident_ok_nulfree n : ident_ok n -> C25.Model.nulfree n.
Proof.
  intros [H _]. destruct n as [|c tl]; [contradiction|]. destruct H as [A B].
  constructor.
  - apply ident_next_nonzero. unfold is_ident_next. rewrite A. reflexivity.
  - unfold C25.Model.nulfree. rewrite Forall_forall. rewrite forallb_forall in B.
    intros x Hx. apply ident_next_nonzero. apply B. exact Hx.
Qed.

Lemma str_eqb_eq : forall a b, str_eqb a b = true <-> a = b.
Proof. exact nlist_eqb_eq. Qed.

Definition table_ok (names : list str) : Prop := Forall C25.Model.nulfree names /\ sorted names.

Lemma sorted_tail x l : sorted (x :: l) -> sorted l.
Proof. intros H i j Hij. apply (H (S i) (S j)). cbn. lia. Qed.

Lemma assoc_nth {A} : forall (l : list (str * A)) i n v,
  sorted (map fst l) -> nth_error l i = Some (n, v) -> assoc_str l n = Some v.
Proof.
  intros l i n v Hs Hn. apply sorted_NoDup in Hs. apply nth_error_In in Hn. clear i.
  induction l as [|[k0 v0] l IH]; [contradiction|]. cbn [assoc_str]. inversion Hs as [|? ? Hk Hs']; subst.
  destruct Hn as [[= -> ->]|Hn]; [rewrite nlist_eqb_refl; reflexivity|].
  (* no later entry has the first key again *)
  rewrite nlist_eqb_neq; [auto|]. intros ->. exact (Hk (in_map fst _ _ Hn)).
Qed.

Lemma assoc_none {A} : forall (l : list (str * A)) n, ~ In n (map fst l) -> assoc_str l n = None.
Proof.
  induction l as [|[k0 v0] l IH]; intros n H; [reflexivity|]. cbn [assoc_str].
  destruct (str_eqb k0 n) eqn:E.
  - apply str_eqb_eq in E. subst. exfalso. apply H. left. reflexivity.
  - apply IH. intros Hi. apply H. right. exact Hi.
Qed.

Lemma search_member (names : list str) i n : table_ok names -> nth_error names i = Some n ->
  search_sorted names n = Some i.
Proof.
  intros [Hn Hs] H.
  assert (Hi : i < List.length names) by (apply nth_error_Some; congruence).
  rewrite <- (nth_error_nth names i [] H). apply search_finds_member; assumption.
Qed.

Lemma search_absent (names : list str) n : table_ok names -> C25.Model.nulfree n -> ~ In n names ->
  search_sorted names n = None.
Proof. intros [Hn Hs] Hk. apply search_sorted_none; assumption. Qed.

Definition ident_okb (n : str) : bool :=
  match n with
  | c :: tl => is_ident_first c && forallb is_ident_next tl
  | [] => false
  end && match kw_of n with None => true | Some _ => false end.

Lemma ident_okb_ok n : ident_okb n = true -> ident_ok n.
Proof.
  unfold ident_okb, ident_ok. intros H. apply andb_true_iff in H as [H1 H2].
  split; [|destruct (kw_of n); [discriminate | reflexivity]].
  destruct n as [|c tl]; [discriminate|]. apply andb_true_iff in H1. exact H1.
Qed.

Lemma assoc_some_nth {A} : forall (l : list (str * A)) n v, assoc_str l n = Some v ->
  exists i, nth_error l i = Some (n, v).
Proof.
  induction l as [|[k0 v0] l IH]; intros n v H; [discriminate|]. cbn [assoc_str] in H.
  destruct (str_eqb k0 n) eqn:E.
  - apply str_eqb_eq in E. inversion H; subst. exists 0. reflexivity.
  - destruct (IH n v H) as [i Hi]. exists (S i). exact Hi.
Qed.
