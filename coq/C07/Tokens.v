(* C07 — the tokens of the grammar are lexemes; C and Python read integer literals alike. *)
From Coq Require Import List Arith NArith ZArith Lia Bool String.
Import ListNotations.
From Cffi Require Import C25.Model C07.Model C07.Realize C07.PyModel C07.Lexer.

Local Open Scope nat_scope.

Lemma span_app_all (f : N -> bool) : forall tl rest,
  forallb f tl = true -> match rest with [] => True | c :: _ => f c = false end ->
  span f (tl ++ rest) = List.length tl.
Proof.
  induction tl as [|c tl IH]; intros rest Hall Hr.
  - cbn [app List.length]. destruct rest as [|c r]; cbn [span]; [reflexivity | rewrite Hr; reflexivity].
  - cbn [forallb] in Hall. apply andb_true_iff in Hall as [Hc Hall].
    cbn [app span List.length]. rewrite Hc. f_equal. apply IH; auto.
Qed.

Lemma wordy_end_cons c tl : forallb is_ident_next (c :: tl) = true -> wordy_end (c :: tl) = true.
Proof.
  intros H. unfold wordy_end.
  assert (Hr : forallb is_ident_next (rev (c :: tl)) = true).
  { rewrite forallb_forall in *. intros x Hx. apply H. apply in_rev. exact Hx. }
  destruct (rev (c :: tl)) as [|x r] eqn:E.
  - apply (f_equal (@List.length N)) in E. rewrite rev_length in E. discriminate.
  - cbn in Hr. apply andb_true_iff in Hr as [Hx _]. exact Hx.
Qed.

Definition word_kind (s : str) : kind :=
  match kw_of s with Some k => KKw k | None => KIdent end.

Lemma ident_lexeme : forall c tl,
  is_ident_first c = true -> forallb is_ident_next tl = true ->
  lexeme (c :: tl) (word_kind (c :: tl)).
Proof.
  intros c tl Hc Htl. split; [discriminate|].
  intros rest Hstop.
  assert (Hw : wordy_end (c :: tl) = true).
  { apply wordy_end_cons. cbn. rewrite Htl. unfold is_ident_next. rewrite Hc. reflexivity. }
  specialize (Hstop Hw).
  cbn [app lex_from]. rewrite Hc.
  rewrite (span_app_all is_ident_next tl rest Htl).
  - change (c :: tl ++ rest) with ((c :: tl) ++ rest).
    replace (S (List.length tl)) with (List.length (c :: tl)) by reflexivity.
    rewrite firstn_app, Nat.sub_diag, firstn_all. cbn [firstn]. rewrite app_nil_r. reflexivity.
  - destruct rest; [exact I | exact Hstop].
Qed.

Lemma punct_lexeme : forall c,
  is_ident_first c = false -> is_space c = false -> is_digit c = false -> N.eqb c c_dot = false ->
  N.eqb c 0 = false -> lexeme [c] (KChar c).
Proof.
  intros c H1 H2 H3 H4 H5. split; [discriminate|]. intros rest _.
  cbn [app lex_from]. rewrite H1, H2, H3, H4, H5. reflexivity.
Qed.

Local Open Scope Z_scope.

Lemma digits_all : forall base s acc n,
  all_digits base s = true ->
  snd (digits base s acc n) = (n + List.length s)%nat /\
  fst (digits base s acc n) = fst (digits base s acc O).
Proof.
  induction s as [|c s IH]; intros acc n H; cbn in *.
  - split; [lia | reflexivity].
  - apply andb_true_iff in H as [Hc H].
    destruct (digit_val c) as [d|]; [|discriminate]. rewrite Hc.
    destruct (IH (acc * base + d) (S n) H) as [A B].
    destruct (IH (acc * base + d) 1%nat H) as [_ B1].
    split; [rewrite A; lia | rewrite B, B1; reflexivity].
Qed.

Lemma digit_lt_hex : forall base c, base <= 16 ->
  (match digit_val c with Some d => d <? base | None => false end) = true -> is_hex_digit c = true.
Proof.
  intros base c _ H. unfold digit_val in H. unfold is_hex_digit.
  destruct (in_range 48 57 c); [reflexivity|].
  destruct (in_range 65 70 c); [reflexivity|].
  destruct (in_range 97 102 c); [reflexivity | discriminate].
Qed.

Lemma hex_is_hex : forall c, (match digit_val c with Some d => d <? 16 | None => false end) = true ->
  is_hex_digit c = true.
Proof. intros c. apply (digit_lt_hex 16). lia. Qed.

Lemma all_digits_hex : forall base s, base <= 16 -> all_digits base s = true ->
  forallb is_hex_digit s = true.
Proof.
  intros base s Hb H. unfold all_digits in H. rewrite forallb_forall in *.
  intros x Hx. eapply digit_lt_hex; eauto.
Qed.

Lemma hex_ident_next c : is_hex_digit c = true -> is_ident_next c = true.
Proof.
  unfold is_hex_digit, is_ident_next, is_ident_first, is_digit, in_range. intros H.
  repeat (apply orb_true_iff in H as [H|H]); apply andb_true_iff in H as [A B];
    apply N.leb_le in A; apply N.leb_le in B.
  - replace (48 <=? c)%N with true by (symmetry; apply N.leb_le; lia).
    replace (c <=? 57)%N with true by (symmetry; apply N.leb_le; lia).
    rewrite !orb_true_r. reflexivity.
  - replace (65 <=? c)%N with true by (symmetry; apply N.leb_le; lia).
    replace (c <=? 90)%N with true by (symmetry; apply N.leb_le; lia). reflexivity.
  - replace (97 <=? c)%N with true by (symmetry; apply N.leb_le; lia).
    replace (c <=? 122)%N with true by (symmetry; apply N.leb_le; lia).
    rewrite !orb_true_r. reflexivity.
Qed.

Lemma stops_not_hex rest : stops rest ->
  match rest with [] => True | c :: _ => is_hex_digit c = false end.
Proof.
  destruct rest as [|c r]; [trivial|]. cbn. intros H.
  destruct (is_hex_digit c) eqn:E; [|reflexivity].
  apply hex_ident_next in E. congruence.
Qed.

Lemma is_digit_facts c : is_digit c = true ->
  is_ident_first c = false /\ is_space c = false /\ is_ident_next c = true.
Proof.
  unfold is_digit, is_ident_first, is_space, is_ident_next, is_digit, in_range. intros H.
  apply andb_true_iff in H as [A B]. apply N.leb_le in A. apply N.leb_le in B.
  repeat split.
  - replace (65 <=? c)%N with false by (symmetry; apply N.leb_gt; lia).
    replace (97 <=? c)%N with false by (symmetry; apply N.leb_gt; lia).
    replace (c =? 95)%N with false by (symmetry; apply N.eqb_neq; lia).
    replace (c =? 36)%N with false by (symmetry; apply N.eqb_neq; lia). reflexivity.
  - replace (c =? 32)%N with false by (symmetry; apply N.eqb_neq; lia).
    replace (c =? 12)%N with false by (symmetry; apply N.eqb_neq; lia).
    replace (c =? 10)%N with false by (symmetry; apply N.eqb_neq; lia).
    replace (c =? 13)%N with false by (symmetry; apply N.eqb_neq; lia).
    replace (c =? 9)%N with false by (symmetry; apply N.eqb_neq; lia).
    replace (c =? 11)%N with false by (symmetry; apply N.eqb_neq; lia). reflexivity.
  - replace (48 <=? c)%N with true by (symmetry; apply N.leb_le; lia).
    replace (c <=? 57)%N with true by (symmetry; apply N.leb_le; lia).
    rewrite orb_true_r. reflexivity.
Qed.

(* the shape of an integer token: a digit, then (x|X)? , then hex digits *)
Lemma int_lexeme_shape : forall d tl,
  is_digit d = true ->
  (match tl with
   | c1 :: tl2 => if (N.eqb c1 120 || N.eqb c1 88)%bool then forallb is_hex_digit tl2 = true
                  else forallb is_hex_digit tl = true
   | [] => True
   end) ->
  lexeme (d :: tl) KInteger.
Proof.
  intros d tl Hd Hshape. split; [discriminate|]. intros rest Hstop.
  destruct (is_digit_facts d Hd) as (F1 & F2 & F3).
  cbn [app lex_from]. rewrite F1, F2, Hd.
  assert (Hstop' : stops rest).
  { apply Hstop, wordy_end_cons. cbn [forallb]. rewrite F3. cbn [andb].
    destruct tl as [|c1 tl2]; [reflexivity|].
    destruct (N.eqb c1 120 || N.eqb c1 88)%bool eqn:Ex.
    - cbn [forallb]. apply andb_true_iff. split.
      + apply orb_true_iff in Ex as [Ex|Ex]; apply N.eqb_eq in Ex; subst; reflexivity.
      + rewrite forallb_forall in *. intros x Hx. apply hex_ident_next, Hshape, Hx.
    - rewrite forallb_forall in *. intros x Hx. apply hex_ident_next, Hshape, Hx. }
  pose proof (stops_not_hex rest Hstop') as Hnh.
  destruct tl as [|c1 tl2].
  - cbn [app]. destruct rest as [|r0 rest'].
    + reflexivity.
    + cbn in Hstop'.
      assert (Hx : (N.eqb r0 120 || N.eqb r0 88)%bool = false).
      { destruct (N.eqb r0 120) eqn:E1; [apply N.eqb_eq in E1; subst; discriminate|].
        destruct (N.eqb r0 88) eqn:E2; [apply N.eqb_eq in E2; subst; discriminate|]. reflexivity. }
      rewrite Hx. cbn [skipn span]. cbn in Hnh. rewrite Hnh. reflexivity.
  - cbn [app]. destruct (N.eqb c1 120 || N.eqb c1 88)%bool eqn:Ex.
    + cbn [skipn]. rewrite (span_app_all is_hex_digit tl2 rest Hshape Hnh). reflexivity.
    + cbn [skipn]. change (c1 :: tl2 ++ rest) with ((c1 :: tl2) ++ rest).
      rewrite (span_app_all is_hex_digit (c1 :: tl2) rest Hshape Hnh). reflexivity.
Qed.

Lemma py_int_decimal c0 tl : c0 <> 48%N ->
  py_int (c0 :: tl) = if is_digit c0 && all_digits 10 (c0 :: tl)
                      then Some (fst (digits 10 (c0 :: tl) 0 O)) else None.
Proof.
  intros Hne. destruct c0 as [|p]; [reflexivity|].
  do 6 (destruct p as [p|p|]; try reflexivity). exfalso; apply Hne; reflexivity.
Qed.

Lemma strtoull0_decimal c0 tl : c0 <> 48%N -> strtoull0 (c0 :: tl) = digits 10 (c0 :: tl) 0 O.
Proof.
  intros Hne. destruct c0 as [|p]; [reflexivity|].
  do 6 (destruct p as [p|p|]; try reflexivity). exfalso; apply Hne; reflexivity.
Qed.

(* what the in-line parser accepts as an array length literal is a single C token, and
   strtoull(.., 0) reads all of it to the same value *)
Lemma py_int_lexeme : forall text n, py_int text = Some n -> lexeme text KInteger.
Proof.
  intros text n H. unfold py_int in H.
  destruct text as [|c0 tl]; [discriminate|].
  destruct (N.eq_dec c0 48) as [->|Hne].
  - destruct tl as [|c1 s2].
    + apply int_lexeme_shape; [reflexivity | exact I].
    + destruct (N.eqb c1 120 || N.eqb c1 88)%bool eqn:Ex.
      * destruct s2 as [|c2 s3]; [discriminate|].
        destruct (all_digits 16 (c2 :: s3)) eqn:Ea; [|discriminate].
        apply int_lexeme_shape; [reflexivity|]. rewrite Ex.
        apply (all_digits_hex 16); [lia | exact Ea].
      * destruct (all_digits 8 (c1 :: s2)) eqn:Ea; [|discriminate].
        apply int_lexeme_shape; [reflexivity|]. rewrite Ex.
        apply (all_digits_hex 8); [lia | exact Ea].
  - fold (py_int (c0 :: tl)) in H. rewrite (py_int_decimal c0 tl Hne) in H. rename H into H'.
    destruct (is_digit c0) eqn:Ed; [|discriminate]. cbn [andb] in H'.
    destruct (all_digits 10 (c0 :: tl)) eqn:Ea; [|discriminate].
    apply int_lexeme_shape; [exact Ed|].
    destruct tl as [|c1 tl2]; [exact I|].
    assert (Hh : forallb is_hex_digit (c1 :: tl2) = true).
    { apply (all_digits_hex 10); [lia|]. cbn in Ea. apply andb_true_iff in Ea as [_ Ea]. exact Ea. }
    destruct (N.eqb c1 120 || N.eqb c1 88)%bool eqn:Ex; [|exact Hh].
    exfalso. cbn in Ea. apply andb_true_iff in Ea as [_ Ea]. apply andb_true_iff in Ea as [Ec _].
    apply orb_true_iff in Ex as [Ex|Ex]; apply N.eqb_eq in Ex; subst; discriminate.
Qed.

Lemma py_int_strtoull : forall text n, py_int text = Some n ->
  strtoull0 text = (n, List.length text).
Proof.
  intros text n H. unfold py_int in H. unfold strtoull0.
  destruct text as [|c0 tl]; [discriminate|].
  destruct (N.eq_dec c0 48) as [->|Hne].
  - destruct tl as [|c1 s2].
    + inversion H; reflexivity.
    + destruct (N.eqb c1 120 || N.eqb c1 88)%bool eqn:Ex.
      * destruct s2 as [|c2 s3]; [discriminate|].
        destruct (all_digits 16 (c2 :: s3)) eqn:Ea; [|discriminate].
        inversion H; subst n; clear H.
        assert (Hc2 : is_hex_digit c2 = true).
        { apply (all_digits_hex 16) in Ea; [|lia]. cbn in Ea. apply andb_true_iff in Ea as [E _]. exact E. }
        rewrite Hc2. cbn [andb].
        destruct (digits_all 16 (c2 :: s3) 0 2%nat Ea) as [A B].
        destruct (digits 16 (c2 :: s3) 0 2) as [v u] eqn:E. cbn in A, B. subst. reflexivity.
      * destruct (all_digits 8 (c1 :: s2)) eqn:Ea; [|discriminate].
        inversion H; subst n; clear H. cbn [andb].
        destruct (digits_all 8 (c1 :: s2) 0 1%nat Ea) as [A B].
        destruct (digits 8 (c1 :: s2) 0 1) as [v u] eqn:E. cbn in A, B. subst. reflexivity.
  - fold (py_int (c0 :: tl)) in H. fold (strtoull0 (c0 :: tl)).
    rewrite (py_int_decimal c0 tl Hne) in H. rewrite (strtoull0_decimal c0 tl Hne).
    destruct (is_digit c0 && all_digits 10 (c0 :: tl)) eqn:Ea; [|discriminate].
    apply andb_true_iff in Ea as [_ Ea]. inversion H; subst n; clear H.
    destruct (digits_all 10 (c0 :: tl) 0 O Ea) as [A _].
    apply injective_projections; [reflexivity | exact A].
Qed.
