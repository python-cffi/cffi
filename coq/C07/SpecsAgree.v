(* C07 — agreement of the two specifier readers. A list is some modifiers followed by a rest that
   begins with another word; all but the few lists of small_lists are refused by both parsers
   (small_or_refused), and on those both are evaluated. *)
From Coq Require Import List Arith NArith ZArith Lia Bool String.
Import ListNotations.
From Cffi Require Import C25.Model C07.Model C07.Realize C07.PyModel C07.Lexer C07.Tokens C07.Specs.
Local Open Scope Z_scope.

Lemma agree_small : forallb agree_on small_lists = true.
Proof. vm_compute. reflexivity. Qed.

(* why evaluating small_lists is enough.  After the modifiers the C parser has two phases left (base type,
   _Complex) and each eats at most one word (c_spec_run_used), while cparser's table has no row with more than
   two (py_key_long); and C accepts the modifiers exactly when cparser's counts of them are in the range of the
   table's rows (c_mods_counts, py_key_bad) *)
Lemma small_or_refused : forall ws, sign_ok ws = true -> words_eqb ws [WM Msigned; WB Bchar] = false ->
  In ws small_lists \/ c_spec_abs ws = None /\ py_spec_abs ws = None.
Proof.
  intros ws Hs Esp.
  destruct (split_mods ws) as (ms & rest & -> & Hr).
  set (ws := map WM ms ++ rest) in *.
  pose proof (normalise_key ws _ _ _ _ _ Esp (strip_counts rest Hr ms 0 0 0 0)) as Hpy.
  pose proof (c_mods_counts rest Hr ms 0 0 0 0 0 0 ltac:(unfold tracks, counts_ok; lia)) as Hc.
  fold ws in Hc. cbv zeta in Hc. cbn [Nat.add] in Hc, Hpy. unfold counts_ok in Hc.
  pose proof (cnt_total ms) as Hsum.
  unfold py_spec_abs. rewrite Hpy.
  destruct (c_mods ws 0 0) as [[[n mlen] msign]|] eqn:Em.
  - destruct Hc as [-> Hok]. destruct (le_lt_dec (List.length rest) 2) as [Hl|Hl].
    + left. apply in_flat_map. exists ms. split.
      * apply filter_In. split.
        -- apply lists_upto_complete; [intros []; cbn; tauto | lia].
        -- rewrite <- (c_mods_app rest Hr). fold ws. rewrite Em. reflexivity.
      * apply in_map, filter_In. split; [apply lists_upto_complete; [exact all_words_complete | exact Hl] | exact Hr].
    + right. split.
      * unfold c_spec_abs. destruct (c_spec_run ws) as [[op k]|] eqn:Er; [|reflexivity].
        pose proof (c_spec_run_used _ _ _ _ _ _ Er Em) as Hk.
        destruct (Nat.eqb_spec k (List.length ws)) as [->|]; [|reflexivity].
        unfold ws in Hk. rewrite app_length, map_length in Hk. lia.
      * destruct rest as [|x [|y [|z r]]]; try (cbn in Hl; lia).
        apply py_key_long. exact Hr.
  - right. unfold c_spec_abs, c_spec_run. rewrite Em. split; [reflexivity|].
    apply py_key_bad.
    (* a `signed` that cparser drops comes with no `unsigned` *)
    unfold sign_ok, ws in Hs. rewrite filter_app, app_length, existsb_app, cnt_signed in Hs.
    destruct (cnt Msigned ms + _)%nat as [|[|k]] eqn:Ek; [lia| |discriminate].
    destruct (cnt Munsigned ms) eqn:Eu; [lia|]. rewrite cnt_unsigned in Hs by lia. discriminate.
Qed.

(* "any ordering of primitive specifiers": both parsers accept the same keyword lists, with the
   same primitive type, and reject the same ones *)
Theorem spec_agree : forall ws, ws <> [] -> sign_ok ws = true ->
  c_spec_abs ws = option_map (OP OP_PRIMITIVE) (py_spec_abs ws).
Proof.
  intros ws Hne Hs.
  destruct (words_eqb ws [WM Msigned; WB Bchar]) eqn:Esp; [apply signed_char in Esp; subst ws; reflexivity|].
  destruct (small_or_refused ws Hs Esp) as [Hin|[-> ->]]; [|reflexivity].
  pose proof agree_small as H. rewrite forallb_forall in H. apply H in Hin.
  unfold agree_on in Hin. rewrite Hs in Hin. destruct ws; [congruence|]. cbn [negb orb] in Hin.
  destruct (c_spec_abs _) as [a|], (py_spec_abs _) as [b|]; try discriminate; try reflexivity.
  apply Z.eqb_eq in Hin. subst a. reflexivity.
Qed.
