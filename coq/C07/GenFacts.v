(* C07 — the hand-written tables of C07.Model / C07.Realize ARE the ones regenerated into C07/Gen.v from
   src/c/parse_c_type.c, src/cffi/parse_c_type.h, src/cffi/cffi_opcode.py, src/c/realize_c_type.c,
   src/c/ffi_obj.c and src/c/commontypes.c on every run: each lemma below is closed by computation and
   stops compiling when the source table (hence Gen.v) changes. *)
From Coq Require Import List NArith ZArith Bool String.
Import ListNotations.
From Cffi Require Import C25.Model C07.Model C07.Realize C07.Gen.
Local Open Scope Z_scope.

(* next_token()'s keyword switch *)
Lemma gen_keywords_pinned : C07.Gen.keywords = C07.Model.keywords.
Proof. reflexivity. Qed.

(* the opcode numbers the model uses, by the name they have in parse_c_type.h / cffi_opcode.py *)
Definition model_ops : list (str * Z) :=
  [ (s2l "PRIMITIVE", OP_PRIMITIVE); (s2l "POINTER", OP_POINTER); (s2l "ARRAY", OP_ARRAY);
    (s2l "OPEN_ARRAY", OP_OPEN_ARRAY); (s2l "STRUCT_UNION", OP_STRUCT_UNION); (s2l "ENUM", OP_ENUM);
    (s2l "FUNCTION", OP_FUNCTION); (s2l "FUNCTION_END", OP_FUNCTION_END); (s2l "NOOP", OP_NOOP);
    (s2l "TYPENAME", OP_TYPENAME); (s2l "CONSTANT_INT", OP_CONSTANT_INT) ]%string.

Definition op_row_ok (row : str * Z) : bool :=
  match assoc_str C07.Gen.c_ops (fst row), assoc_str C07.Gen.py_ops (fst row) with
  | Some a, Some b => (a =? snd row) && (b =? snd row)
  | _, _ => false
  end.

Lemma gen_ops_pinned_b : forallb op_row_ok model_ops = true.
Proof. vm_compute. reflexivity. Qed.

(* _CFFI_OP_* (C header) and OP_* (Python) are the same table *)
Lemma gen_ops_c_eq_py : C07.Gen.c_ops = C07.Gen.py_ops.
Proof. reflexivity. Qed.

(* every opcode number is odd and below 256: _CFFI_GETOP = low byte is faithful *)
Lemma gen_ops_small : forallb (fun row => (0 <? snd row) && (snd row <? 256) && Z.odd (snd row)) C07.Gen.c_ops = true.
Proof. vm_compute. reflexivity. Qed.

(* realize_c_type()'s recursion limit and ffi_obj.c's output buffer size *)
Lemma gen_realize_fuel_pinned : Z.of_nat realize_fuel = realize_recursion_limit.
Proof. vm_compute. reflexivity. Qed.

Lemma gen_complexity_pinned : ffi_complexity_output = 1200.
Proof. reflexivity. Qed.

(* commontypes.c, the rows compiled on non-Windows *)
Lemma gen_common_types_pinned : C07.Gen.common_simple_types = C07.Model.common_simple_types.
Proof. reflexivity. Qed.
