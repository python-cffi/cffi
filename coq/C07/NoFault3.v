(* C07 — no access to tok->output outside [0, output_index): parse_sequel / parse_complete, one statement per
   function (P_sequel .. P_from), all of them by induction on the fuel (all_nf).
   The file also states how the model's functions unfold by one unit of fuel (args_loop_S, parens_S with the five
   parts of one turn of `parens`, parse_sequel_S', parse_complete_S, parse_from_S'): Parse.v, Names.v, Sequel2.v,
   Agree.v, Agree2.v and Fuel.v import it for these. *)
From Coq Require Import List Arith NArith ZArith Lia Bool String.
Import ListNotations.
From Cffi Require Import C25.Model C07.Model C07.Lexer C07.NoFault C07.NoFault2.

Local Open Scope nat_scope.

(* between a '(' and its ')' commas count one level deeper *)
Definition neutral_at1 (a b : tok) : Prop :=
  forall d acc, ncommas (t_rest a) (S d) acc = ncommas (t_rest b) (S d) acc.

Lemma neutral_step_at1 a b : neutral_step a b -> neutral_at1 a b.
Proof. intros H d acc. apply H. Qed.

Definition step_at1 (t t' : tok) : Prop := wf t' /\ neutral_at1 t t' /\ (len t <= len t')%Z.

Lemma step_at1_refl t : wf t -> step_at1 t t.
Proof. intros H. repeat split; [exact H | lia]. Qed.

Lemma step_at1_of a b : step_ok a b -> step_at1 a b.
Proof. intros (W & N & L). repeat split; [exact W | apply neutral_step_at1, N | exact L]. Qed.
Arguments step_at1_of {a b}.

Lemma step_at1_trans a b c : step_at1 a b -> step_at1 b c -> step_at1 a c.
Proof.
  intros (_ & N1 & L1) (W & N2 & L2). repeat split; [exact W | | lia].
  intros d acc. rewrite N1. apply N2.
Qed.
Arguments step_at1_trans {a b c}.

(* a comma one level deep is not counted *)
Lemma step_comma t0 t : step_at1 t0 t -> t_kind t = KChar c_comma -> step_at1 t0 (next_token t).
Proof.
  intros (W & N & L) Ek. repeat split; [apply wf_next | | rewrite len_next; exact L].
  intros d acc. rewrite N, (scan_next t W), Ek. reflexivity.
Qed.

(* a pair of parentheses with its inside is comma neutral *)
Lemma step_parens t t2 t9 : wf t -> t_kind t = KChar c_lpar -> step_ok (next_token t) t2 -> step_at1 t2 t9 ->
  t_kind t9 = KChar c_rpar -> step_ok t (next_token t9).
Proof.
  intros W El (_ & N2 & L2) (W9 & N9 & L9) Er.
  repeat split; [apply wf_next | | rewrite len_next in *; lia].
  intros d acc. rewrite (scan_next t W), El. cbn.
  rewrite N2, N9, (scan_next t9 W9), Er. reflexivity.
Qed.

(* the comma that follows an argument is one of those counted by number_of_commas *)
Lemma commas_at_comma t : wf t -> t_kind t = KChar c_comma ->
  ncommas (t_rest t) 0 0 = S (ncommas (t_rest (next_token t)) 0 0).
Proof. intros W Ek. rewrite (scan_next t W), Ek. cbn. apply (ncommas_acc _ 0 1). Qed.

Lemma ident_skip t : exists t2 cfg,
  match t_kind t with KIdent => (next_token t, 0%Z) | _ => (t, 1%Z) end = (t2, cfg) /\ adv t t2.
Proof.
  destruct (t_kind t) eqn:Ek; do 2 eexists; (split; [reflexivity|]); try (left; reflexivity).
  right. rewrite Ek. split; [apply plain_ident | reflexivity].
Qed.

Lemma void_skip t : adv t (if (is_kw t K_void && N.eqb (following_char t) c_rpar)%bool then next_token t else t).
Proof.
  destruct (is_kw t K_void) eqn:E; [|left; reflexivity]. destruct (N.eqb _ _); [|left; reflexivity].
  right. destruct (is_kw_true _ _ E) as [k ->]. split; [apply plain_kw | reflexivity].
Qed.

Lemma complex_skip t (op cplx : Z) :
  outcome False (fun '(t', _) => adv t t')
    (if is_kw t K_Complex then if (cplx =? 0)%Z then parse_error t E_complex else Ok (next_token t, cplx)
     else Ok (t, op)).
Proof.
  destruct (is_kw t K_Complex) eqn:E; [|left; reflexivity]. destruct (cplx =? 0)%Z; [discriminate|].
  right. destruct (is_kw_true _ _ E) as [k ->]. split; [apply plain_kw | reflexivity].
Qed.

Section NF.
Variable osz : nat.
Variable cx : ctx.

Lemma base_plain_adv pf t :
  outcome (exists repl, pf repl (t_out t) = Fault)
    (fun '(t3, _, _) => plain_kind (t_kind t3) /\
       (adv t t3 \/ exists repl out' n, pf repl (t_out t) = Ok (out', n) /\ t3 = with_out t out'))
    (base_plain cx pf t).
Proof.
  assert (Hst : forall k (Q : Prop), t_kind t = KKw k -> plain_kind (t_kind t) /\ (adv t t \/ Q))
    by (intros k Q ->; split; [apply plain_kw | left; left; reflexivity]).
  assert (Hnext : forall k (Q : Prop), t_kind t = KKw k ->
            negb (kind_eqb (t_kind (next_token t)) KIdent) = false ->
            plain_kind (t_kind (next_token t)) /\ (adv t (next_token t) \/ Q)).
  { intros k Q Ek Hn. split; [|left; right; rewrite Ek; split; [apply plain_kw | reflexivity]].
    apply negb_false_iff in Hn. destruct (t_kind (next_token t)); try discriminate. apply plain_ident. }
  unfold base_plain.
  destruct (t_kind t) as [| | | | |c|[]] eqn:Ek in |- *; try discriminate; try exact (Hst _ _ Ek).
  3,4: (* struct, union *)
    cbv zeta; (destruct (negb _) eqn:En in |- *; [discriminate|]); destruct (search_sorted _ _);
    [destruct (xorb _ _); [discriminate | exact (Hnext _ _ Ek En)]
    |destruct (_ && _)%bool; [exact (Hnext _ _ Ek En) | discriminate]].
  - assert (Hid : plain_kind (t_kind t)) by (rewrite Ek; apply plain_ident).
    destruct (search_sorted _ _); [split; [exact Hid | left; left; reflexivity]|].
    destruct (search_standard_typename _); [split; [exact Hid | left; left; reflexivity]|].
    destruct (get_common_type _) as [repl|]; [|discriminate].
    destruct (pf repl (t_out t)) as [[out' n]| |] eqn:E; [|discriminate|exists repl; exact E].
    split; [exact Hid | right; eauto].
  - cbv zeta. destruct (negb _) eqn:En in |- *; [discriminate|].
    destruct (search_sorted _ _); [|discriminate]. exact (Hnext _ _ Ek En).
Qed.

Lemma reserve_nf : forall n t, wf t ->
  okres (fun t' => step_ok t t' /\ len t' = (len t + Z.of_nat n)%Z /\ t_kind t' = t_kind t) (reserve osz n t).
Proof.
  induction n as [|n IH]; intros t Hw; cbn [reserve].
  - split; [apply step_refl; exact Hw|]. split; [lia | reflexivity].
  - eapply okres_bind; [apply write_ds_nf; exact Hw|].
    intros [t1 i1] (S1 & L1 & _ & K1).
    eapply okres_impl; [apply IH; apply S1|].
    intros t' (S2 & L2 & K2). split; [exact (step_trans S1 S2)|]. split; [lia | congruence].
Qed.

(* what holds of each function at fuel f; the five are proved together by induction on f (all_nf) *)
Definition P_sequel (f : nat) : Prop := forall t outer, wf t -> (0 <= outer < len t)%Z ->
  okres (fun '(t', idx) => step_ok t t' /\ (0 <= idx < len t')%Z) (parse_sequel osz cx f t outer).
Definition P_parens (f : nat) : Prop := forall t0 t pc result abi cfg, step_ok t0 t -> res_ok t pc result ->
  okres (fun '(t', pc', r', _) => step_ok t0 t' /\ res_ok t' pc' r') (parens osz cx f t pc result abi cfg).
(* the invariant announced in the head of NoFault.v: room below output_index for the arguments still ahead *)
Definition P_args (f : nat) : Prop := forall t0 t an fl, step_at1 t0 t -> (0 <= an)%Z ->
  (an + Z.of_nat (ncommas (t_rest t) 0 0) + 1 < len t)%Z ->
  okres (fun '(t', an', _) => step_at1 t0 t' /\ (0 <= an' < len t')%Z) (args_loop osz cx f t an fl).
Definition P_complete (f : nat) : Prop := forall t, wf t ->
  okres (fun '(t', idx) => step_ok t t' /\ (0 <= idx < len t')%Z) (parse_complete osz cx f t).
(* parse_c_type_from appends to the output and returns an index into it *)
Definition from_ok (pf : str -> list Z -> res (list Z * Z)) : Prop := forall input out,
  okres (fun '(out', n) => List.length out <= List.length out' /\ (0 <= n < Z.of_nat (List.length out'))%Z)
        (pf input out).
Definition P_from (f : nat) : Prop := from_ok (parse_from osz cx f).

Lemma base_plain_nf pf t : from_ok pf -> wf t ->
  okres (fun '(t3, _, _) => step_ok t t3 /\ plain_kind (t_kind t3)) (base_plain cx pf t).
Proof.
  intros Hpf Hw. eapply okres_impl; [eapply outcome_okres; [|apply base_plain_adv]|].
  - intros [repl E]. specialize (Hpf repl (t_out t)). rewrite E in Hpf. exact Hpf.
  - intros [[t3 op] cplx] [P3 [A3|(repl & out' & n & E & ->)]]; (split; [|exact P3]).
    + apply (step_adv t t3 Hw A3).
    + specialize (Hpf repl (t_out t)). rewrite E in Hpf. destruct Hpf as [Hl _].
      apply step_with_out; [exact Hw | unfold len; lia].
Qed.

Lemma args_loop_S f t arg_next flags :
  args_loop osz cx (S f) t arg_next flags =
  if kind_eqb (t_kind t) KDots then Ok (next_token t, arg_next, 1%Z)
  else
    match parse_complete osz cx f t with
    | Ok (t1, arg) =>
      bind (get_out t1 arg) (fun o =>
      bind (let op := GETOP o in
            if ((op =? OP_ARRAY)%Z || (op =? OP_OPEN_ARRAY)%Z)%bool then Ok (OP OP_POINTER (GETARG o))
            else if (op =? OP_FUNCTION)%Z then Ok (OP OP_POINTER arg)
            else Ok (OP OP_NOOP arg)) (fun oarg =>
      bind (set_out t1 arg_next oarg) (fun t2 =>
        if negb (is_ch t2 c_comma) then Ok (t2, (arg_next + 1)%Z, flags)
        else args_loop osz cx f (next_token t2) (arg_next + 1)%Z flags)))
    | Err e p => Err e p
    | Fault => Fault
    end.
Proof. reflexivity. Qed.

(* One turn of Model.parens (the loop over '(', 272-365) in the five parts into which the C source divides it:
   the calling convention behind the parenthesis, the test for grouping parentheses, the body for a group
   (284-294), the body for a parameter list (296-359), and the ')' that ends the turn. Each unfolds to the
   model's text (parens_S is by reflexivity). With the names a body gets a lemma of its own, in a goal that holds
   that body only: both bodies here and in Fuel.v, paren_func (paren_func_empty) in Sequel2.v. *)
Definition abi_step (t1 : tok) (abi : option kw) : tok * option kw :=
  match t_kind t1 with
  | KKw K_cdecl => (next_token t1, Some K_cdecl)
  | KKw K_stdcall => (next_token t1, Some K_stdcall)
  | _ => (t1, abi)
  end.

Definition is_grouping (cfg : Z) (t2 : tok) : bool :=
  ((cfg =? 1)%Z && (is_ch t2 c_star || is_kw t2 K_const || is_kw t2 K_volatile || is_ch t2 c_lbr))%bool.

Definition paren_group (f : nat) (t2 : tok) (abi2 : option kw) : res (tok * pcur * Z * option kw) :=
  let x := Z.of_nat (List.length (t_out t2)) in
  bind (write_ds osz t2 (OP OP_NOOP 0)) (fun '(t3, _) =>
  bind (parse_sequel osz cx f t3 x) (fun '(t4, x') =>
    Ok (t4, POut x, OP (GETOP 0) x', abi2))).

Definition paren_func (f : nat) (t2 : tok) (pc : pcur) (result : Z) (abi2 : option kw)
  : res (tok * pcur * Z * option kw) :=
  let flags := match abi2 with Some K_stdcall => 2%Z | _ => 0%Z end in
  let t3 := if (is_kw t2 K_void && N.eqb (following_char t2) c_rpar)%bool
            then next_token t2 else t2 in
  let arg_total := S (number_of_commas t3) in
  let oi := Z.of_nat (List.length (t_out t3)) in
  bind (retarget t3 pc result oi) (fun '(t4, result4) =>
  bind (write_ds osz t4 (OP OP_FUNCTION 0)) (fun '(t5, base_index) =>
  bind (reserve osz (S arg_total) t5) (fun t6 =>
  bind (if negb (is_ch t6 c_rpar) then args_loop osz cx f t6 (base_index + 1)%Z flags
        else Ok (t6, (base_index + 1)%Z, flags)) (fun '(t7, arg_next, flags7) =>
  bind (set_out t7 arg_next (OP OP_FUNCTION_END flags7)) (fun t8 =>
    Ok (t8, POut oi, result4, @None kw)))))).

Definition paren_close (f : nat) (cfg : Z) (r : tok * pcur * Z * option kw) : res (tok * pcur * Z * option kw) :=
  let '(t9, pc9, result9, abi9) := r in
  if negb (is_ch t9 c_rpar) then parse_error t9 E_rparen
  else parens osz cx f (next_token t9) pc9 result9 abi9 (cfg - 1)%Z.

Lemma parens_S f t pc result abi cfg :
  parens osz cx (S f) t pc result abi cfg =
  if is_ch t c_lpar then
    let '(t2, abi2) := abi_step (next_token t) abi in
    bind (if is_grouping cfg t2 then paren_group f t2 abi2 else paren_func f t2 pc result abi2)
         (paren_close f cfg)
  else Ok (t, pc, result, abi).
Proof. reflexivity. Qed.

Lemma abi_skip t abi : exists t2 abi2, abi_step t abi = (t2, abi2) /\ adv t t2.
Proof.
  unfold abi_step. destruct (t_kind t) as [| | | | | |[]] eqn:Ek; do 2 eexists; (split; [reflexivity|]);
    try (left; reflexivity); right; rewrite Ek; (split; [apply plain_kw | reflexivity]).
Qed.

Lemma parse_sequel_S' f t outer :
  parse_sequel osz cx (S f) t outer =
  bind (header osz f t outer None) (fun '(t1, outer1, abi) =>
    let '(t2, cfg) := match t_kind t1 with
                      | KIdent => (next_token t1, 0%Z)
                      | _ => (t1, 1%Z)
                      end in
    bind (parens osz cx f t2 PRes 0%Z abi cfg) (fun '(t3, pc, result, abi3) =>
      if match abi3 with Some _ => true | None => false end then parse_error t3 E_lparen
      else
        bind (brackets osz cx f t3 pc result) (fun '(t4, pc4, result4) =>
          bind (retarget t4 pc4 result4 outer1) (fun '(t5, result5) =>
            Ok (t5, GETARG result5))))).
Proof. reflexivity. Qed.

Lemma parse_complete_S f t :
  parse_complete osz cx (S f) t =
  bind (qualifiers f t) (fun t1 =>
  bind (modifiers f t1 0%Z 0%Z) (fun '(t2, mlen, msign) =>
  bind (if (negb (mlen =? 0)%Z || negb (msign =? 0)%Z)%bool then
          bind (base_with_modifiers t2 mlen msign) (fun '(t3, op) => Ok (t3, op, 0%Z))
        else
          bind (base_plain cx (parse_from osz cx f) t2) (fun '(t3, op, cplx) => Ok (next_token t3, op, cplx)))
       (fun '(t5, t1op, t1complex) =>
  bind (if is_kw t5 K_Complex then
          if (t1complex =? 0)%Z then parse_error t5 E_complex
          else Ok (next_token t5, t1complex)
        else Ok (t5, t1op)) (fun '(t6, t1op6) =>
  bind (write_ds osz t6 t1op6) (fun '(t7, idx) => parse_sequel osz cx f t7 idx))))).
Proof. reflexivity. Qed.

Lemma parse_from_S' f input out :
  parse_from osz cx (S f) input out =
  bind (parse_complete osz cx f (start_tok input out)) (fun '(t1, result) =>
    if negb (kind_eqb (t_kind t1) KEnd) then parse_error t1 E_unexpected
    else Ok (t_out t1, result)).
Proof. reflexivity. Qed.

Lemma sequel_step f : P_parens f -> P_sequel (S f).
Proof.
  intros HP t outer Hw Ho. rewrite parse_sequel_S'.
  eapply okres_bind; [apply header_nf; [apply step_refl, Hw | exact Ho]|].
  intros [[t1 outer1] abi] [S1 O1].
  destruct (ident_skip t1) as (t2 & cfg & -> & A2). apply step_adv in A2 as [S2 L2]; [|apply S1].
  eapply okres_bind; [apply HP; [apply step_refl, S2 | exact I]|].
  intros [[[t3 pc] result] abi3] [S3 R3].
  destruct abi3; [exact I|].
  eapply okres_bind; [apply brackets_nf; [exact S3 | exact R3]|].
  intros [[t4 pc4] r4] [S4 R4].
  eapply okres_bind; [apply retarget_nf; [apply S4 | exact R4]|].
  intros [t5 r5] (S5 & L5 & _ & R5).
  split; [exact (step_trans S1 (step_trans S2 (step_trans S4 S5)))|].
  destruct S4 as (_ & _ & M4).
  destruct pc4 as [|x]; [rewrite R5; lia | subst r5; destruct R4; lia].
Qed.

Lemma complete_step f : P_sequel f -> P_from f -> P_complete (S f).
Proof.
  intros HS HF t Hw. rewrite parse_complete_S.
  eapply okres_bind; [apply qualifiers_nf, step_refl, Hw|].
  intros t1 [S1 _].
  eapply okres_bind; [apply modifiers_nf; exact S1|].
  intros [[t2 mlen] msign] [S2 _].
  eapply okres_bind with (P := fun '(t5, _, _) => step_ok t2 t5).
  { destruct (negb (mlen =? 0)%Z || negb (msign =? 0)%Z)%bool.
    - eapply okres_bind; [apply base_mod_nf, S2|].
      intros [t3 op] [S3 _]. exact S3.
    - eapply okres_bind; [apply base_plain_nf; [exact HF | apply S2]|].
      intros [[t3 op] cplx] [S3 P3]. exact (step_trans S3 (step_next t3 (proj1 S3) P3)). }
  intros [[t5 t1op] t1c] S5.
  eapply okres_bind; [apply (outcome_okres False), complex_skip; tauto|].
  intros [t6 op6] A6. apply step_adv in A6 as [S6 _]; [|apply S5].
  eapply okres_bind; [apply write_ds_nf; apply S6|].
  intros [t7 idx] (S7 & L7 & -> & _).
  eapply okres_impl; [apply HS; [apply S7 | pose proof (len_nonneg t6); lia]|].
  intros [t8 idx8] [S8 R8]. split; [|exact R8].
  exact (step_trans S2 (step_trans S5 (step_trans S6 (step_trans S7 S8)))).
Qed.

Lemma from_step f : P_complete f -> P_from (S f).
Proof.
  intros HC input out. rewrite parse_from_S'.
  eapply okres_bind; [apply HC; apply wf_next|].
  intros [t1 result] [(_ & _ & M1) R1].
  destruct (negb (kind_eqb (t_kind t1) KEnd)); [exact I|].
  unfold start_tok in M1. rewrite len_next in M1. unfold len in *. cbn [t_out] in M1. split; lia.
Qed.

Lemma args_step f : P_complete f -> P_args f -> P_args (S f).
Proof.
  intros HC HA t0 t an fl A0 Han Hinv. rewrite args_loop_S. pose proof A0 as (Hw & _ & _).
  destruct (kind_eqb (t_kind t) KDots) eqn:Ed.
  { assert (Ek : t_kind t = KDots) by (destruct (t_kind t); try discriminate; reflexivity).
    pose proof (step_next t Hw ltac:(rewrite Ek; apply plain_dots)) as S1.
    split; [exact (step_at1_trans A0 (step_at1_of S1)) | destruct S1 as (_ & _ & M1); lia]. }
  specialize (HC t Hw). destruct (parse_complete osz cx f t) as [[t1 arg]| |]; [|exact I|exact HC].
  destruct HC as [S1 A1].
  destruct (get_out_ok t1 arg A1) as [o ->]. cbn [bind].
  set (oarg := (let op := GETOP o in _) : res Z).
  assert (Hoarg : exists v, oarg = Ok v).
  { unfold oarg. cbv zeta. destruct (_ || _)%bool; [eauto|]. destruct (_ =? _)%Z; eauto. }
  destruct Hoarg as [v ->]. cbn [bind].
  pose proof S1 as (_ & N1 & M1).
  destruct (set_out_ok t1 an v (proj1 S1) ltac:(lia)) as (t2 & -> & S2 & L2 & _). cbn [bind].
  pose proof (step_at1_trans A0 (step_at1_of (step_trans S1 S2))) as A2.
  assert (Hnc : ncommas (t_rest t) 0 0 = ncommas (t_rest t2) 0 0) by (rewrite N1; apply S2).
  destruct (negb (is_ch t2 c_comma)) eqn:Ec; [split; [exact A2 | lia]|].
  apply negb_false_iff, is_ch_true in Ec.
  rewrite (commas_at_comma t2 (proj1 S2) Ec) in Hnc.
  apply HA; [exact (step_comma t0 t2 A2 Ec) | lia | rewrite len_next; lia].
Qed.

Definition inside_ok (t2 : tok) (r : tok * pcur * Z * option kw) : Prop :=
  let '(t9, pc9, r9, _) := r in step_at1 t2 t9 /\ res_ok t9 pc9 r9.

Lemma paren_group_nf f t2 abi2 : P_sequel f -> wf t2 -> okres (inside_ok t2) (paren_group f t2 abi2).
Proof.
  intros HS W2. unfold paren_group. cbv zeta. fold (len t2). pose proof (len_nonneg t2) as Hnn.
  eapply okres_bind; [apply write_ds_nf; exact W2|].
  intros [t3 i3] (S3 & L3 & _ & _).
  eapply okres_bind; [apply HS; [apply S3 | lia]|].
  intros [t4 x'] [S4 X4].
  split; [exact (step_at1_of (step_trans S3 S4))|].
  unfold res_ok. rewrite GETARG_OP_any. destruct S4 as (_ & _ & M4). lia.
Qed.

Lemma paren_func_nf f t2 pc result abi2 : P_args f -> wf t2 -> res_ok t2 pc result ->
  okres (inside_ok t2) (paren_func f t2 pc result abi2).
Proof.
  intros HA W2 Hr. unfold paren_func. cbv zeta.
  pose proof (void_skip t2) as A3.
  set (t3 := if (is_kw t2 K_void && _)%bool then next_token t2 else t2) in *.
  apply step_adv in A3 as [S3 L3]; [|exact W2].
  fold (len t3).
  eapply okres_bind; [apply retarget_nf; [apply S3 | eapply res_ok_mono; [exact Hr | lia]]|].
  intros [t4 r4] (S4 & L4 & _ & R4).
  eapply okres_bind; [apply write_ds_nf; apply S4|].
  intros [t5 base] (S5 & L5 & -> & _).
  eapply okres_bind; [apply reserve_nf; apply S5|].
  intros t6 (S6 & L6 & _).
  pose proof (step_trans S4 (step_trans S5 S6)) as S36.
  eapply okres_bind with (P := fun '(t7, an, _) => step_at1 t6 t7 /\ (0 <= an < len t7)%Z).
  - pose proof (len_nonneg t3).
    destruct (negb (is_ch t6 c_rpar)); [|split; [apply step_at1_refl, S6 | lia]].
    apply HA; [apply step_at1_refl, S6 | lia|].
    unfold number_of_commas in L6. rewrite <- (proj1 (proj2 S36) 0 0). lia.
  - intros [[t7 an] fl7] [A7 I7].
    destruct (set_out_ok t7 an (OP OP_FUNCTION_END fl7) (proj1 A7) I7) as (t8 & -> & S8 & L8 & _).
    split; [exact (step_at1_trans (step_at1_of (step_trans S3 S36)) (step_at1_trans A7 (step_at1_of S8)))|].
    destruct A7 as (_ & _ & M7). pose proof (len_nonneg t3). split; [lia|].
    destruct pc as [|x]; [rewrite R4 | subst r4; destruct Hr as [_ Hg]]; lia.
Qed.

Lemma parens_step f : P_sequel f -> P_args f -> P_parens f -> P_parens (S f).
Proof.
  intros HS HA HP t0 t pc result abi cfg S0 Hr. rewrite parens_S.
  destruct (is_ch t c_lpar) eqn:El; [|exact (conj S0 Hr)].
  apply is_ch_true in El.
  destruct (abi_skip (next_token t) abi) as (t2 & abi2 & -> & A2).
  apply step_adv in A2 as [S2 L2]; [|apply wf_next]. rewrite len_next in L2.
  eapply okres_bind with (P := inside_ok t2).
  - destruct (is_grouping cfg t2); [apply paren_group_nf; [exact HS | apply S2]|].
    apply paren_func_nf; [exact HA | apply S2 | eapply res_ok_mono; [exact Hr | lia]].
  - intros [[[t9 pc9] r9] abi9] [A9 R9]. unfold paren_close.
    destruct (negb (is_ch t9 c_rpar)) eqn:Er; [exact I|].
    apply negb_false_iff, is_ch_true in Er.
    apply HP; [exact (step_trans S0 (step_parens t t2 t9 (proj1 S0) El S2 A9 Er))|].
    eapply res_ok_mono; [exact R9 | rewrite len_next; lia].
Qed.

Theorem all_nf : forall f, P_sequel f /\ P_parens f /\ P_args f /\ P_complete f /\ P_from f.
Proof.
  induction f as [|f (IS & IP & IA & IC & IF)].
  - repeat split; intro; intros; exact I.
  - split; [apply sequel_step; exact IP|].
    split; [apply parens_step; assumption|].
    split; [apply args_step; assumption|].
    split; [apply complete_step; assumption | apply from_step; exact IC].
Qed.

(* parse_c_type never touches tok->output outside [0, output_index) *)
Theorem parse_no_fault : forall input, parse_c_type osz cx input <> Fault.
Proof.
  intros input H. unfold parse_c_type in H.
  destruct (all_nf (fuel_for input)) as (_ & _ & _ & _ & HF).
  specialize (HF input []). rewrite H in HF. exact HF.
Qed.

Theorem result_index_in_range : forall input out r,
  parse_c_type osz cx input = Ok (out, r) -> (0 <= r < Z.of_nat (List.length out))%Z.
Proof.
  intros input out r H. unfold parse_c_type in H.
  destruct (all_nf (fuel_for input)) as (_ & _ & _ & _ & HF).
  specialize (HF input []). rewrite H in HF. apply HF.
Qed.

End NF.

Theorem next_token_stops_at_terminator : forall s junk, nulfree s = true ->
  lex_from (s ++ 0%N :: junk) = lex_from s /\
  (forall k n kd, lex_from s = (k, n, kd) -> (k + n <= List.length s)%nat).
Proof. intros s junk H. split; [apply lex_from_terminator; exact H | apply lex_window]. Qed.

Theorem lookahead_stops_at_terminator : forall s junk,
  first_nonspace (s ++ 0%N :: junk) = first_nonspace s /\
  (forall d acc, ncommas (s ++ 0%N :: junk) d acc = ncommas s d acc).
Proof. intros s junk. split; [apply first_nonspace_terminator | intros; apply ncommas_terminator]. Qed.
