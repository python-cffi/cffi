(* C07 — type specifiers: what parse_complete makes of a specifier list (c_spec_run, shown in
   Parse.v to be what the model computes; c_spec_abs demands that no word is left, and Agree.v
   takes that step), what cparser makes of it (normalise + table), and what the two have in
   common: both first read the leading modifiers, and a list is accepted only if few words follow. *)
From Coq Require Import List Arith NArith ZArith Lia Bool String.
Import ListNotations.
From Cffi Require Import C25.Model C07.Model C07.Realize C07.PyModel C07.Lexer C07.Tokens.

Local Open Scope Z_scope.

Definition kw_of_mod (m : modifier) : kw :=
  match m with Msigned => K_signed | Munsigned => K_unsigned | Mshort => K_short | Mlong => K_long end.
Definition kw_of_base (b : basekw) : kw :=
  match b with Bint => K_int | Bchar => K_char | Bvoid => K_void | Bbool => K_Bool | Bfloat => K_float
             | Bdouble => K_double end.
Definition kw_of_word (w : word) : kw :=
  match w with WM m => kw_of_mod m | WB b => kw_of_base b | WComplex => K_Complex end.
Definition wkind (w : word) : kind := KKw (kw_of_word w).
Definition qkind (q : qual) : kind := KKw (match q with Qconst => K_const | Qvolatile => K_volatile end).

(* modifiers: loop (634): number of words consumed, modifiers_length, modifiers_sign; None = error *)
Fixpoint c_mods (ws : list word) (mlen msign : Z) : option (nat * Z * Z) :=
  match ws with
  | WM Mshort :: r =>
    if negb (mlen =? 0) then None
    else match c_mods r (mlen - 1) msign with Some (n, a, b) => Some (S n, a, b) | None => None end
  | WM Mlong :: r =>
    if mlen <? 0 then None else if mlen >=? 2 then None
    else match c_mods r (mlen + 1) msign with Some (n, a, b) => Some (S n, a, b) | None => None end
  | WM Msigned :: r =>
    if negb (msign =? 0) then None
    else match c_mods r mlen (msign + 1) with Some (n, a, b) => Some (S n, a, b) | None => None end
  | WM Munsigned :: r =>
    if negb (msign =? 0) then None
    else match c_mods r mlen (msign - 1) with Some (n, a, b) => Some (S n, a, b) | None => None end
  | _ => Some (O, mlen, msign)
  end.

Definition prim_by (mlen msign : Z) : Z :=
  if msign >=? 0 then
    (if mlen =? -2 then PRIM_SCHAR else if mlen =? -1 then PRIM_SHORT
     else if mlen =? 1 then PRIM_LONG else if mlen =? 2 then PRIM_LONGLONG else PRIM_INT)
  else
    (if mlen =? -2 then PRIM_UCHAR else if mlen =? -1 then PRIM_USHORT
     else if mlen =? 1 then PRIM_ULONG else if mlen =? 2 then PRIM_ULONGLONG else PRIM_UINT).

(* (t1, t1complex, words consumed) after the modifiers *)
Definition c_base (rest : list word) (mlen msign : Z) : option (Z * Z * nat) :=
  if negb (mlen =? 0) || negb (msign =? 0) then
    match rest with
    | WB Bvoid :: _ | WB Bbool :: _ | WB Bfloat :: _ | WComplex :: _ => None
    | WB Bdouble :: _ =>
      if negb (msign =? 0) || negb (mlen =? 1) then None
      else Some (OP OP_PRIMITIVE PRIM_LONGDOUBLE, 0, 1%nat)
    | WB Bchar :: _ => if negb (mlen =? 0) then None else Some (OP OP_PRIMITIVE (prim_by (-2) msign), 0, 1%nat)
    | WB Bint :: _ => Some (OP OP_PRIMITIVE (prim_by mlen msign), 0, 1%nat)
    | _ => Some (OP OP_PRIMITIVE (prim_by mlen msign), 0, O)
    end
  else
    match rest with
    | WB Bint :: _ => Some (OP OP_PRIMITIVE PRIM_INT, 0, 1%nat)
    | WB Bchar :: _ => Some (OP OP_PRIMITIVE PRIM_CHAR, 0, 1%nat)
    | WB Bvoid :: _ => Some (OP OP_PRIMITIVE PRIM_VOID, 0, 1%nat)
    | WB Bbool :: _ => Some (OP OP_PRIMITIVE PRIM_BOOL, 0, 1%nat)
    | WB Bfloat :: _ => Some (OP OP_PRIMITIVE PRIM_FLOAT, OP OP_PRIMITIVE PRIM_FLOATCOMPLEX, 1%nat)
    | WB Bdouble :: _ => Some (OP OP_PRIMITIVE PRIM_DOUBLE, OP OP_PRIMITIVE PRIM_DOUBLECOMPLEX, 1%nat)
    | _ => None
    end.

(* the opcode written for the specifier words, and how many words were used; None = error *)
Definition c_spec_run (ws : list word) : option (Z * nat) :=
  match c_mods ws 0 0 with
  | None => None
  | Some (n, mlen, msign) =>
    match c_base (skipn n ws) mlen msign with
    | None => None
    | Some (op, cplx, n2) =>
      match skipn (n + n2) ws with
      | WComplex :: _ => if cplx =? 0 then None else Some (cplx, S (n + n2))
      | _ => Some (op, (n + n2)%nat)
      end
    end
  end.

(* all words must be used: a left-over keyword is "unexpected symbol" / "expected ')'" *)
Definition c_spec_abs (ws : list word) : option Z :=
  match c_spec_run ws with
  | Some (op, n) => if (n =? List.length ws)%nat then Some op else None
  | None => None
  end.

Definition py_spec_abs (ws : list word) : option Z :=
  assoc_words py_prims (normalise ws).

Definition is_signed (w : word) : bool := match w with WM Msigned => true | _ => false end.
Definition is_nonint (w : word) : bool :=
  match w with
  | WM Munsigned | WB Bfloat | WB Bdouble | WB Bvoid | WB Bbool | WComplex => true
  | _ => false
  end.
(* `signed` is not silently dropped: at most one, and then no unsigned / non-integer keyword *)
Definition sign_ok (ws : list word) : bool :=
  match List.length (filter is_signed ws) with
  | O => true
  | 1%nat => negb (existsb is_nonint ws)
  | _ => false
  end.

Lemma sign_ok_count : forall ws, sign_ok ws = true -> (List.length (filter is_signed ws) <= 1)%nat.
Proof.
  intros ws H. unfold sign_ok in H.
  destruct (List.length (filter is_signed ws)) as [|[|n]]; try lia; try discriminate.
Qed.

Definition head_nonmod (rest : list word) : bool := match rest with WM _ :: _ => false | _ => true end.

Lemma split_mods : forall ws, exists ms rest, ws = map WM ms ++ rest /\ head_nonmod rest = true.
Proof.
  induction ws as [|w ws IH]; [exists [], []; split; reflexivity|].
  destruct w as [m| |]; [| exists [], (WB b :: ws) | exists [], (WComplex :: ws)]; try (split; reflexivity).
  destruct IH as (ms & rest & -> & H). exists (m :: ms), rest. split; [reflexivity | exact H].
Qed.

(* cparser only counts the leading modifiers *)
Definition cnt (m : modifier) (ms : list modifier) : nat := List.length (filter (modifier_eqb m) ms).

Lemma strip_counts : forall rest, head_nonmod rest = true -> forall ms cs cl csg cu,
  strip_prefixes (map WM ms ++ rest) cs cl csg cu =
  (rest, (cs + cnt Mshort ms, cl + cnt Mlong ms, csg + cnt Msigned ms, cu + cnt Munsigned ms))%nat.
Proof.
  intros rest Hr. induction ms as [|m ms IH]; intros cs cl csg cu.
  - cbn. rewrite !Nat.add_0_r. destruct rest as [|[]]; try reflexivity. discriminate.
  - destruct m; cbn [map app strip_prefixes]; rewrite IH; unfold cnt; cbn [filter modifier_eqb List.length];
      rewrite <- Nat.add_succ_comm; reflexivity.
Qed.

Lemma cnt_total ms : (cnt Mshort ms + cnt Mlong ms + cnt Msigned ms + cnt Munsigned ms = List.length ms)%nat.
Proof. unfold cnt. induction ms as [|[] ms IH]; cbn [filter modifier_eqb List.length]; lia. Qed.

Lemma cnt_signed ms : List.length (filter is_signed (map WM ms)) = cnt Msigned ms.
Proof. unfold cnt. induction ms as [|[] ms IH]; cbn [map filter is_signed modifier_eqb List.length]; congruence. Qed.

Lemma cnt_unsigned ms : (0 < cnt Munsigned ms)%nat -> existsb is_nonint (map WM ms) = true.
Proof. unfold cnt. induction ms as [|[] ms IH]; cbn; auto. lia. Qed.

(* The counts for which the table of primitive types has rows: at most one sign, and with a `short` weighing two
   `long`s a weight of at most two. While cparser's counts are among them the accumulators of the C loop are
   their differences (tracks), and the C loop gives up exactly when they leave: it accepts the modifiers iff the
   counts are still among them at the end. *)
Definition counts_ok (cs cl csg cu : nat) : Prop := (csg + cu <= 1 /\ 2 * cs + cl <= 2)%nat.

Definition tracks (cs cl csg cu : nat) (mlen msign : Z) : Prop :=
  counts_ok cs cl csg cu /\ mlen = Z.of_nat cl - Z.of_nat cs /\ msign = Z.of_nat csg - Z.of_nat cu.

Lemma c_mods_counts : forall rest, head_nonmod rest = true -> forall ms cs cl csg cu mlen msign,
  tracks cs cl csg cu mlen msign ->
  let final := counts_ok (cs + cnt Mshort ms) (cl + cnt Mlong ms) (csg + cnt Msigned ms) (cu + cnt Munsigned ms) in
  match c_mods (map WM ms ++ rest) mlen msign with
  | Some (n, _, _) => n = List.length ms /\ final
  | None => ~ final
  end.
Proof.
  intros rest Hr. induction ms as [|m ms IH]; intros cs cl csg cu mlen msign Ht final; subst final.
  - cbn [map app cnt filter List.length]. rewrite !Nat.add_0_r.
    replace (c_mods _ _ _) with (Some (O, mlen, msign)); [split; [reflexivity | apply Ht]|].
    destruct rest as [|[]]; try reflexivity. discriminate.
  - assert (Hbump : forall (r : option (nat * Z * Z)) k (P : Prop),
              match r with Some (n, _, _) => n = k /\ P | None => ~ P end ->
              match match r with Some (n, a, b) => Some (S n, a, b) | None => None end with
              | Some (n, _, _) => n = S k /\ P | None => ~ P end).
    { intros [[[n a] b]|] k P; [intros [-> H]; split; [reflexivity | exact H] | exact id]. }
    unfold cnt in *. destruct m; cbn [map app c_mods List.length filter modifier_eqb];
      rewrite <- Nat.add_succ_comm.
    1,2: destruct (Z.eqb_spec msign 0); cbn [negb]; [|unfold tracks, counts_ok in *; lia].
    3: destruct (Z.eqb_spec mlen 0); cbn [negb]; [|unfold tracks, counts_ok in *; lia].
    4: destruct (Z.ltb_spec mlen 0); [unfold tracks, counts_ok in *; lia|].
    4: rewrite Z.geb_leb; destruct (Z.leb_spec 2 mlen); [unfold tracks, counts_ok in *; lia|].
    all: apply Hbump, IH; unfold tracks, counts_ok in *; lia.
Qed.

Lemma c_mods_app : forall rest, head_nonmod rest = true -> forall ms mlen msign,
  c_mods (map WM ms ++ rest) mlen msign = c_mods (map WM ms) mlen msign.
Proof.
  intros rest Hr. induction ms as [|[] ms IH]; intros; cbn [map app c_mods]; rewrite ?IH; try reflexivity.
  destruct rest as [|[]]; try reflexivity. discriminate.
Qed.

Lemma c_base_used rest mlen msign :
  match c_base rest mlen msign with Some (_, _, n) => (n <= 1)%nat | None => True end.
Proof.
  unfold c_base. destruct (negb (mlen =? 0) || negb (msign =? 0)); destruct rest as [|[[]|[]|] r];
    repeat match goal with |- context [if ?c then _ else _] => destruct c end; auto.
Qed.

Lemma c_spec_run_used : forall ws op k n mlen msign,
  c_spec_run ws = Some (op, k) -> c_mods ws 0 0 = Some (n, mlen, msign) -> (k <= n + 2)%nat.
Proof.
  intros ws op k n mlen msign H Hm. unfold c_spec_run in H. rewrite Hm in H.
  pose proof (c_base_used (skipn n ws) mlen msign) as Eb.
  destruct (c_base (skipn n ws) mlen msign) as [[[op' cplx] n2]|]; [|discriminate].
  destruct (skipn (n + n2) ws) as [|[| |] r]; [| | |destruct (cplx =? 0); [discriminate|]]; inversion H; lia.
Qed.

(* every modifier the C loop consumes moves one accumulator one step away from 0, within [-2, 2] and
   [-1, 1]; the second disjunct is for the induction, which starts the loop anywhere. The weight is a
   variable: of |.| the argument uses only the four facts assumed of w. *)
Lemma c_mods_weight (w : Z -> Z) :
  w 0 = 0 -> w 1 = 1 -> w (-1) = 1 -> (forall x, 0 <= x < 2 -> w (x + 1) = w x + 1 /\ w x <= 1) ->
  forall ws mlen msign n a b,
  c_mods ws mlen msign = Some (n, a, b) ->
  Z.of_nat n + w mlen + w msign = w a + w b /\ w a <= 2 /\ w b <= 1 \/ ~ (w mlen <= 2 /\ w msign <= 1).
Proof.
  intros W0 W1 Wm Wl. induction ws as [|[[]|bk|] ws IH]; intros mlen msign n a b H; cbn [c_mods] in H;
    try (injection H as <- <- <-; lia).
  1,2: destruct (Z.eqb_spec msign 0) as [->|]; [|discriminate].
  3: destruct (Z.eqb_spec mlen 0) as [->|]; [|discriminate].
  4: destruct (Z.ltb_spec mlen 0); [discriminate|]; rewrite Z.geb_leb in H; destruct (Z.leb_spec 2 mlen); [discriminate|];
     pose proof (Wl mlen ltac:(lia)).
  all: cbn [negb Z.add Z.sub Z.opp Z.pos_sub] in H; destruct (c_mods ws _ _) as [[[n' a'] b']|] eqn:E; [|discriminate];
    injection H as <- <- <-; apply IH in E; lia.
Qed.

Lemma c_mods_count : forall ws mlen msign n a b,
  c_mods ws mlen msign = Some (n, a, b) ->
  Z.of_nat n + Z.abs mlen + Z.abs msign = Z.abs a + Z.abs b /\ Z.abs a <= 2 /\ Z.abs b <= 1 \/
  ~ (Z.abs mlen <= 2 /\ Z.abs msign <= 1).
Proof. apply (c_mods_weight Z.abs); try reflexivity. intros; lia. Qed.

Lemma c_spec_abs_short : forall ws op, c_spec_abs ws = Some op -> (List.length ws <= 5)%nat.
Proof.
  intros ws op H. unfold c_spec_abs in H.
  destruct (c_spec_run ws) as [[op' k]|] eqn:Er; [|discriminate].
  destruct (Nat.eqb_spec k (List.length ws)) as [->|]; [|discriminate].
  destruct (c_mods ws 0 0) as [[[n a] b]|] eqn:Em; [|unfold c_spec_run in Er; rewrite Em in Er; discriminate].
  pose proof (c_spec_run_used _ _ _ _ _ _ Er Em). destruct (c_mods_count _ _ _ _ _ _ Em); lia.
Qed.

(* the key cparser looks up, from the words after the modifiers and the counts *)
Definition py_key (rest : list word) (cs cl cu : nat) : list word :=
  let rest1 := match rest with [] => [WB Bint] | _ => rest end in
  (repeat (WM Munsigned) cu ++ repeat (WM Mshort) cs ++ repeat (WM Mlong) cl) ++
  (if words_eqb rest1 [WB Bint] && (negb (cs =? 0)%nat || negb (cl =? 0)%nat) then [] else rest1).

Lemma signed_char : forall ws, words_eqb ws [WM Msigned; WB Bchar] = true -> ws = [WM Msigned; WB Bchar].
Proof.
  intros [|x [|y [|]]]; cbn; rewrite ?andb_false_r; try discriminate. rewrite andb_true_r. intros H. apply andb_true_iff in H as [Hx Hy].
  destruct x as [[]| |]; try discriminate. destruct y as [|[]|]; try discriminate. reflexivity.
Qed.

Lemma normalise_key : forall ws rest cs cl csg cu,
  words_eqb ws [WM Msigned; WB Bchar] = false -> strip_prefixes ws 0 0 0 0 = (rest, (cs, cl, csg, cu)) ->
  normalise ws = py_key rest cs cl cu.
Proof. intros ws rest cs cl csg cu H E. unfold normalise. rewrite H, E. reflexivity. Qed.

Lemma py_key_bad : forall rest cs cl cu,
  ~ (cu <= 1 /\ 2 * cs + cl <= 2)%nat ->
  assoc_words py_prims (py_key rest cs cl cu) = None.
Proof.
  intros rest cs cl cu H. unfold py_key. cbv zeta.
  generalize (if words_eqb match rest with [] => [WB Bint] | _ => rest end [WB Bint] &&
                   (negb (cs =? 0)%nat || negb (cl =? 0)%nat)
              then [] else match rest with [] => [WB Bint] | _ => rest end).
  intros tail.
  destruct cu as [|[|cu]], cs as [|[|cs]], cl as [|[|[|cl]]]; try (exfalso; lia); reflexivity.
Qed.

Lemma assoc_words_in : forall tbl k v, assoc_words tbl k = Some v -> exists k', In (k', v) tbl /\ words_eqb k' k = true.
Proof.
  induction tbl as [|[k' v'] tbl IH]; intros k v H; cbn in H; [discriminate|].
  destruct (words_eqb k' k) eqn:E.
  - inversion H; subst. exists k'. split; [left; reflexivity | exact E].
  - destruct (IH _ _ H) as [k'' [A B]]. exists k''. split; [right; exact A | exact B].
Qed.

Lemma words_eqb_length : forall a b, words_eqb a b = true -> List.length a = List.length b.
Proof.
  induction a as [|x a IH]; intros [|y b] H; cbn in *; try discriminate; [reflexivity|].
  apply andb_true_iff in H as [_ H]. f_equal. apply IH; exact H.
Qed.

Lemma py_prims_short : forall k v, assoc_words py_prims k = Some v -> (List.length k <= 3)%nat.
Proof.
  intros k v H. destruct (assoc_words_in _ _ _ H) as [k' [Hin He]].
  rewrite <- (words_eqb_length _ _ He).
  assert (Hall : forallb (fun kv => (List.length (fst kv) <=? 3)%nat) py_prims = true) by reflexivity.
  rewrite forallb_forall in Hall. apply Nat.leb_le. exact (Hall _ Hin).
Qed.

(* with three words or more after the modifiers the key is too long for the table, or it is these three words
   and begins with none of the modifiers that the rows of three words begin with *)
Lemma py_key_long : forall x y z r cs cl cu, head_nonmod (x :: y :: z :: r) = true ->
  assoc_words py_prims (py_key (x :: y :: z :: r) cs cl cu) = None.
Proof.
  intros x y z r cs cl cu Hx.
  destruct (assoc_words py_prims _) as [v|] eqn:E; [exfalso | reflexivity].
  pose proof (py_prims_short _ _ E) as Hl. unfold py_key in E, Hl.
  cbn [words_eqb] in E, Hl. rewrite andb_false_r in E, Hl. cbn [andb] in E, Hl.
  rewrite !app_length, !repeat_length in Hl. cbn [List.length] in Hl.
  assert (Hz : (cu + (cs + cl) + List.length r = 0)%nat) by lia.
  destruct cu, cs, cl, r; try discriminate Hz. cbn [repeat app] in E.
  destruct x as [m|[]|]; try discriminate Hx; destruct y; discriminate E.
Qed.

Definition all_words : list word :=
  [WM Msigned; WM Munsigned; WM Mshort; WM Mlong; WB Bint; WB Bchar; WB Bvoid; WB Bbool; WB Bfloat;
   WB Bdouble; WComplex].
Definition all_mods : list modifier := [Msigned; Munsigned; Mshort; Mlong].

Fixpoint lists_upto {A} (alphabet : list A) (n : nat) : list (list A) :=
  match n with
  | O => [[]]
  | S n' => [] :: flat_map (fun l => map (fun a => a :: l) alphabet) (lists_upto alphabet n')
  end.

(* up to three modifiers that the C loop accepts, then up to two words, the first not a modifier *)
Definition small_lists : list (list word) :=
  flat_map (fun ms => map (app (map WM ms)) (filter head_nonmod (lists_upto all_words 2)))
    (filter (fun ms => if c_mods (map WM ms) 0 0 then true else false) (lists_upto all_mods 3)).

Definition agree_on (ws : list word) : bool :=
  match ws with
  | [] => true
  | _ => negb (sign_ok ws) ||
         match c_spec_abs ws, py_spec_abs ws with
         | Some a, Some b => OP OP_PRIMITIVE b =? a
         | None, None => true
         | _, _ => false
         end
  end.

Lemma all_words_complete : forall w, In w all_words.
Proof. intros [[]|[]|]; cbn; tauto. Qed.

Lemma lists_upto_complete {A} (alphabet : list A) : (forall a, In a alphabet) ->
  forall n l, (List.length l <= n)%nat -> In l (lists_upto alphabet n).
Proof.
  intros Hall. induction n; intros l H.
  - destruct l; [left; reflexivity | cbn in H; lia].
  - destruct l as [|a l]; [left; reflexivity|]. right.
    apply in_flat_map. exists l. split; [apply IHn; cbn in H; lia|].
    apply in_map_iff. exists a. split; [reflexivity | apply Hall].
Qed.
