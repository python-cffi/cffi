(* C07 — memory safety of the type-string parser model, for ALL strings, contexts and buffer sizes:
   every index used to read or write tok->output is inside [0, output_index) (hence inside the
   buffer), and the scanning primitives stop at the terminator.

   The central invariant is the one the C code relies on when it reserves `number_of_commas + 2`
   slots for the arguments of a function type: while the arguments are parsed,
       arg_next + (commas at nesting level 0 still ahead) + 1  <  output_index
   which holds because parse_complete consumes a piece of text that is balanced in parentheses
   and contains no comma at level 0 ("comma neutral"). *)
From Coq Require Import List Arith NArith ZArith Lia Bool String.
Import ListNotations.
From Cffi Require Import Base.ListFacts C25.Model C07.Model C07.Lexer.

Local Open Scope nat_scope.

Definition neutral_char (c : N) : bool :=
  negb (N.eqb c c_comma || N.eqb c c_lpar || N.eqb c c_rpar || N.eqb c 0).
Definition neutral_str (s : str) : bool := forallb neutral_char s.

Lemma ncommas_acc : forall s d acc, ncommas s d acc = acc + ncommas s d 0.
Proof.
  induction s as [|c s IH]; intros d acc; cbn [ncommas]; [lia|].
  destruct (N.eqb c c_comma).
  - destruct d; [rewrite (IH 0 (S acc)), (IH 0 1); lia | apply IH].
  - destruct (N.eqb c c_lpar); [apply IH|].
    destruct (N.eqb c c_rpar); [destruct d; [lia | apply IH]|].
    destruct (N.eqb c 0); [lia | apply IH].
Qed.

Lemma ncommas_neutral : forall a r d acc, neutral_str a = true ->
  ncommas (a ++ r) d acc = ncommas r d acc.
Proof.
  induction a as [|c a IH]; intros r d acc H; [reflexivity|].
  cbn [neutral_str forallb] in H. apply andb_true_iff in H as [Hc Ha].
  unfold neutral_char in Hc. apply negb_true_iff in Hc.
  apply orb_false_iff in Hc as [Hc H0]. apply orb_false_iff in Hc as [Hc H3].
  apply orb_false_iff in Hc as [H1 H2].
  cbn [app ncommas]. rewrite H1, H2, H3, H0. apply IH. exact Ha.
Qed.

Lemma neutral_of (f : N -> bool) :
  f c_comma = false -> f c_lpar = false -> f c_rpar = false -> f 0%N = false ->
  forall c, f c = true -> neutral_char c = true.
Proof.
  intros H1 H2 H3 H4 c Hc. unfold neutral_char.
  destruct (N.eqb_spec c c_comma) as [->|_]; [congruence|].
  destruct (N.eqb_spec c c_lpar) as [->|_]; [congruence|].
  destruct (N.eqb_spec c c_rpar) as [->|_]; [congruence|].
  destruct (N.eqb_spec c 0) as [->|_]; [congruence | reflexivity].
Qed.

Lemma space_neutral c : is_space c = true -> neutral_char c = true.
Proof. apply neutral_of; reflexivity. Qed.
Lemma ident_next_neutral c : is_ident_next c = true -> neutral_char c = true.
Proof. apply neutral_of; reflexivity. Qed.
Lemma hex_neutral c : is_hex_digit c = true -> neutral_char c = true.
Proof. apply neutral_of; reflexivity. Qed.

Lemma forallb_impl {A} (f g : A -> bool) l : (forall x, f x = true -> g x = true) ->
  forallb f l = true -> forallb g l = true.
Proof. apply ListFacts.forallb_impl. Qed.

Lemma ws_neutral w : forallb is_space w = true -> neutral_str w = true.
Proof. apply forallb_impl, space_neutral. Qed.

Lemma span_props (f : N -> bool) : forall s,
  span f s <= List.length s /\ forallb f (firstn (span f s) s) = true.
Proof.
  induction s as [|c s [IH1 IH2]]; cbn [span]; [split; [lia | reflexivity]|].
  destruct (f c) eqn:E; cbn [List.length firstn forallb]; [|split; [lia | reflexivity]].
  rewrite E, IH2. split; [lia | reflexivity].
Qed.

(* the token of kind kd is the first n characters of s; unless punctuation or TOK_END it has no ',', '(', ')' or NUL in it *)
Definition token_ok (kd : kind) (n : nat) (s : str) : Prop :=
  n <= List.length s /\
  match kd with
  | KChar c => n = 1 /\ nth_error s 0 = Some c /\ c <> 0%N
  | KEnd => n = 0 /\ (s = [] \/ exists r, s = 0%N :: r)
  | _ => neutral_str (firstn n s) = true
  end.

Lemma span_neutral (f : N -> bool) s : (forall c, f c = true -> neutral_char c = true) ->
  forallb neutral_char (firstn (span f s) s) = true.
Proof. intros H. apply (forallb_impl f); [exact H | apply span_props]. Qed.

(* get_following_char returns the character the next token starts with, NUL at the end *)
Lemma first_nonspace_span : forall s, first_nonspace s = hd 0%N (skipn (span is_space s) s).
Proof. induction s as [|c s IH]; [reflexivity|]. cbn [first_nonspace span]. destruct (is_space c); [exact IH | reflexivity]. Qed.

(* next_token skips the white space and nothing else; what it then finds *)
Lemma lex_from_props : forall s k n kd, lex_from s = (k, n, kd) ->
  k = span is_space s /\ token_ok kd n (skipn k s) /\ (kd <> KEnd -> 1 <= n).
Proof.
  (* every branch but the white space one finds its token at the head *)
  assert (H0 : forall c s n kd, is_space c = false -> token_ok kd n (c :: s) -> (kd <> KEnd -> 1 <= n) ->
            0 = span is_space (c :: s) /\ token_ok kd n (skipn 0 (c :: s)) /\ (kd <> KEnd -> 1 <= n))
    by (intros c s n kd E T P; cbn [span]; rewrite E; auto).
  induction s as [|c s IH]; intros k n kd H.
  - injection H as <- <- <-. repeat split; auto; congruence.
  - cbn [lex_from] in H.
    destruct (is_ident_first c) eqn:E1.
    { injection H as <- <- <-. pose proof (span_props is_ident_next s) as [Hs _].
      apply H0; [destruct (is_space c) eqn:E; [apply space_not_ident in E; congruence | reflexivity]| |lia].
      assert (neutral_str (firstn (S (span is_ident_next s)) (c :: s)) = true).
      { cbn [firstn neutral_str forallb].
        rewrite (span_neutral _ s ident_next_neutral), ident_next_neutral; [reflexivity|].
        unfold is_ident_next. rewrite E1. reflexivity. }
      destruct (kw_of _); (split; [cbn [List.length]; lia | assumption]). }
    destruct (is_space c) eqn:E2.
    { destruct (lex_from s) as [[k' n'] kd']. injection H as <- <- <-.
      destruct (IH _ _ _ eq_refl) as (A & C). cbn [span skipn]. rewrite E2, <- A. auto. }
    destruct (is_digit c) eqn:E3.
    { injection H as <- <- <-.
      assert (Hc : neutral_char c = true)
        by (apply ident_next_neutral; unfold is_ident_next; rewrite E3; apply orb_true_r).
      destruct s as [|c1 s2]; [apply H0; [exact E2 | split; cbn; [lia | rewrite Hc; reflexivity] | cbn; lia]|].
      destruct (N.eqb c1 120 || N.eqb c1 88)%bool eqn:Ex; cbn [skipn Nat.add]; (apply H0; [exact E2| |lia]).
      - pose proof (span_props is_hex_digit s2) as [Hs _]. split; [cbn [List.length]; lia|].
        cbn [firstn neutral_str forallb]. rewrite Hc, (span_neutral _ s2 hex_neutral).
        apply orb_true_iff in Ex as [Ex|Ex]; apply N.eqb_eq in Ex; subst; reflexivity.
      - pose proof (span_props is_hex_digit (c1 :: s2)) as [Hs _]. split; [cbn [List.length] in *; lia|].
        cbn [firstn neutral_str forallb]. rewrite Hc. apply (span_neutral _ (c1 :: s2) hex_neutral). }
    destruct (N.eqb c c_dot && _)%bool eqn:E4.
    { injection H as <- <- <-. apply H0; [exact E2| |lia].
      destruct s as [|c1 [|c2 s3]]; try (rewrite andb_false_r in E4; discriminate).
      apply andb_true_iff in E4 as [Ea Eb]. apply andb_true_iff in Eb as [Eb Ec].
      apply N.eqb_eq in Ea, Eb, Ec. subst. split; [cbn; lia | reflexivity]. }
    destruct (N.eqb_spec c 0) as [->|E5]; injection H as <- <- <-; (apply H0; [exact E2| |]).
    + repeat split; [lia|]. right. eexists; reflexivity.
    + congruence.
    + repeat split; [cbn; lia | exact E5].
    + lia.
Qed.

(* the current token is as next_token leaves it (wf_next), or no token has been read yet *)
Definition wf (t : tok) : Prop := token_ok (t_kind t) (t_size t) (t_rest t) \/ t_kind t = KStart /\ t_size t = 0.

Lemma wf_next t : wf (next_token t).
Proof.
  unfold next_token.
  destruct (lex_from (skipn (t_size t) (t_rest t))) as [[k n] kd] eqn:E.
  left. apply (lex_from_props _ _ _ _ E).
Qed.

Lemma head_rpar kd n s : token_ok kd n s -> (kd <> KEnd -> 1 <= n) ->
  N.eqb (hd 0%N s) c_rpar = kind_eqb kd (KChar c_rpar).
Proof.
  intros [_ T] P.
  assert (Hn : neutral_str (firstn n s) = true -> 1 <= n -> N.eqb (hd 0%N s) c_rpar = false).
  { intros H H1. destruct n; [lia|]. destruct s as [|c s]; [reflexivity|].
    cbn [firstn neutral_str forallb] in H. apply andb_true_iff in H as [H _]. unfold neutral_char in H.
    cbn [hd]. destruct (N.eqb c c_rpar); [rewrite orb_true_r in H; discriminate | reflexivity]. }
  destruct kd; try (apply Hn; [exact T | apply P; discriminate]).
  - destruct T as [_ [->|[r ->]]]; reflexivity.
  - destruct T as (_ & T & _). destruct s; [discriminate|]. injection T as ->. reflexivity.
Qed.

Lemma wf_with_out t o : wf t -> wf (with_out t o).
Proof. intros H. exact H. Qed.

Definition neutral_step (t t' : tok) : Prop :=
  forall d acc, ncommas (t_rest t) d acc = ncommas (t_rest t') d acc.

Lemma neutral_refl t : neutral_step t t.
Proof. intros d acc. reflexivity. Qed.
Lemma neutral_trans a b c : neutral_step a b -> neutral_step b c -> neutral_step a c.
Proof. intros H1 H2 d acc. rewrite H1. apply H2. Qed.

(* number_of_commas one token at a time: every neutrality fact comes from it *)
Lemma scan_next : forall t, wf t -> forall d acc,
  ncommas (t_rest t) d acc =
  match t_kind t with
  | KChar c =>
    if N.eqb c c_comma then ncommas (t_rest (next_token t)) d (match d with O => S acc | _ => acc end)
    else if N.eqb c c_lpar then ncommas (t_rest (next_token t)) (S d) acc
    else if N.eqb c c_rpar then match d with O => acc | S d' => ncommas (t_rest (next_token t)) d' acc end
    else ncommas (t_rest (next_token t)) d acc
  | KEnd => acc
  | _ => ncommas (t_rest (next_token t)) d acc
  end.
Proof.
  intros t Hwf d acc. unfold next_token.
  destruct (lex_from (skipn (t_size t) (t_rest t))) as [[k n] kd] eqn:E.
  destruct (lex_from_props _ _ _ _ E) as (Ek & _). cbn [t_rest].
  set (s := skipn (t_size t) (t_rest t)) in *.
  assert (Hs : forall d acc, ncommas s d acc = ncommas (skipn k s) d acc).
  { intros d0 acc0. rewrite <- (firstn_skipn k s) at 1. rewrite Ek. apply ncommas_neutral, ws_neutral, span_props. }
  assert (Hn : neutral_str (firstn (t_size t) (t_rest t)) = true ->
               ncommas (t_rest t) d acc = ncommas (skipn k s) d acc).
  { intros Hk. rewrite <- (firstn_skipn (t_size t) (t_rest t)) at 1. rewrite ncommas_neutral by exact Hk. apply Hs. }
  destruct Hwf as [[_ Hk]|[Hk Hz]]; [|rewrite Hk; apply Hn; rewrite Hz; reflexivity].
  destruct (t_kind t) as [| | | | |c|kw0]; try (apply Hn, Hk).
  - destruct Hk as [_ [Hr|[r Hr]]]; rewrite Hr; reflexivity.
  - destruct Hk as (H1 & Hc & Hnz).
    destruct (t_rest t) as [|c0 r]; [discriminate|]. injection Hc as ->.
    subst s. rewrite H1 in *. cbn [skipn ncommas] in *.
    destruct (N.eqb c c_comma); [apply Hs|].
    destruct (N.eqb c c_lpar); [apply Hs|].
    destruct (N.eqb c c_rpar); [destruct d; [reflexivity | apply Hs]|].
    apply N.eqb_neq in Hnz. rewrite Hnz. apply Hs.
Qed.

Lemma next_neutral t : wf t ->
  (forall c, t_kind t = KChar c -> c <> c_comma /\ c <> c_lpar /\ c <> c_rpar) -> t_kind t <> KEnd ->
  neutral_step t (next_token t).
Proof.
  intros Hwf Hc He d acc. rewrite (scan_next t Hwf).
  destruct (t_kind t) as [| | | | |c|kw0] eqn:Ek; try reflexivity; [congruence|].
  destruct (Hc c eq_refl) as (A & B & C).
  apply N.eqb_neq in A, B, C. rewrite A, B, C. reflexivity.
Qed.

(* The three scanning primitives read the text from tok->p on.  Their result does not depend on
   what is stored after the terminating NUL, and the token window they deliver lies before it. *)
Definition nulfree (s : str) : bool := forallb (fun c => negb (N.eqb c 0)) s.

Lemma span_stop (f : N -> bool) : f 0%N = false -> forall a junk,
  span f (a ++ 0%N :: junk) = span f a.
Proof.
  intros H0. induction a as [|c a IH]; intros junk; cbn [app span]; [rewrite H0; reflexivity|].
  destruct (f c); [rewrite IH|]; reflexivity.
Qed.

Lemma firstn_app_le {A} n (a b : list A) : n <= List.length a -> firstn n (a ++ b) = firstn n a.
Proof. apply ListFacts.firstn_app_le. Qed.

Theorem lex_from_terminator : forall s junk, nulfree s = true ->
  lex_from (s ++ 0%N :: junk) = lex_from s.
Proof.
  induction s as [|c s IH]; intros junk Hn; [reflexivity|].
  cbn [nulfree forallb] in Hn. apply andb_true_iff in Hn as [Hc Hs]. apply negb_true_iff in Hc.
  cbn [app lex_from].
  destruct (is_ident_first c).
  { rewrite (span_stop is_ident_next eq_refl).
    change (c :: s ++ 0%N :: junk) with ((c :: s) ++ 0%N :: junk).
    rewrite firstn_app_le; [reflexivity|]. cbn [List.length]. pose proof (span_props is_ident_next s). lia. }
  destruct (is_space c); [rewrite (IH junk Hs); reflexivity|].
  destruct (is_digit c).
  { destruct s as [|c1 s2]; [reflexivity|]. cbn [app].
    destruct (N.eqb c1 120 || N.eqb c1 88)%bool; cbn [skipn].
    - rewrite (span_stop is_hex_digit eq_refl). reflexivity.
    - change (c1 :: s2 ++ 0%N :: junk) with ((c1 :: s2) ++ 0%N :: junk).
      rewrite (span_stop is_hex_digit eq_refl). reflexivity. }
  assert (Hd : match s ++ 0%N :: junk with
               | c1 :: c2 :: _ => N.eqb c1 c_dot && N.eqb c2 c_dot
               | _ => false
               end = match s with c1 :: c2 :: _ => N.eqb c1 c_dot && N.eqb c2 c_dot | _ => false end).
  { destruct s as [|c1 [|c2 s3]]; cbn [app]; [destruct junk; reflexivity | apply andb_false_r | reflexivity]. }
  rewrite Hd. destruct (N.eqb c c_dot && _)%bool; [reflexivity|]. rewrite Hc. reflexivity.
Qed.

Theorem first_nonspace_terminator : forall s junk,
  first_nonspace (s ++ 0%N :: junk) = first_nonspace s.
Proof.
  induction s as [|c s IH]; intros junk; [reflexivity|]. cbn [app first_nonspace].
  destruct (is_space c); [apply IH | reflexivity].
Qed.

Theorem ncommas_terminator : forall s junk d acc,
  ncommas (s ++ 0%N :: junk) d acc = ncommas s d acc.
Proof.
  induction s as [|c s IH]; intros junk d acc; [reflexivity|]. cbn [app ncommas].
  destruct (N.eqb c c_comma); [apply IH|].
  destruct (N.eqb c c_lpar); [apply IH|].
  destruct (N.eqb c c_rpar); [destruct d; [reflexivity | apply IH]|].
  destruct (N.eqb c 0); [reflexivity | apply IH].
Qed.

Theorem lex_window : forall s k n kd, lex_from s = (k, n, kd) -> k + n <= List.length s.
Proof.
  intros s k n kd H. destruct (lex_from_props _ _ _ _ H) as (-> & [B _] & _).
  rewrite skipn_length in B. pose proof (span_props is_space s). lia.
Qed.
