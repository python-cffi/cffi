(* C07 — lemmas about next_token: a spelled token list is read back token by token.

   `st input i` is the parser state positioned on the i-th token of `input` (i applications of
   next_token after the initial one).  `lexed input toks` says that these states carry the
   kinds and texts of `toks`, then TOK_END for ever.  The main lemma `spell_lexed` shows it for
   `spell wtoks trailing` whenever every token is a lexeme of its kind and adjacent tokens that
   would merge are separated by white space (`seps`, which PyModel's boolean `sep_ok` implies). *)
From Coq Require Import List Arith NArith ZArith Lia Bool.
Import ListNotations.
From Cffi Require Import C25.Model C07.Model C07.PyModel.

Local Open Scope nat_scope.

Lemma iter_succ_r {A} (f : A -> A) n x : Nat.iter (S n) f x = Nat.iter n f (f x).
Proof. induction n; cbn in *; [reflexivity | rewrite IHn; reflexivity]. Qed.

Definition st0 (input : str) : tok := mkTok input 0 0 KStart [].
Definition st (input : str) (i : nat) : tok := Nat.iter (S i) next_token (st0 input).

Lemma next_token_with_out t o : next_token (with_out t o) = with_out (next_token t) o.
Proof.
  unfold next_token, with_out; cbn.
  destruct (lex_from (skipn (t_size t) (t_rest t))) as [[k n] kd]; reflexivity.
Qed.

Lemma st_S input i : st input (S i) = next_token (st input i).
Proof. reflexivity. Qed.

Lemma t_out_next t : t_out (next_token t) = t_out t.
Proof.
  unfold next_token. destruct (lex_from (skipn (t_size t) (t_rest t))) as [[k n] kd]; reflexivity.
Qed.

Lemma st_out input i : t_out (st input i) = [].
Proof.
  induction i.
  - unfold st; cbn. rewrite t_out_next. reflexivity.
  - rewrite st_S, t_out_next. exact IHi.
Qed.

(* the parser state: lexer position i, output o *)
Definition T (input : str) (i : nat) (o : list Z) : tok := with_out (st input i) o.

Lemma T_next input i o : next_token (T input i o) = T input (S i) o.
Proof. unfold T. rewrite next_token_with_out. reflexivity. Qed.
Lemma T_iter input n i o : Nat.iter n next_token (T input i o) = T input (i + n) o.
Proof. induction n; [rewrite Nat.add_0_r | rewrite Nat.add_succ_r, <- T_next, <- IHn]; reflexivity. Qed.
Lemma T_out input i o : t_out (T input i o) = o.
Proof. reflexivity. Qed.
Lemma T_kind input i o : t_kind (T input i o) = t_kind (st input i).
Proof. reflexivity. Qed.
Lemma T_text input i o : tok_text (T input i o) = tok_text (st input i).
Proof. reflexivity. Qed.
Lemma T_with_out input i o o' : with_out (T input i o) o' = T input i o'.
Proof. reflexivity. Qed.
Lemma start_tok_T input o : start_tok input o = T input 0 o.
Proof.
  unfold start_tok, T, st, st0. cbn [Nat.iter].
  change (mkTok input 0 0 KStart o) with (with_out (mkTok input 0 0 KStart []) o).
  apply next_token_with_out.
Qed.

(* s is read as one token of kind k whatever follows, provided what follows does not extend it *)
Definition stops (rest : str) : Prop :=
  match rest with [] => True | c :: _ => is_ident_next c = false end.

Definition lexeme (s : str) (k : kind) : Prop :=
  s <> [] /\
  forall rest, (wordy_end s = true -> stops rest) -> lex_from (s ++ rest) = (0, length s, k).

Lemma space_not_ident c : is_space c = true -> is_ident_first c = false.
Proof.
  unfold is_space. intros H.
  repeat (apply orb_true_iff in H; destruct H as [H|H]); apply N.eqb_eq in H; subst; reflexivity.
Qed.

Lemma lex_skip_ws : forall w x, is_ws w = true ->
  lex_from (w ++ x) = let '(k, n, kd) := lex_from x in (length w + k, n, kd).
Proof.
  induction w as [|c w IH]; intros x Hw.
  - cbn. destruct (lex_from x) as [[k n] kd]; reflexivity.
  - cbn in Hw. apply andb_true_iff in Hw as [Hc Hw].
    cbn [app lex_from].
    rewrite (space_not_ident c Hc), Hc, (IH x Hw).
    destruct (lex_from x) as [[k n] kd]; reflexivity.
Qed.

Lemma lex_all_ws : forall w, is_ws w = true -> lex_from w = (length w, 0, KEnd).
Proof.
  intros w Hw. rewrite <- (app_nil_r w) at 1. rewrite lex_skip_ws by exact Hw.
  cbn. rewrite Nat.add_0_r. reflexivity.
Qed.

Fixpoint seps (prev : str) (wtoks : list (str * str)) : Prop :=
  match wtoks with
  | [] => True
  | (w, s) :: rest =>
    is_ws w = true /\ (wordy_end prev = true -> wordy_start s = true -> w <> []) /\ seps s rest
  end.

Lemma sep_ok_seps : forall wtoks prev, sep_ok prev wtoks = true -> seps prev wtoks.
Proof.
  induction wtoks as [|[w s] rest IH]; intros prev H; cbn in *; [exact I|].
  apply andb_true_iff in H as [H H3]. apply andb_true_iff in H as [H1 H2].
  repeat split; auto.
  intros He Hs Hw. subst w. rewrite He, Hs in H2. discriminate.
Qed.

Lemma ws_first_stops : forall w x, is_ws w = true -> w <> [] -> stops (w ++ x).
Proof.
  intros [|c w] x Hw Hne; [congruence|]. cbn in *.
  apply andb_true_iff in Hw as [Hc _].
  unfold is_space in Hc. unfold is_ident_next, is_ident_first, is_digit, in_range.
  repeat (apply orb_true_iff in Hc as [Hc|Hc]); apply N.eqb_eq in Hc; subst; reflexivity.
Qed.

Lemma stops_spell : forall prev wtoks trailing,
  seps prev wtoks -> is_ws trailing = true -> Forall (fun wt => snd wt <> []) wtoks ->
  wordy_end prev = true -> stops (spell wtoks trailing).
Proof.
  intros prev [|[w s] rest] trailing Hs Ht Hne He; unfold spell; cbn.
  - destruct trailing as [|c tr]; [exact I|].
    apply (ws_first_stops (c :: tr) []); [exact Ht | discriminate].
  - destruct Hs as (Hw & Hsep & _).
    destruct w as [|c w].
    + cbn. inversion Hne; subst. cbn in H1. destruct s as [|c s]; [congruence|]. cbn.
      destruct (is_ident_next c) eqn:E; [|reflexivity].
      exfalso. apply (Hsep He); [cbn; exact E | reflexivity].
    + rewrite <- !app_assoc. apply ws_first_stops; [exact Hw | discriminate].
Qed.

Definition kinds_texts := list (kind * str).

Record lexed (input : str) (toks : kinds_texts) : Prop := {
  lx_kind : forall i, t_kind (st input i) = nth i (map fst toks) KEnd;
  lx_text : forall i, i < length toks -> tok_text (st input i) = nth i (map snd toks) [];
  lx_size : forall i, i < length toks -> t_size (st input i) = length (nth i (map snd toks) [])
}.

Lemma next_token_ws t : is_ws (skipn (t_size t) (t_rest t)) = true ->
  next_token t = mkTok [] (t_pos t + t_size t + length (skipn (t_size t) (t_rest t))) 0 KEnd (t_out t).
Proof. intros H. unfold next_token. rewrite (lex_all_ws _ H), skipn_all. reflexivity. Qed.

Lemma iter_end : forall j t, t_kind t = KEnd -> t_size t = 0 -> is_ws (t_rest t) = true ->
  t_kind (Nat.iter j next_token t) = KEnd.
Proof.
  induction j; intros t Hk Hs Hw; [exact Hk|].
  rewrite iter_succ_r, next_token_ws by (rewrite Hs; exact Hw). apply IHj; reflexivity.
Qed.

Lemma tok_text_on t s x : t_rest t = s ++ x -> t_size t = length s -> tok_text t = s.
Proof.
  intros Hr Hsz. unfold tok_text. rewrite Hr, Hsz, firstn_app, Nat.sub_diag, firstn_all. apply app_nil_r.
Qed.

Lemma next_token_lexeme t s w s' k' x :
  t_rest t = s ++ w ++ s' ++ x -> t_size t = length s -> is_ws w = true -> lexeme s' k' ->
  (wordy_end s' = true -> stops x) ->
  next_token t = mkTok (s' ++ x) (t_pos t + t_size t + length w) (length s') k' (t_out t).
Proof.
  intros Hr Hsz Hw [_ Hl] Hx. unfold next_token.
  rewrite Hr, Hsz, skipn_app, Nat.sub_diag, skipn_all. cbn [app skipn].
  rewrite lex_skip_ws, (Hl x Hx), Nat.add_0_r, skipn_app, Nat.sub_diag, skipn_all by exact Hw. reflexivity.
Qed.

(* invariant of the scan: the current token is s and what follows is spell more trailing *)
Lemma scan_spelled : forall more s k t trailing,
  t_rest t = s ++ spell more trailing -> t_size t = length s -> t_kind t = k ->
  seps s more -> is_ws trailing = true ->
  forall (kinds : list kind), Forall2 (fun wt k' => lexeme (snd wt) k') more kinds ->
  forall j,
    t_kind (Nat.iter j next_token t) = nth j (k :: kinds) KEnd /\
    (j < S (length more) -> tok_text (Nat.iter j next_token t) = nth j (s :: map snd more) [] /\
                            t_size (Nat.iter j next_token t) = length (nth j (s :: map snd more) [])).
Proof.
  intros more s k t trailing Hr Hsz Hk Hsep Htr kinds Hk2 j.
  revert more s k t Hr Hsz Hk Hsep kinds Hk2.
  induction j as [|j IH]; intros more s k t Hr Hsz Hk Hsep kinds Hk2.
  - split; [exact Hk|]. intros _. split; [exact (tok_text_on _ _ _ Hr Hsz) | exact Hsz].
  - rewrite iter_succ_r. destruct Hk2 as [|[w s'] k' more kinds Hl Hk2].
    + (* past the last token: white space, then TOK_END for ever *)
      split; [|cbn; lia].
      rewrite next_token_ws
        by (rewrite Hr, Hsz; unfold spell; cbn; rewrite skipn_app, Nat.sub_diag, skipn_all; exact Htr).
      replace (nth (S j) [k] KEnd) with KEnd by (destruct j; reflexivity).
      apply iter_end; reflexivity.
    + destruct Hsep as (Hw & _ & Hsep').
      assert (Hnt := next_token_lexeme t s w s' k' (spell more trailing)). unfold spell in Hr, Hnt.
      cbn [map concat fst snd] in Hr. rewrite <- !app_assoc in Hr.
      rewrite Hnt; [|exact Hr | exact Hsz | exact Hw | exact Hl|]; clear Hnt.
      * destruct (IH more s' k' (mkTok (s' ++ spell more trailing) (t_pos t + t_size t + length w)
                                       (length s') k' (t_out t)) eq_refl eq_refl eq_refl Hsep' kinds Hk2) as [H1 H2].
        split; [exact H1|]. intros Hj. cbn [length map] in *. apply H2. lia.
      * intros He. apply (stops_spell s' more trailing); auto.
        clear - Hk2. induction Hk2 as [|x k0 l ks [Hn _] _ IHl]; constructor; auto.
Qed.

Theorem spell_lexed : forall wtoks trailing kinds,
  seps [] wtoks -> is_ws trailing = true ->
  Forall2 (fun wt k => lexeme (snd wt) k) wtoks kinds ->
  lexed (spell wtoks trailing) (combine kinds (map snd wtoks)).
Proof.
  intros wtoks trailing kinds Hsep Htr Hk.
  assert (Hlen : length kinds = length wtoks).
  { clear - Hk. induction Hk; cbn; congruence. }
  pose proof (scan_spelled wtoks [] KStart (st0 (spell wtoks trailing)) trailing
                eq_refl eq_refl eq_refl Hsep Htr kinds Hk) as H.
  assert (Hm1 : map fst (combine kinds (map snd wtoks)) = kinds).
  { clear - Hlen. revert wtoks Hlen. induction kinds; intros [|x w] H; cbn in *; try congruence.
    f_equal. apply IHkinds. lia. }
  assert (Hm2 : map snd (combine kinds (map snd wtoks)) = map snd wtoks).
  { clear - Hlen. revert wtoks Hlen. induction kinds; intros [|x w] H; cbn in *; try congruence.
    f_equal. apply IHkinds. lia. }
  constructor; intros i.
  1: rewrite Hm1; exact (proj1 (H (S i))).
  all: intros Hi; rewrite Hm2; rewrite combine_length, map_length in Hi; apply (H (S i)); lia.
Qed.
