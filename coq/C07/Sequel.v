(* C07 — the simple declarators (pointers, qualifiers, nested grouping parentheses, arrays, empty
   parameter lists): their tokens and meaning; how single opcodes decode; of parse_sequel on them,
   the header loop (header_run: what it leaves is hdr_ok) and one turn of the array loop
   (brackets_step). *)
From Coq Require Import List Arith NArith ZArith Lia Bool String.
Import ListNotations.
From Cffi Require Import C25.Model C07.Model C07.Realize C07.PyModel C07.Lexer C07.Tokens C07.Tables C07.Specs C07.NoFault2 C07.Parse.

Local Open Scope nat_scope.

Section Dec.
Variable g : genv.

(* entry idx of the buffer out decodes to m, with any fuel from n on *)
Definition decodes (n : nat) (out : list Z) (idx : Z) (m : mty) : Prop :=
  forall fuel, n <= fuel -> decode g fuel out idx = Some m.

Lemma decodes_mono n n' out idx m : decodes n out idx m -> n <= n' -> decodes n' out idx m.
Proof. intros H Hn fuel Hf. apply H. lia. Qed.

Lemma nthZ_nat {A} (l : list A) (i : nat) : nthZ l (Z.of_nat i) = nth_error l i.
Proof.
  unfold nthZ. destruct (Z.of_nat i <? 0)%Z eqn:E; [apply Z.ltb_lt in E; lia|].
  rewrite Nat2Z.id. reflexivity.
Qed.

Lemma dec_prim out i p n : nth_error out i = Some (OP OP_PRIMITIVE p) ->
  decodes (S n) out (Z.of_nat i) (prim_mty p).
Proof.
  intros H fuel Hf. destruct fuel as [|f]; [lia|]. cbn [decode].
  rewrite nthZ_nat, H. rewrite GETOP_OP, GETARG_OP by (cbv; split; [discriminate | reflexivity]).
  cbn. unfold prim_mty, PRIM_VOID. destruct (p =? 0)%Z; reflexivity.
Qed.

Lemma dec_ptr out i j n m : nth_error out i = Some (OP OP_POINTER j) ->
  decodes n out j m -> decodes (S n) out (Z.of_nat i) (MPtr m).
Proof.
  intros H Hj fuel Hf. destruct fuel as [|f]; [lia|]. cbn [decode].
  rewrite nthZ_nat, H. rewrite GETOP_OP, GETARG_OP by (cbv; split; [discriminate | reflexivity]).
  cbn. rewrite (Hj f) by lia. reflexivity.
Qed.

Lemma dec_noop out i j n m : nth_error out i = Some (OP OP_NOOP j) ->
  decodes n out j m -> decodes (S n) out (Z.of_nat i) m.
Proof.
  intros H Hj fuel Hf. destruct fuel as [|f]; [lia|]. cbn [decode].
  rewrite nthZ_nat, H. rewrite GETOP_OP, GETARG_OP by (cbv; split; [discriminate | reflexivity]).
  cbn. apply Hj. lia.
Qed.

Lemma dec_arr out i j len n m : nth_error out i = Some (OP OP_ARRAY j) ->
  nth_error out (S i) = Some len ->
  decodes n out j m -> decodes (S n) out (Z.of_nat i) (MArr m (Some len)).
Proof.
  intros H Hl Hj fuel Hf. destruct fuel as [|f]; [lia|]. cbn [decode].
  rewrite nthZ_nat, H. rewrite GETOP_OP, GETARG_OP by (cbv; split; [discriminate | reflexivity]).
  cbn. replace (Z.of_nat i + 1)%Z with (Z.of_nat (S i)) by lia. rewrite nthZ_nat, Hl.
  rewrite (Hj f) by lia. reflexivity.
Qed.

Lemma dec_open out i j n m : nth_error out i = Some (OP OP_OPEN_ARRAY j) ->
  decodes n out j m -> decodes (S n) out (Z.of_nat i) (MArr m None).
Proof.
  intros H Hj fuel Hf. destruct fuel as [|f]; [lia|]. cbn [decode].
  rewrite nthZ_nat, H. rewrite GETOP_OP, GETARG_OP by (cbv; split; [discriminate | reflexivity]).
  cbn. rewrite (Hj f) by lia. reflexivity.
Qed.

(* a function without parameters: OP_FUNCTION directly followed by OP_FUNCTION_END *)
Lemma dec_func0 out i j flags n m : nth_error out i = Some (OP OP_FUNCTION j) ->
  nth_error out (S i) = Some (OP OP_FUNCTION_END flags) -> (flags = 0 \/ flags = 2)%Z ->
  decodes n out j m -> decodes (S n) out (Z.of_nat i) (MFun m [] false).
Proof.
  intros H He Hfl Hj fuel Hf. destruct fuel as [|f]; [lia|]. cbn [decode].
  rewrite nthZ_nat, H. rewrite GETOP_OP, GETARG_OP by (cbv; split; [discriminate | reflexivity]).
  cbn [Z.eqb OP_FUNCTION OP_PRIMITIVE OP_POINTER OP_ARRAY OP_OPEN_ARRAY OP_STRUCT_UNION OP_ENUM Pos.eqb].
  rewrite (Hj f) by lia.
  replace (Z.to_nat (Z.of_nat i + 1)) with (S i) by lia.
  destruct (nth_error_split _ _ He) as (l1 & l2 & E & El).
  assert (Hsk : skipn (S i) out = OP OP_FUNCTION_END flags :: l2).
  { rewrite E. rewrite <- El. rewrite skipn_app, Nat.sub_diag, skipn_all. reflexivity. }
  rewrite Hsk.
  rewrite GETOP_OP, GETARG_OP by (cbv; split; [discriminate | reflexivity]).
  destruct Hfl as [-> | ->]; reflexivity.
Qed.

End Dec.

(* the buffers a and b coincide on [lo, hi) *)
Definition agree (a b : list Z) (lo hi : nat) : Prop :=
  forall j, lo <= j < hi -> nth_error a j = nth_error b j.

Lemma set_nth_same : forall l i v, i < List.length l -> nth_error (set_nth l i v) i = Some v.
Proof. induction l; intros [|i] v H; cbn in *; try lia; auto. apply IHl. lia. Qed.

Lemma set_nth_other : forall l i j v, i <> j -> nth_error (set_nth l i v) j = nth_error l j.
Proof. induction l; intros [|i] [|j] v H; cbn; auto; try congruence. Qed.

Section Decl.
(* the integer constants of the declaration context (macros and enumerators) *)
Variable gl : list (str * gkind).

(* a name used as an array length: a constant reported as non-negative (neg = 0) that fits in
   ssize_t; the agreement theorems cover these only (with neg <> 0 py_const reads value - 2^64) *)
Definition const_len (n : str) : option Z :=
  match assoc_str gl n with
  | Some (GInt _ neg value) =>
    if (neg =? 0)%Z && (0 <=? value)%Z && (value <=? MAX_SSIZE_T)%Z then Some value else None
  | _ => None
  end.

Definition alen_val (a : alen) : option (option Z) :=
  match a with
  | ALOpen => Some None
  | ALLit t => match py_int t with
               | Some n => if (n <=? MAX_SSIZE_T)%Z then Some (Some n) else None
               | None => None
               end
  | ALName n => if ident_okb n then option_map Some (const_len n) else None
  end.

Definition hitem_plain (h : hitem) : bool := match h with HAbi _ => false | _ => true end.
Definition starts_star (d : decl) : bool :=
  match d with D (HStar :: _) _ _ _ _ => true | _ => false end.

Inductive sdecl : decl -> Prop :=
| SD0 : forall hdr arrays,
    forallb hitem_plain hdr = true -> Forall (fun a => alen_val a <> None) arrays ->
    sdecl (D hdr None None [] arrays)
| SD1 : forall hdr arrays d,
    forallb hitem_plain hdr = true -> Forall (fun a => alen_val a <> None) arrays ->
    sdecl d -> starts_star d = true ->
    sdecl (D hdr None (Some (None, d)) [] arrays)
(* a pointer to a function without parameters: hdr ( d ) ( )   or   hdr ( d ) ( void ),
   with __cdecl or __stdcall allowed after the first parenthesis *)
| SD2 : forall hdr d abi void,
    forallb hitem_plain hdr = true ->
    sdecl d -> starts_star d = true ->
    sdecl (D hdr None (Some (abi, d)) [F [] void false] []).

Definition hkind (h : hitem) : kind :=
  match h with HStar => KChar c_star | HQ q => qkind q | HAbi a => KKw (if a then K_stdcall else K_cdecl) end.

Definition alen_toks (a : alen) : kinds_texts :=
  match a with
  | ALOpen => [(KChar c_lbr, [c_lbr]); (KChar c_rbr, [c_rbr])]
  | ALLit t => [(KChar c_lbr, [c_lbr]); (KInteger, t); (KChar c_rbr, [c_rbr])]
  | ALName n => [(KChar c_lbr, [c_lbr]); (KIdent, n); (KChar c_rbr, [c_rbr])]
  end.

(* an empty parameter list *)
Definition fs_toks (f : fsuffix) : kinds_texts :=
  match f with
  | F _ void _ => [(KChar c_lpar, [c_lpar])] ++ (if void then [(KKw K_void, s2l "void")] else [])
                  ++ [(KChar c_rpar, [c_rpar])]
  end.

Fixpoint sdecl_toks (d : decl) : kinds_texts :=
  match d with
  | D hdr _ group funcs arrays =>
    map (fun h => (hkind h, hitem_token h)) hdr
    ++ match group with
       | Some (None, d') => [(KChar c_lpar, [c_lpar])] ++ sdecl_toks d' ++ [(KChar c_rpar, [c_rpar])]
       | Some (Some a, d') => [(KChar c_lpar, [c_lpar]); (hkind (HAbi a), sp_abi a)]
                              ++ sdecl_toks d' ++ [(KChar c_rpar, [c_rpar])]
       | None => []
       end
    ++ List.concat (map fs_toks funcs)
    ++ List.concat (map alen_toks arrays)
  end.

Definition nstars (hdr : list hitem) : nat :=
  List.length (filter (fun h => match h with HStar => true | _ => false end) hdr).
Definition arr_ops (a : alen) : nat := match a with ALOpen => 1 | _ => 2 end.

(* how many opcodes parse_sequel appends for d: the room the output buffer must have *)
Fixpoint nops (d : decl) : nat :=
  match d with
  | D hdr _ group funcs arrays =>
    nstars hdr + match group with Some (_, d') => S (nops d') | None => 0 end
    + 3 * List.length funcs + list_sum (map arr_ops arrays)
  end.

(* the length of a valid array suffix, None for []; forgets whether the suffix was valid (alen_val) *)
Definition lenval (a : alen) : option Z := match alen_val a with Some v => v | None => None end.

Definition wrap_ptrs (n : nat) (m : mty) : mty := Nat.iter n MPtr m.

Lemma wrap_ptrs_S k m : wrap_ptrs (S k) m = wrap_ptrs k (MPtr m).
Proof. apply iter_succ_r. Qed.

Fixpoint apply_decl (d : decl) (m : mty) : mty :=
  match d with
  | D hdr _ group funcs arrays =>
    let m1 := wrap_ptrs (nstars hdr) m in
    let m2 := fold_right (fun a acc => MArr acc (lenval a)) m1 arrays in
    let m3 := fold_right (fun _ acc => MFun acc [] false) m2 funcs in
    match group with
    | Some (_, d') => apply_decl d' m3
    | None => m3
    end
  end.

End Decl.

Lemma const_len_search gl n v : table_ok (map fst gl) -> const_len gl n = Some v ->
  exists gi e, search_sorted (map fst gl) n = Some gi /\ nth gi gl ([], GOther) = (n, GInt e 0 v) /\
               (v <= MAX_SSIZE_T)%Z.
Proof.
  intros Ht H. unfold const_len in H. destruct (assoc_str gl n) as [[e neg value|]|] eqn:E; try discriminate.
  destruct (neg =? 0)%Z eqn:E0; [|discriminate]. destruct (0 <=? value)%Z; [|discriminate].
  destruct (value <=? MAX_SSIZE_T)%Z eqn:E1; [|discriminate]. cbn in H. inversion H; subst.
  apply Z.eqb_eq in E0. subst. apply Z.leb_le in E1.
  destruct (assoc_some_nth _ _ _ E) as [gi Hi]. exists gi, e. split; [|split; [|exact E1]].
  - apply (search_member _ _ _ Ht). rewrite nth_error_map, Hi. reflexivity.
  - apply nth_error_nth with (d := ([], GOther)) in Hi. exact Hi.
Qed.

Section Run.
Variable osz : nat.
Variable cx : ctx.
Variable g : genv.
Variable input : str.
Variable toks : kinds_texts.
Hypothesis L : lexed input toks.
Notation gl := (c_globals cx).
Hypothesis Hgl : table_ok (map fst gl).

Notation T := (T input).
Notation K := (K toks).
Notation Kat := (Kat toks).

(* the tokens from position i on are l, kinds and texts *)
Definition At (i : nat) (l : kinds_texts) : Prop :=
  forall j, j < List.length l -> nth_error toks (i + j) = nth_error l j.

Lemma At_app i a b : At i (a ++ b) -> At i a /\ At (i + List.length a) b.
Proof.
  intros H. split.
  - intros j Hj. rewrite (H j) by (rewrite app_length; lia). apply nth_error_app1. exact Hj.
  - intros j Hj. rewrite <- Nat.add_assoc. rewrite (H (List.length a + j)) by (rewrite app_length; lia).
    rewrite nth_error_app2 by lia. f_equal. lia.
Qed.

Lemma At_cons i x l : At i (x :: l) -> nth_error toks i = Some x /\ At (S i) l.
Proof.
  intros H. split.
  - specialize (H 0). cbn in H. rewrite Nat.add_0_r in H. apply H. lia.
  - intros j Hj. specialize (H (S j)). cbn in H. rewrite Nat.add_succ_r in H. apply H. lia.
Qed.

Lemma At_K i x : nth_error toks i = Some x -> K i = fst x.
Proof.
  intros H. apply nth_error_nth. rewrite nth_error_map, H. reflexivity.
Qed.

Lemma At_kinds i l : At i l -> Kat i (map fst l).
Proof.
  intros H j Hj. rewrite map_length in Hj. specialize (H j Hj).
  assert (E : nth_error toks (i + j) = Some (nth j l (KEnd, []))) by (rewrite H; apply nth_error_nth'; exact Hj).
  rewrite (At_K _ _ E). rewrite (nth_indep _ KEnd (fst (KEnd, @nil N))) by (rewrite map_length; exact Hj).
  rewrite map_nth. reflexivity.
Qed.

Lemma At_text i x o : nth_error toks i = Some x ->
  tok_text (T i o) = snd x /\ t_size (T i o) = List.length (snd x).
Proof.
  intros H.
  assert (Hi : i < List.length toks) by (apply nth_error_Some; congruence).
  assert (E : nth i (map snd toks) [] = snd x)
    by (apply nth_error_nth; rewrite nth_error_map, H; reflexivity).
  split.
  - rewrite T_text, (lx_text _ _ L) by exact Hi. exact E.
  - change (t_size (T i o)) with (t_size (st input i)). rewrite (lx_size _ _ L) by exact Hi. rewrite E. reflexivity.
Qed.

Lemma T_at j x o : nth_error toks j = Some x -> t_kind (T j o) = fst x /\ tok_text (T j o) = snd x.
Proof. intros H. rewrite (kind_T _ _ L), (At_K _ _ H). split; [reflexivity | apply (At_text _ _ o H)]. Qed.

Lemma write_ds_ok i o ds : List.length o < osz ->
  write_ds osz (T i o) ds = Ok (T i (o ++ [ds]), Z.of_nat (List.length o)).
Proof.
  intros H. unfold write_ds. rewrite T_out.
  destruct (List.length o <? osz) eqn:E; [|apply Nat.ltb_ge in E; lia]. reflexivity.
Qed.

(* the kinds at which the header loop of parse_sequel stops in a simple declarator *)
Definition stopper (k : kind) : Prop :=
  k = KEnd \/ k = KChar c_lpar \/ k = KChar c_rpar \/ k = KChar c_lbr.

(* what the header loop leaves: one OP_POINTER appended for every '*', each pointing at the one before,
   the first at `outer`; outer1 is the last *)
Definition hdr_ok (hdr : list hitem) (o : list Z) (outer : Z) (o1 : list Z) (outer1 : Z) : Prop :=
  List.length o1 = List.length o + nstars hdr /\ (exists ext, o1 = o ++ ext) /\
  forall out'' m n, agree out'' o1 (List.length o) (List.length o1) -> decodes g n out'' outer m ->
    decodes g (n + nstars hdr) out'' outer1 (wrap_ptrs (nstars hdr) m).

Lemma header_run : forall hdr f i o outer abi,
  Kat i (map hkind hdr) -> forallb hitem_plain hdr = true ->
  stopper (K (i + List.length hdr)) ->
  List.length o + nstars hdr <= osz -> List.length hdr < f ->
  exists o1 outer1, header osz f (T i o) outer abi = Ok (T (i + List.length hdr) o1, outer1, abi) /\
                    hdr_ok hdr o outer o1 outer1.
Proof.
  induction hdr as [|h hdr IH]; intros f i o outer abi Hk Hp Hs Hroom Hf; destruct f as [|f]; try (cbn in Hf; lia).
  - cbn [List.length] in *. rewrite Nat.add_0_r in *. exists o, outer. split.
    + cbn [header]. rewrite (kind_T _ _ L). destruct Hs as [->|[->|[->| ->]]]; reflexivity.
    + split; [cbn; lia|]. split; [exists []; symmetry; apply app_nil_r|].
      intros out'' m n _ Hm. cbn. rewrite Nat.add_0_r. exact Hm.
  - cbn [map] in Hk. apply Kat_cons in Hk as [Hh Hk].
    cbn [forallb] in Hp. apply andb_true_iff in Hp as [Hp0 Hp].
    cbn [List.length] in *. rewrite Nat.add_succ_r in *.
    cbn [header]. rewrite (kind_T _ _ L), Hh.
    destruct h as [|q|a]; [| |discriminate].
    + cbn [hkind]. change (N.eqb c_star c_star) with true. cbv iota.
      change (nstars (HStar :: hdr)) with (S (nstars hdr)) in *.
      rewrite write_ds_ok by lia. cbn [bind]. rewrite T_next.
      destruct (IH f (S i) (o ++ [OP OP_POINTER outer]) (Z.of_nat (List.length o)) abi Hk Hp Hs)
        as (o1 & outer1 & Hrun & Hlen & [ext Hext] & Hdec); rewrite ?app_length; cbn [List.length]; try lia.
      rewrite app_length in Hlen, Hdec. cbn [List.length] in Hlen, Hdec.
      exists o1, outer1. split; [exact Hrun|]. unfold hdr_ok. change (nstars (HStar :: hdr)) with (S (nstars hdr)).
      split; [lia|]. split; [exists ([OP OP_POINTER outer] ++ ext); rewrite Hext, app_assoc; reflexivity|].
      intros out'' m n Hag Hm. rewrite wrap_ptrs_S. replace (n + S (nstars hdr)) with (S n + nstars hdr) by lia.
      apply Hdec; [intros j Hj; apply Hag; lia|]. eapply dec_ptr; [|exact Hm].
      rewrite Hag by lia. rewrite Hext, <- app_assoc, nth_error_app2, Nat.sub_diag by lia. reflexivity.
    + change (nstars (HQ q :: hdr)) with (nstars hdr) in *.
      destruct q; cbn [hkind qkind]; rewrite T_next; apply IH; auto; lia.
Qed.

(* what Model.retarget makes of the output and of `result` when its index tests pass (retarget_ok) *)
Definition retarget_pure (o : list Z) (pc : pcur) (result target : Z) : list Z * Z :=
  match pc with
  | PRes => (o, OP (GETOP result) target)
  | POut x => (set_nth o (Z.to_nat x) (OP (GETOP (nth (Z.to_nat x) o 0%Z)) target), result)
  end.

(* the hole *p_current lies in the output o *)
Definition pc_ok (o : list Z) (pc : pcur) : Prop :=
  match pc with PRes => True | POut x => (0 <= x < Z.of_nat (List.length o))%Z end.

Lemma retarget_ok i o pc result target : pc_ok o pc ->
  retarget (T i o) pc result target =
  Ok (T i (fst (retarget_pure o pc result target)), snd (retarget_pure o pc result target)).
Proof.
  intros H. unfold retarget, get_cur, set_cur, retarget_pure. destruct pc as [|x]; cbn [bind].
  - reflexivity.
  - unfold get_out, set_out. rewrite (idx_in (T i o) x H). reflexivity.
Qed.

Lemma retarget_pure_length o pc result target :
  List.length (fst (retarget_pure o pc result target)) = List.length o.
Proof. destruct pc; cbn; [reflexivity | apply set_nth_len]. Qed.

Lemma array_ops_length a : alen_val gl a <> None ->
  List.length (match lenval gl a with Some n => [OP OP_ARRAY 0; n] | None => [OP OP_OPEN_ARRAY 0] end) = arr_ops a.
Proof.
  intros Ha. unfold lenval. destruct a as [|t|n]; cbn [alen_val arr_ops] in *; [reflexivity| |].
  - destruct (py_int t) as [v|]; [|congruence]. destruct (v <=? MAX_SSIZE_T)%Z; [reflexivity|congruence].
  - destruct (ident_okb n); [|congruence]. destruct (const_len gl n); [reflexivity|cbn in Ha; congruence].
Qed.

Lemma array_length_run a x j o : nth_error toks j = Some x ->
  match a with ALOpen => False | ALLit t => x = (KInteger, t) | ALName n => x = (KIdent, n) end ->
  alen_val gl a <> None ->
  exists v, lenval gl a = Some v /\ array_length cx (T j o) = Ok v.
Proof.
  intros Hx Ha Hv. unfold array_length, lenval. rewrite (proj1 (T_at _ _ _ Hx)).
  destruct (At_text _ _ o Hx) as [Htx Hsz]. rewrite Htx, Hsz.
  destruct a as [|t|n]; [contradiction| |]; subst x; cbn [fst snd alen_val] in *.
  - destruct (py_int t) as [v|] eqn:Epy; [|congruence].
    destruct (v <=? MAX_SSIZE_T)%Z eqn:Emax; [|congruence]. exists v. split; [reflexivity|].
    rewrite (py_int_strtoull _ _ Epy), Nat.eqb_refl, Z.gtb_ltb. cbn [negb].
    replace (MAX_SSIZE_T <? v)%Z with false by (symmetry; apply Z.ltb_ge, Z.leb_le; exact Emax). reflexivity.
  - destruct (ident_okb n); [|congruence].
    destruct (const_len gl n) as [v|] eqn:Ec; [|cbn in Hv; congruence]. exists v. split; [reflexivity|].
    destruct (const_len_search _ _ _ Hgl Ec) as (gi & e & Hs & Hn & Hmax).
    rewrite Hs, Hn. cbn [snd]. rewrite Z.eqb_refl, Z.gtb_ltb. cbn [andb orb].
    replace (MAX_SSIZE_T <? v)%Z with false by (symmetry; apply Z.ltb_ge; exact Hmax). reflexivity.
Qed.

(* one "[...]", a turn of the loop of brackets: the hole is pointed at the end of the buffer, where the
   array's one or two entries are appended, and moves there *)
Lemma brackets_step a f i o pc result :
  At i (alen_toks a) -> alen_val gl a <> None -> pc_ok o pc -> List.length o + arr_ops a <= osz ->
  let oi := Z.of_nat (List.length o) in
  brackets osz cx (S f) (T i o) pc result =
  brackets osz cx f (T (i + List.length (alen_toks a))
                       (fst (retarget_pure o pc result oi)
                          ++ match lenval gl a with Some n => [OP OP_ARRAY 0; n] | None => [OP OP_OPEN_ARRAY 0] end))
           (POut oi) (snd (retarget_pure o pc result oi)).
Proof.
  intros Hat Hv Hpc Hroom oi.
  pose proof (retarget_pure_length o pc result oi) as Hl1. unfold oi in *. clear oi.
  set (oi := Z.of_nat (List.length o)) in *.
  assert (Hlbr : nth_error toks i = Some (KChar c_lbr, [c_lbr])) by (destruct a; apply At_cons in Hat as [H0 _]; exact H0).
  cbn [brackets]. unfold is_ch. rewrite (proj1 (T_at _ _ _ Hlbr)). cbn [fst kind_eqb].
  rewrite N.eqb_refl. cbv iota zeta. rewrite !T_out. fold oi. rewrite (retarget_ok i o pc result oi Hpc). cbn [bind]. rewrite T_next.
  destruct a as [|t|n]; cbn [alen_toks] in Hat; apply At_cons in Hat as [_ Hat]; apply At_cons in Hat as [H1 Hat].
  1:{ (* [] *)
    rewrite (proj1 (T_at _ _ _ H1)). cbn [fst kind_eqb]. rewrite N.eqb_refl. cbn [negb arr_ops] in *.
    rewrite write_ds_ok by lia. cbn [bind].
    rewrite (proj1 (T_at _ _ _ H1)). cbn [fst kind_eqb]. rewrite N.eqb_refl. cbn [negb].
    rewrite T_next. cbn [alen_toks List.length]. replace (i + 2) with (S (S i)) by lia. reflexivity. }
  (* [ length ]: literal or named alike *)
  all: apply At_cons in Hat as [H2 _].
  all: match type of Hv with alen_val gl ?a <> None =>
         destruct (array_length_run a _ (S i) (fst (retarget_pure o pc result oi)) H1 eq_refl Hv) as (v & Hlv & Hal) end.
  all: rewrite (proj1 (T_at _ _ _ H1)), Hal, Hlv; cbn [fst kind_eqb negb bind arr_ops] in *; rewrite T_next.
  all: rewrite write_ds_ok by lia; cbn [bind].
  all: rewrite write_ds_ok by (rewrite app_length; cbn; lia); cbn [bind].
  all: rewrite (proj1 (T_at _ _ _ H2)); cbn [fst kind_eqb]; rewrite N.eqb_refl; cbn [negb].
  all: rewrite T_next, <- app_assoc; cbn [alen_toks List.length]; replace (i + 3) with (S (S (S i))) by lia; reflexivity.
Qed.

End Run.
