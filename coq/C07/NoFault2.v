(* C07 — no access to tok->output outside [0, output_index): the notions the statements are made of (okres,
   outcome, step_ok, plain_kind, adv, res_ok), then the primitives, the keyword dispatch and the token loops.
   Sequel.v takes from here the opcode arithmetic GETOP_OP / GETARG_OP and the index test idx_in. *)
From Coq Require Import List Arith NArith ZArith Lia Bool String.
Import ListNotations.
From Cffi Require Import C25.Model C07.Model C07.Lexer C07.NoFault.

Local Open Scope nat_scope.

(* r is not Fault, and if it is a result the result satisfies P: the shape of every no-fault statement *)
Definition okres {A} (P : A -> Prop) (r : res A) : Prop :=
  match r with Ok a => P a | Err _ _ => True | Fault => False end.

Lemma okres_bind {A B} (P : A -> Prop) (Q : B -> Prop) (r : res A) (f : A -> res B) :
  okres P r -> (forall a, P a -> okres Q (f a)) -> okres Q (bind r f).
Proof. destruct r; cbn; auto. Qed.

Lemma okres_impl {A} (P Q : A -> Prop) (r : res A) : okres P r -> (forall a, P a -> Q a) -> okres Q r.
Proof. destruct r; cbn; auto. Qed.

(* what a function without a loop delivers: a result, or one of parse_c_type.c's own errors; it faults
   only if F.  Stated once for the pieces of code that both the bounds and the fuel argument pass through *)
Definition outcome {A} (F : Prop) (P : A -> Prop) (r : res A) : Prop :=
  match r with Ok a => P a | Err e _ => e <> E_out_of_fuel | Fault => F end.

Lemma outcome_okres {A} F (P : A -> Prop) (r : res A) : ~ F -> outcome F P r -> okres P r.
Proof. destruct r; cbn; auto. Qed.

Definition len (t : tok) : Z := Z.of_nat (List.length (t_out t)).

(* t' continues t: well-formed token window, the text consumed is comma neutral, output only grew *)
Definition step_ok (t t' : tok) : Prop := wf t' /\ neutral_step t t' /\ (len t <= len t')%Z.

Lemma step_refl t : wf t -> step_ok t t.
Proof. intros H. repeat split; auto; try apply neutral_refl; lia. Qed.

Lemma step_trans a b c : step_ok a b -> step_ok b c -> step_ok a c.
Proof.
  intros (A1 & A2 & A3) (B1 & B2 & B3). repeat split; auto; [eapply neutral_trans; eauto | lia].
Qed.
Arguments step_trans {a b c}.

Lemma step_with_out t o : wf t -> (len t <= Z.of_nat (List.length o))%Z -> step_ok t (with_out t o).
Proof. intros H Hl. repeat split; auto; try apply neutral_refl. Qed.

Lemma len_nonneg t : (0 <= len t)%Z.
Proof. unfold len. lia. Qed.

Lemma len_next t : len (next_token t) = len t.
Proof. unfold len. rewrite t_out_next. reflexivity. Qed.

(* a token that is not the end and whose text has no ',' '(' ')': passing it leaves number_of_commas alone *)
Definition plain_kind (k : kind) : Prop :=
  k <> KEnd /\ forall c, k = KChar c -> c <> c_comma /\ c <> c_lpar /\ c <> c_rpar.

Lemma step_next t : wf t -> plain_kind (t_kind t) -> step_ok t (next_token t).
Proof.
  intros H [He Hc]. repeat split.
  - apply wf_next.
  - apply next_neutral; auto.
  - rewrite len_next. lia.
Qed.

Lemma plain_kw k : plain_kind (KKw k).
Proof. split; [discriminate | intros c H; discriminate]. Qed.
Lemma plain_ident : plain_kind KIdent.
Proof. split; [discriminate | intros c H; discriminate]. Qed.
Lemma plain_int : plain_kind KInteger.
Proof. split; [discriminate | intros c H; discriminate]. Qed.
Lemma plain_dots : plain_kind KDots.
Proof. split; [discriminate | intros c H; discriminate]. Qed.
Lemma plain_char c : c <> c_comma -> c <> c_lpar -> c <> c_rpar -> plain_kind (KChar c).
Proof. intros A B C. split; [discriminate | intros c' H; inversion H; subst; auto]. Qed.

Lemma is_ch_true t c : is_ch t c = true -> t_kind t = KChar c.
Proof.
  unfold is_ch. destruct (t_kind t) as [| | | | |c'|k]; cbn; try discriminate.
  intros H. apply N.eqb_eq in H. subst. reflexivity.
Qed.
Lemma is_kw_true t k : is_kw t k = true -> exists k', t_kind t = KKw k'.
Proof. unfold is_kw. destruct (t_kind t) as [| | | | |c'|k']; cbn; try discriminate. eauto. Qed.

(* t' is t, or the token after t where t is no comma, parenthesis or end: what the parser does with a
   keyword or name it accepts *)
Definition adv (t t' : tok) : Prop := t' = t \/ plain_kind (t_kind t) /\ t' = next_token t.

Lemma step_adv t t' : wf t -> adv t t' -> step_ok t t' /\ len t' = len t.
Proof.
  intros W [->|[P ->]]; [split; [apply step_refl, W | reflexivity]|].
  split; [apply step_next; assumption | apply len_next].
Qed.

Lemma GETOP_OP op a : (0 <= op < 256)%Z -> GETOP (OP op a) = op.
Proof.
  intros H. unfold GETOP, OP. rewrite Z.mod_add by lia. apply Z.mod_small; lia.
Qed.
Lemma GETARG_OP op a : (0 <= op < 256)%Z -> GETARG (OP op a) = a.
Proof.
  intros H. unfold GETARG, OP. rewrite Z.div_add by lia.
  rewrite (Z.div_small op 256) by lia. lia.
Qed.
Lemma GETARG_OP_any x a : GETARG (OP (GETOP x) a) = a.
Proof. apply GETARG_OP, Z.mod_pos_bound. lia. Qed.

Lemma base_mod_adv t a b : outcome False (fun '(t', _) => adv t t') (base_with_modifiers t a b).
Proof.
  assert (Hn : t_kind t <> KEnd -> (forall c, t_kind t <> KChar c) -> adv t (next_token t)).
  { intros H1 H2. right. split; [split; [exact H1 | intros c H; destruct (H2 c H)] | reflexivity]. }
  unfold base_with_modifiers.
  destruct (t_kind t) as [| | | | |c|[]]; try discriminate; try (left; reflexivity).
  - destruct (negb (a =? 0)%Z); [discriminate | apply Hn; discriminate].
  - destruct (negb (b =? 0)%Z || negb (a =? 1)%Z)%bool; [discriminate | apply Hn; discriminate].
  - apply Hn; discriminate.
Qed.

Lemma base_mod_nf t a b : wf t ->
  okres (fun '(t', _) => step_ok t t' /\ t_out t' = t_out t) (base_with_modifiers t a b).
Proof.
  intros Hw. eapply okres_impl; [apply (outcome_okres False), base_mod_adv; tauto|].
  intros [t' op] A. split; [apply (step_adv t t' Hw A)|].
  destruct A as [->|[_ ->]]; [reflexivity | apply t_out_next].
Qed.

Section NF.
Variable osz : nat.
Variable cx : ctx.

Lemma write_ds_nf t ds : wf t ->
  okres (fun '(t', idx) => step_ok t t' /\ len t' = (len t + 1)%Z /\ idx = len t /\
                           t_kind t' = t_kind t) (write_ds osz t ds).
Proof.
  intros H. unfold write_ds. destruct (List.length (t_out t) <? osz); [|exact I].
  split; [apply step_with_out; [exact H|] | split; [|auto]];
    unfold len; cbn [t_out with_out]; rewrite app_length; cbn [List.length]; lia.
Qed.

Lemma idx_in t i : (0 <= i < len t)%Z ->
  ((0 <=? i)%Z && (i <? Z.of_nat (List.length (t_out t)))%Z)%bool = true.
Proof. unfold len. intros H. apply andb_true_iff. split; [apply Z.leb_le | apply Z.ltb_lt]; lia. Qed.

Lemma get_out_ok t i : (0 <= i < len t)%Z -> exists v, get_out t i = Ok v.
Proof. intros H. unfold get_out. rewrite (idx_in t i H). eauto. Qed.

Lemma set_nth_len : forall l i v, List.length (set_nth l i v) = List.length l.
Proof. induction l; intros [|i] v; cbn; auto. Qed.

Lemma set_out_ok t i v : wf t -> (0 <= i < len t)%Z ->
  exists t', set_out t i v = Ok t' /\ step_ok t t' /\ len t' = len t /\ t_kind t' = t_kind t.
Proof.
  intros Hw H. unfold set_out. rewrite (idx_in t i H). eexists. split; [reflexivity|].
  split; [apply step_with_out; [exact Hw|] | split; [|reflexivity]];
    unfold len; cbn [t_out with_out]; rewrite set_nth_len; lia.
Qed.

(* the hole *p_current and `result` *)
Definition res_ok (t : tok) (pc : pcur) (result : Z) : Prop :=
  match pc with
  | PRes => True
  | POut x => (0 <= x < len t)%Z /\ (0 <= GETARG result < len t)%Z
  end.

Lemma res_ok_mono t t' pc r : res_ok t pc r -> (len t <= len t')%Z -> res_ok t' pc r.
Proof. destruct pc; cbn; auto. intros [A B] H. lia. Qed.

Lemma retarget_nf t pc result target : wf t -> res_ok t pc result ->
  okres (fun '(t', r') => step_ok t t' /\ len t' = len t /\ t_kind t' = t_kind t /\
                          match pc with
                          | PRes => GETARG r' = target
                          | POut _ => r' = result
                          end) (retarget t pc result target).
Proof.
  intros Hw Hr. unfold retarget, get_cur, set_cur. destruct pc as [|x]; cbn [bind].
  - cbn. split; [apply step_refl; exact Hw|]. split; [reflexivity|]. split; [reflexivity | apply GETARG_OP_any].
  - destruct Hr as [Hx _]. destruct (get_out_ok t x Hx) as [v Hv]. rewrite Hv. cbn [bind].
    destruct (set_out_ok t x (OP (GETOP v) target) Hw Hx) as (t' & E & S1 & S2 & S3).
    rewrite E. cbn. auto.
Qed.

Lemma array_length_kind t :
  outcome False (fun _ => t_kind t = KInteger \/ t_kind t = KIdent) (array_length cx t).
Proof.
  unfold array_length. destruct (t_kind t); try discriminate.
  - destruct (search_sorted _ _); [|discriminate]. destruct (snd _); [|discriminate].
    destruct (_ && _)%bool; [discriminate|]. destruct (_ || _)%bool; [right; reflexivity|].
    destruct (negb _); discriminate.
  - destruct (strtoull0 _). destruct (negb _); [discriminate|].
    destruct (_ >? _)%Z; [discriminate | left; reflexivity].
Qed.

Lemma array_length_nf t : okres (fun _ => t_kind t = KInteger \/ t_kind t = KIdent) (array_length cx t).
Proof. apply (outcome_okres False), array_length_kind. tauto. Qed.

Lemma header_nf : forall f t0 t outer abi, step_ok t0 t -> (0 <= outer < len t)%Z ->
  okres (fun '(t', outer', abi') => step_ok t0 t' /\ (0 <= outer' < len t')%Z) (header osz f t outer abi).
Proof.
  induction f as [|f IH]; intros t0 t outer abi S0 Ho; cbn [header]; [exact I|].
  assert (Hgo : forall a, plain_kind (t_kind t) ->
            okres (fun '(t', outer', abi') => step_ok t0 t' /\ (0 <= outer' < len t')%Z)
                  (header osz f (next_token t) outer a)).
  { intros a Hp. apply IH; [exact (step_trans S0 (step_next t (proj1 S0) Hp)) | rewrite len_next; exact Ho]. }
  destruct (t_kind t) as [| | | | |c|[]] eqn:Ek; try exact (conj S0 Ho); try (apply Hgo, plain_kw).
  destruct (N.eqb_spec c c_star) as [->|_]; [|exact (conj S0 Ho)].
  eapply okres_bind; [apply write_ds_nf; apply S0|].
  intros [t1 idx] (S1 & L1 & -> & K1).
  assert (Hp : plain_kind (t_kind t1)) by (rewrite K1, Ek; apply plain_char; discriminate).
  apply IH; [exact (step_trans S0 (step_trans S1 (step_next t1 (proj1 S1) Hp))) | rewrite len_next; lia].
Qed.

Lemma qualifiers_nf : forall f t0 t, step_ok t0 t ->
  okres (fun t' => step_ok t0 t' /\ t_out t' = t_out t) (qualifiers f t).
Proof.
  induction f as [|f IH]; intros t0 t S0; cbn [qualifiers]; [exact I|].
  assert (Hgo : plain_kind (t_kind t) ->
            okres (fun t' => step_ok t0 t' /\ t_out t' = t_out t) (qualifiers f (next_token t))).
  { intros Hp. rewrite <- (t_out_next t). apply IH. exact (step_trans S0 (step_next t (proj1 S0) Hp)). }
  destruct (t_kind t) as [| | | | |c|[]]; try exact (conj S0 eq_refl); apply Hgo, plain_kw.
Qed.

Lemma modifiers_nf : forall f t0 t a b, step_ok t0 t ->
  okres (fun '(t', _, _) => step_ok t0 t' /\ t_out t' = t_out t) (modifiers f t a b).
Proof.
  induction f as [|f IH]; intros t0 t a b S0; cbn [modifiers]; [exact I|].
  assert (Hgo : forall a' b', plain_kind (t_kind t) ->
            okres (fun '(t', _, _) => step_ok t0 t' /\ t_out t' = t_out t) (modifiers f (next_token t) a' b')).
  { intros a' b' Hp. rewrite <- (t_out_next t). apply IH. exact (step_trans S0 (step_next t (proj1 S0) Hp)). }
  destruct (t_kind t) as [| | | | |c|[]]; try exact (conj S0 eq_refl).
  - destruct (a <? 0)%Z; [exact I|]. destruct (a >=? 2)%Z; [exact I | apply Hgo, plain_kw].
  - destruct (negb (a =? 0)%Z); [exact I | apply Hgo, plain_kw].
  - destruct (negb (b =? 0)%Z); [exact I | apply Hgo, plain_kw].
  - destruct (negb (b =? 0)%Z); [exact I | apply Hgo, plain_kw].
Qed.

Lemma brackets_nf : forall f t0 t pc result, step_ok t0 t -> res_ok t pc result ->
  okres (fun '(t', pc', r') => step_ok t0 t' /\ res_ok t' pc' r') (brackets osz cx f t pc result).
Proof.
  induction f as [|f IH]; intros t0 t pc result S0 Hr; cbn [brackets]; [exact I|].
  destruct (is_ch t c_lbr) eqn:Eb; [|exact (conj S0 Hr)].
  apply is_ch_true in Eb. cbv zeta. fold (len t).
  eapply okres_bind; [apply retarget_nf; [apply S0 | exact Hr]|].
  intros [t1 r1] (S1 & L1 & K1 & R1).
  assert (S2 : step_ok t1 (next_token t1))
    by (apply step_next; [apply S1 | rewrite K1, Eb; apply plain_char; discriminate]).
  pose proof (len_next t1) as L2.
  eapply okres_bind with (P := fun t5 => step_ok (next_token t1) t5 /\ (len t1 < len t5)%Z).
  - destruct (negb (is_ch (next_token t1) c_rbr)).
    + eapply okres_bind; [apply array_length_nf|]. intros lenv Hk.
      assert (S3 : step_ok (next_token t1) (next_token (next_token t1)))
        by (apply step_next; [apply S2 | destruct Hk as [-> | ->]; [apply plain_int | apply plain_ident]]).
      pose proof (len_next (next_token t1)) as L3.
      eapply okres_bind; [apply write_ds_nf; apply S3|]. intros [t4 i4] (S4 & L4 & _ & _).
      eapply okres_bind; [apply write_ds_nf; apply S4|]. intros [t5 i5] (S5 & L5 & _ & _).
      split; [exact (step_trans S3 (step_trans S4 S5)) | lia].
    + eapply okres_bind; [apply write_ds_nf; apply S2|].
      intros [t3 i3] (S3 & L3 & _ & _). split; [exact S3 | lia].
  - intros t5 [S5 L5]. destruct (negb (is_ch t5 c_rbr)) eqn:Er; [exact I|].
    apply negb_false_iff, is_ch_true in Er.
    assert (S6 : step_ok t5 (next_token t5))
      by (apply step_next; [apply S5 | rewrite Er; apply plain_char; discriminate]).
    apply IH; [exact (step_trans S0 (step_trans S1 (step_trans S2 (step_trans S5 S6))))|].
    rewrite <- (len_next t5) in L5. pose proof (len_nonneg t). destruct pc as [|x]; cbn in Hr |- *; [rewrite R1 | subst r1]; lia.
Qed.

End NF.
