(* C32 — verify() module names are deterministic and input-sensitive.
   _flatten, flatten, verify_key, module_name are those of C32/Gen.v, regenerated on every run from
   src/cffi/ffiplatform.py and src/cffi/verifier.py.  encf, veq, supported, depth, inputs: C32/Spec.v.
   CRC32 is not interpreted (Section variable of Gen.v).

   Recorded reading (DESIGN Appendix B): injectivity is up to veq — list = tuple, True = 1, dict order —
   i.e. up to what flatten can see, for NUL-free version/preamble/cdef sources.  With a NUL in a cdef
   source the key is NOT injective (C32_key_refuted_with_nul; replayed on the real code by the check:
   finding nul_in_source). *)
From Coq Require Import List NArith ZArith Bool Permutation.
Import ListNotations.
From Cffi Require Import C35.PyStr C35.Model C24.Utf8 C32.PyStr C32.Model C32.Spec C32.Gen C32.Proofs C32.Proofs2 C32.Proofs3.
Open Scope N_scope.

(* the regenerated flatten computes the specified encoding, for every value and fuel *)
Theorem C32_flatten_is_spec : forall fuel v, flatten fuel v = encf fuel v.
Proof. exact flatten_is_encf. Qed.
Print Assumptions C32_flatten_is_spec.

(* it succeeds on the whole universe (fuel above the nesting depth), and fails only with TypeError
   (unsupported object) or for lack of fuel *)
Theorem C32_flatten_total : forall fuel v, supported v = true -> (depth v < fuel)%nat ->
  exists e, flatten fuel v = Ok e.
Proof. intros. rewrite flatten_is_encf. apply encf_total; auto. Qed.
Print Assumptions C32_flatten_total.

Theorem C32_flatten_errors : forall fuel v e, flatten fuel v = Err e -> e = TypeError \/ e = OutOfFuel.
Proof. intros fuel v e. rewrite flatten_is_encf. apply encf_error. Qed.
Print Assumptions C32_flatten_errors.

(* prefix code: an encoding followed by anything determines the value (up to veq) and the rest *)
Theorem C32_prefix_code : forall n m v1 v2 e1 e2 r1 r2,
  flatten n v1 = Ok e1 -> flatten m v2 = Ok e2 -> e1 ++ r1 = e2 ++ r2 -> veq v1 v2 /\ r1 = r2.
Proof. intros n m v1 v2 e1 e2 r1 r2. rewrite !flatten_is_encf. intros. eapply encf_prefix_code; eauto. Qed.
Print Assumptions C32_prefix_code.

Theorem C32_flatten_injective : forall n m v1 v2 e, flatten n v1 = Ok e -> flatten m v2 = Ok e -> veq v1 v2.
Proof. intros n m v1 v2 e. rewrite !flatten_is_encf. apply encf_injective. Qed.
Print Assumptions C32_flatten_injective.

(* the order in which a dict holds its keys (keyword order, hash seed) does not matter *)
Theorem C32_order_independent : forall fuel kvs kvs', Permutation kvs kvs' -> NoDup (map fst kvs) ->
  flatten fuel (PDict kvs) = flatten fuel (PDict kvs').
Proof. intros. rewrite !flatten_is_encf. apply encf_dict_order; auto. Qed.
Print Assumptions C32_order_independent.

(* determinism: the hashed key — hence the name, a function of it (C32_name_function_of_crcs) — is a function
   of the inputs alone: nothing else enters verify_key / flatten, and the order in which the keyword dictionary
   holds its entries (keyword order at the call, hash seed) is irrelevant *)
Theorem C32_key_deterministic : forall fuel i j,
  i_version i = i_version j -> i_vvm i = i_vvm j -> i_preamble i = i_preamble j -> i_sources i = i_sources j ->
  Permutation (i_kwds i) (i_kwds j) -> NoDup (map fst (i_kwds i)) ->
  key_of fuel i = key_of fuel j.
Proof.
  intros fuel i j Hv Hm Hp Hs P N. unfold key_of.
  rewrite (C32_order_independent fuel _ _ P N), Hv, Hm, Hp, Hs. reflexivity.
Qed.
Print Assumptions C32_key_deterministic.

(* the hashed text is an injective encoding of (version, verifier version, preamble, kwds, cdef sources)
   when version, preamble and sources contain no NUL *)
Theorem C32_key_injective : forall fuel fuel' i j k, nulfree_inputs i -> nulfree_inputs j ->
  key_of fuel i = Ok k -> key_of fuel' j = Ok k -> equiv_inputs i j.
Proof.
  intros fuel fuel' i j k [Iv [Im [Ip Is]]] [Jv [Jm [Jp Js]]] Hi Hj.
  unfold key_of in *. rewrite flatten_is_encf in Hi, Hj.
  apply Lemmas.bind_ok in Hi. destruct Hi as [fi [Fi Hi]]. apply Lemmas.bind_ok in Hj. destruct Hj as [fj [Fj Hj]].
  apply Lemmas.Ok_inj in Hi, Hj. rewrite verify_key_unfold in Hi, Hj. rewrite <- Hj in Hi. clear Hj.
  destruct (split_at_first 0 _ _ _ _ Iv Jv Hi) as [Ev H1].
  destruct (split_at_first 0 _ _ _ _ Im Jm H1) as [Em H2].
  destruct (split_at_first 0 _ _ _ _ Ip Jp H2) as [Ep H3].
  destruct (encf_prefix_code _ _ _ _ _ _ _ _ Fi Fj H3) as [V H4].
  apply nul_tail_inj in H4; auto.
  unfold equiv_inputs. auto.
Qed.
Print Assumptions C32_key_injective.

(* ... and so are the bytes that are hashed *)
Theorem C32_key_bytes_injective : forall fuel fuel' i j k k' b, nulfree_inputs i -> nulfree_inputs j ->
  key_of fuel i = Ok k -> key_of fuel' j = Ok k' ->
  utf8_encode k = Some b -> utf8_encode k' = Some b -> equiv_inputs i j.
Proof.
  intros fuel fuel' i j k k' b Ni Nj Hi Hj E E'. rewrite (utf8_encode_injective _ _ _ E E') in Hi.
  eapply C32_key_injective; eauto.
Qed.
Print Assumptions C32_key_bytes_injective.

(* from the inputs the property names to the hashed list: ffi._cdefsources is computed from the FFI's cdef() strings
   and include()d FFIs by FFI._cdef / FFI.include (regenerated: Gen.v `cdefsources`, markers `include_first`,
   `include_last`).  It determines the whole include structure (bracket matching) as long as no cdef string is itself
   a marker — ffi.cdef() refuses "[" and "]" — and the two markers differ. *)
Theorem C32_cdefsources_injective : forall t1 t2, wf_tree t1 = true -> wf_tree t2 = true ->
  cdefsources t1 = cdefsources t2 -> t1 = t2.
Proof.
  intros t1 t2 W1 W2 E.
  destruct (cdefsources_prefix (length (cdefsources t1)) t1 t2 [] []) as [A _]; auto; try (left; reflexivity).
  rewrite !app_nil_r. auto.
Qed.
Print Assumptions C32_cdefsources_injective.

(* the key is an injective encoding of (version, verifier version, C source, keyword arguments, FFI with its cdef
   strings and include structure) *)
Theorem C32_user_key_injective : forall fuel fuel' u v k, wf_user u -> wf_user v ->
  user_key fuel u = Ok k -> user_key fuel' v = Ok k ->
  u_version u = u_version v /\ u_vvm u = u_vvm v /\ u_preamble u = u_preamble v /\
  veq (PDict (u_kwds u)) (PDict (u_kwds v)) /\ u_ffi u = u_ffi v.
Proof.
  intros fuel fuel' u v k [A1 [A2 [A3 [A4 A5]]]] [B1 [B2 [B3 [B4 B5]]]] Hu Hv.
  destruct (C32_key_injective fuel fuel' (to_inputs u) (to_inputs v) k) as [E1 [E2 [E3 [E4 E5]]]]; auto.
  - repeat split; auto.
  - repeat split; auto.
  - cbn in *. repeat split; auto. apply C32_cdefsources_injective; auto.
Qed.
Print Assumptions C32_user_key_injective.

(* the full statement without the NUL hypothesis is false of the model *)
Theorem C32_key_refuted_with_nul :
  exists i j, key_of 2 i = key_of 2 j /\ (exists k, key_of 2 i = Ok k) /\ ~ equiv_inputs i j /\
              nulfree (i_version i) /\ nulfree (i_vvm i) /\ nulfree (i_preamble i) /\ nulfree_inputs j.
Proof.
  exists {| i_version := [51]; i_vvm := [48]; i_preamble := []; i_kwds := []; i_sources := [[97; 0; 98]] |}.
  exists {| i_version := [51]; i_vvm := [48]; i_preamble := []; i_kwds := []; i_sources := [[97]; [98]] |}.
  split; [vm_compute; reflexivity|]. split; [eexists; vm_compute; reflexivity|].
  split.
  - intros [_ [_ [_ [_ H]]]]. cbn in H. discriminate.
  - unfold nulfree_inputs, nulfree; cbn. repeat split; repeat constructor; discriminate.
Qed.
Print Assumptions C32_key_refuted_with_nul.

(* the name is a function of (tag, engine key, the two CRCs of the encoded key) *)
Theorem C32_name_function_of_crcs : forall (crc crc' : list N -> Z) tag ck key key' b b',
  utf8_encode key = Some b -> utf8_encode key' = Some b' ->
  crc (py_slice_step2 0 b) = crc' (py_slice_step2 0 b') ->
  crc (py_slice_step2 1 b) = crc' (py_slice_step2 1 b') ->
  module_name crc tag ck key = module_name crc' tag ck key'.
Proof.
  intros crc crc' tag ck key key' b b' E E' H0 H1.
  rewrite (module_name_form crc _ _ _ _ E), (module_name_form crc' _ _ _ _ E'). unfold crc_pair. rewrite H0, H1. reflexivity.
Qed.
Print Assumptions C32_name_function_of_crcs.

(* ... and for a given tag and engine the name determines the two (32-bit) CRCs: the hexadecimal renderings,
   hex(k1).lstrip('0x') and hex(k2).lstrip('0') — which keeps an 'x' between the two numbers — are injective *)
Theorem C32_name_injective_in_crcs : forall (crc : list N -> Z) tag ck key key' b b' n,
  utf8_encode key = Some b -> utf8_encode key' = Some b' ->
  module_name crc tag ck key = Ok n -> module_name crc tag ck key' = Ok n ->
  crc_pair crc b = crc_pair crc b'.
Proof.
  intros crc tag ck key key' b b' n E E' H H'.
  rewrite (module_name_form _ _ _ _ _ E) in H. rewrite (module_name_form _ _ _ _ _ E') in H'.
  rewrite <- H' in H. clear H'.
  apply Lemmas.Ok_inj in H. do 4 apply app_inv_head in H.
  apply k_pair_inj in H. destruct H as [A B]. now apply injective_projections.
Qed.
Print Assumptions C32_name_injective_in_crcs.

(* the property's conclusion: different inputs share a module name only through a CRC32 collision
   (two different byte strings with the same pair of CRCs) *)
Theorem C32_same_name_only_by_crc_collision : forall (crc : list N -> Z) fuel fuel' i j tag ck ki kj bi bj n,
  nulfree_inputs i -> nulfree_inputs j ->
  key_of fuel i = Ok ki -> key_of fuel' j = Ok kj ->
  utf8_encode ki = Some bi -> utf8_encode kj = Some bj ->
  module_name crc tag ck ki = Ok n -> module_name crc tag ck kj = Ok n ->
  equiv_inputs i j \/ (bi <> bj /\ crc_pair crc bi = crc_pair crc bj).
Proof.
  intros crc fuel fuel' i j tag ck ki kj bi bj n Ni Nj Ki Kj Ei Ej Mi Mj.
  destruct (list_eq_dec N.eq_dec bi bj) as [->|Hne].
  - left. eapply C32_key_bytes_injective; eauto.
  - right. split; auto. eapply C32_name_injective_in_crcs; eauto.
Qed.
Print Assumptions C32_same_name_only_by_crc_collision.

(* the name determines tag and engine as well: the part after the last '_' is engine key (one character, not '_':
   C32_class_keys for the two engines of the code) + the two hexadecimal numbers, none of which contains '_' *)
Theorem C32_name_injective_in_tag_engine : forall (crc : list N -> Z) tag tag' ck ck' key key' b b' n,
  length ck = 1%nat -> length ck' = 1%nat -> no_char 95 ck -> no_char 95 ck' ->
  utf8_encode key = Some b -> utf8_encode key' = Some b' ->
  module_name crc tag ck key = Ok n -> module_name crc tag' ck' key' = Ok n ->
  tag = tag' /\ ck = ck' /\ crc_pair crc b = crc_pair crc b'.
Proof.
  intros crc tag tag' ck ck' key key' b b' n L L' U U' E E' H H'.
  rewrite (module_name_form _ _ _ _ _ E) in H. rewrite (module_name_form _ _ _ _ _ E') in H'.
  rewrite <- H' in H. clear H'. apply Lemmas.Ok_inj in H. apply app_inv_head in H.
  destruct (crc_pair crc b) as [p1 p2]. destruct (crc_pair crc b') as [q1 q2]. cbn [fst snd] in H.
  cbn [app] in H.
  apply split_at_last in H.
  - destruct H as [-> H]. split; auto.
    destruct ck as [|c [|? ?]]; try discriminate. destruct ck' as [|c' [|? ?]]; try discriminate.
    cbn [app] in H. injection H as -> H. split; auto.
    apply k_pair_inj in H. destruct H as [-> ->]. reflexivity.
  - apply Forall_app. split; [exact U | apply k_tail_plain; auto].
  - apply Forall_app. split; [exact U' | apply k_tail_plain; auto].
Qed.
Print Assumptions C32_name_injective_in_tag_engine.

(* the engine keys regenerated from vengine_cpy.py / vengine_gen.py (Gen.v class_keys) satisfy these hypotheses *)
Theorem C32_class_keys : forall ck, In ck class_keys ->
  length ck = 1%nat /\ no_char 95 ck /\ no_char 46 ck /\ no_char 47 ck.
Proof. exact class_keys_ok. Qed.
Print Assumptions C32_class_keys.

(* the property's conclusion with tag and engine free on both sides *)
Theorem C32_same_name_only_by_crc_collision_any_tag :
  forall (crc : list N -> Z) fuel fuel' i j tag tag' ck ck' ki kj bi bj n,
  In ck class_keys -> In ck' class_keys -> nulfree_inputs i -> nulfree_inputs j ->
  key_of fuel i = Ok ki -> key_of fuel' j = Ok kj ->
  utf8_encode ki = Some bi -> utf8_encode kj = Some bj ->
  module_name crc tag ck ki = Ok n -> module_name crc tag' ck' kj = Ok n ->
  tag = tag' /\ ck = ck' /\ (equiv_inputs i j \/ (bi <> bj /\ crc_pair crc bi = crc_pair crc bj)).
Proof.
  intros crc fuel fuel' i j tag tag' ck ck' ki kj bi bj n Ic Ic' Ni Nj Ki Kj Ei Ej Mi Mj.
  destruct (class_keys_ok _ Ic) as [L [U _]]. destruct (class_keys_ok _ Ic') as [L' [U' _]].
  destruct (C32_name_injective_in_tag_engine crc _ _ _ _ _ _ _ _ _ L L' U U' Ei Ej Mi Mj) as [-> [-> P]].
  split; auto. split; auto.
  exact (C32_same_name_only_by_crc_collision crc fuel fuel' i j tag' ck' ki kj bi bj n Ni Nj Ki Kj Ei Ej Mi Mj).
Qed.
Print Assumptions C32_same_name_only_by_crc_collision_any_tag.

(* what the property observes, Verifier(...).get_module_name() — regenerated with the assembly of self.modulefilename
   (Gen.v get_module_name, module_filename; os.path.join/basename = posixpath) — gives the file's <name> back when
   <name> has no '.' and no '/', the suffix starts with '.', and (debug build) <name> does not end with "_d" *)
Theorem C32_get_module_name : forall debug tmpdir name suffix r,
  no_char 46 name -> no_char 47 name -> no_char 47 suffix -> suffix = 46 :: r ->
  debug = false \/ py_endswith name [95;100] = false ->
  get_module_name debug (module_filename tmpdir name suffix) = name.
Proof. exact get_module_name_roundtrip. Qed.
Print Assumptions C32_get_module_name.

(* so for a tag without '.' and '/', get_module_name() IS the name chosen by __init__ (debug build or not: a chosen
   name ends with 'x' and a hexadecimal digit, never with "_d"), and the theorems above are about what is observed *)
Theorem C32_get_module_name_of_chosen : forall (crc : list N -> Z) debug tmpdir suffix r tag ck key n,
  no_char 46 tag -> no_char 47 tag -> In ck class_keys -> no_char 47 suffix -> suffix = 46 :: r ->
  module_name crc tag ck key = Ok n ->
  get_module_name debug (module_filename tmpdir n suffix) = n.
Proof.
  intros crc debug tmpdir suffix r tag ck key n T6 T7 Ic S7 ES H.
  destruct (class_keys_ok _ Ic) as [_ [_ [C6 C7]]].
  apply (get_module_name_of_generated crc debug tmpdir suffix r tag ck key n); assumption.
Qed.
Print Assumptions C32_get_module_name_of_chosen.

(* with a '.' in the tag the observed name is "_cffi_" + what precedes the first '.', for EVERY key: all inputs share it *)
Theorem C32_dotted_tag_collapses : forall (crc : list N -> Z) tmpdir suffix t1 t2 ck key n,
  no_char 46 t1 -> no_char 47 t1 -> no_char 47 t2 -> no_char 47 ck -> no_char 47 suffix ->
  module_name crc (t1 ++ 46 :: t2) ck key = Ok n ->
  get_module_name false (module_filename tmpdir n suffix) = [95;99;102;102;105;95] ++ t1.
Proof. exact dotted_tag_collapses. Qed.
Print Assumptions C32_dotted_tag_collapses.

(* hence "equal observed names only through a CRC collision" is false of the model when tags may contain '.':
   tag "a.b", engine 'x', two keys with different CRC pairs and different chosen names, one get_module_name().
   Replayed on the real code by the check (finding dotted_tag). *)
Theorem C32_dotted_tag_refuted :
  exists (crc : list N -> Z) tag ck key key' b b' n n' tmpdir suffix,
    In ck class_keys /\ utf8_encode key = Some b /\ utf8_encode key' = Some b' /\
    module_name crc tag ck key = Ok n /\ module_name crc tag ck key' = Ok n' /\
    n <> n' /\ crc_pair crc b <> crc_pair crc b' /\
    get_module_name false (module_filename tmpdir n suffix) = get_module_name false (module_filename tmpdir n' suffix).
Proof.
  exists len_crc, [97;46;98], [120], [], [97], [], [97], [95;99;102;102;105;95;97;46;98;95;120;120;48],
         [95;99;102;102;105;95;97;46;98;95;120;49;120;48], [47;116], [46;115;111].
  vm_compute. repeat split; auto; discriminate.
Qed.
Print Assumptions C32_dotted_tag_refuted.

(* non-vacuity: /tmp/x/_cffi_t_x1ax2b.cpython-312.so -> _cffi_t_x1ax2b ; tag "a.b" -> _cffi_a *)
Example C32_example_get_module_name :
  get_module_name false (module_filename [47;116;109;112;47;120] [95;99;102;102;105;95;116;95;120;49;97;120;50;98]
                                         [46;99;112;121;116;104;111;110;45;51;49;50;46;115;111])
  = [95;99;102;102;105;95;116;95;120;49;97;120;50;98] /\
  get_module_name false (module_filename [47;116] [95;99;102;102;105;95;97;46;98;95;120;49;97;120;50;98] [46;115;111])
  = [95;99;102;102;105;95;97].
Proof. vm_compute. split; reflexivity. Qed.

(* non-vacuity: {'libraries': ['m'], 'define_macros': [('A', '1')], 'x': True, 'n': -12}, keys sorted *)
Example C32_example :
  flatten 5 (PDict [([108;105;98], PList [PStr [109]]);
                    ([100;109], PList [PTuple [PStr [65]; PStr [49]]]);
                    ([120], PBool true); ([110], PInt (-12))])
  = Ok [52;100; 50;115;100;109; 49;108;50;108;49;115;65;49;115;49;
        51;115;108;105;98; 49;108;49;115;109; 49;115;110; 45;49;50;105; 49;115;120; 49;105].
Proof. vm_compute. reflexivity. Qed.

Example C32_example_key :
  key_of 3 {| i_version := [51;46;49;50]; i_vvm := [48;46;56;46;54]; i_preamble := [105;110;116];
              i_kwds := []; i_sources := [[97]; [98]] |}
  = Ok [51;46;49;50;0;48;46;56;46;54;0;105;110;116;0;48;100;0;97;0;98].
Proof. vm_compute. reflexivity. Qed.

(* A.include(B1[a]); A.cdef(b); A.include(B2[c])  vs  A.include(B[a, include(C[b]), c]) *)
Example C32_example_include_structures :
  cdefsources [IInclude [ICdef [97]]; ICdef [98]; IInclude [ICdef [99]]] = [[91]; [97]; [93]; [98]; [91]; [99]; [93]] /\
  cdefsources [IInclude [ICdef [97]; IInclude [ICdef [98]]; ICdef [99]]] = [[91]; [97]; [91]; [98]; [93]; [99]; [93]] /\
  wf_tree [IInclude [ICdef [97]; IInclude [ICdef [98]]; ICdef [99]]] = true.
Proof. vm_compute. repeat split; reflexivity. Qed.

Example C32_example_unsupported : flatten 3 (PList [PInt 1; POther 0]) = Err TypeError.
Proof. vm_compute. reflexivity. Qed.
