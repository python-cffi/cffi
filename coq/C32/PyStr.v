(* Python primitives used by the code translated for C32 (ffiplatform._flatten / flatten, the key
   assembly of verifier.Verifier.__init__), beyond those of C35/PyStr.v.  Each is run against CPython
   on generated inputs at the start of every check (tools/props/c32.py, micro-suite).
   The primitives first, then what each does on the strings the proofs meet: a field of characters of one
   class closed by a character outside it (decimal numbers, NUL-separated fields), hex() and the strip calls,
   sorted(), the path and suffix operations. *)
From Coq Require Import List NArith ZArith Bool Lia ZifyBool Decimal DecimalZ DecimalN Permutation Sorted.
Import ListNotations.
From Cffi Require Import C35.PyStr C25.Model C25.Proofs.
Open Scope N_scope.

(* decimal digits of a Decimal.uint, most significant first ('0' = 48) *)
Fixpoint digits (u : Decimal.uint) : str :=
  match u with
  | Nil => []
  | D0 u => 48 :: digits u | D1 u => 49 :: digits u | D2 u => 50 :: digits u
  | D3 u => 51 :: digits u | D4 u => 52 :: digits u | D5 u => 53 :: digits u
  | D6 u => 54 :: digits u | D7 u => 55 :: digits u | D8 u => 56 :: digits u
  | D9 u => 57 :: digits u
  end.

(* '%d' % z *)
Definition py_dec (z : Z) : str :=
  match Z.to_int z with
  | Decimal.Pos u => digits u
  | Decimal.Neg u => 45 :: digits u
  end.

(* hex(z) for z >= 0: '0x' + lowercase hexadecimal digits *)
Definition hex_digit (d : N) : N := if d <? 10 then 48 + d else 87 + d.
Fixpoint hex_go (fuel : nat) (n : N) (acc : str) : str :=
  match fuel with
  | O => acc
  | S f => if n =? 0 then acc else hex_go f (n / 16) (hex_digit (n mod 16) :: acc)
  end.
Definition py_hex (z : Z) : str :=
  let n := Z.to_N z in
  [48; 120] ++ (if n =? 0 then [48] else hex_go (S (N.to_nat (N.log2 n))) n []).

(* s.lstrip(chars) / s.rstrip(chars) *)
Definition in_chars (chars : str) (c : N) : bool := existsb (N.eqb c) chars.
Fixpoint py_lstrip (s chars : str) : str :=
  match s with
  | c :: s' => if in_chars chars c then py_lstrip s' chars else s
  | [] => []
  end.
Definition py_rstrip (s chars : str) : str := List.rev (py_lstrip (List.rev s) chars).

(* sep.join(l) *)
Definition py_join (sep : str) (l : list str) : str :=
  match l with
  | [] => []
  | a :: l' => a ++ flat_map (fun x => sep ++ x) l'
  end.

(* x[start::2] for start in {0, 1} *)
Fixpoint evens {A} (l : list A) : list A :=
  match l with
  | a :: _ :: l' => a :: evens l'
  | l => l
  end.
Definition py_slice_step2 {A} (start : nat) (l : list A) : list A := evens (skipn start l).

(* sorted(list of str): order by code points = C25's byte-wise lexicographic order on list N *)
Definition py_sorted_str (l : list str) : list str := py_sorted l.

Definition is_digit (c : N) : bool := (48 <=? c) && (c <=? 57).

Definition nulfree (s : str) := Forall (fun c => c <> 0) s.
Definition no_char (c : N) (s : str) := Forall (fun d => d <> c) s.

(* path and suffix primitives
   (Verifier.get_module_name / the modulefilename assembly; posixpath semantics, '/' = 47) *)

(* os.path.basename(p): what follows the last '/' *)
Definition py_basename (p : str) : str :=
  fold_left (fun acc c => if c =? 47 then [] else acc ++ [c]) p [].

(* os.path.join(a, b), two arguments *)
Definition py_path_join (a b : str) : str :=
  if py_startswith b [47] then b
  else match List.rev a with
       | [] => b
       | c :: _ => if c =? 47 then a ++ b else a ++ [47] ++ b
       end.

(* x.endswith(s) *)
Definition py_endswith (x s : str) : bool := py_startswith (List.rev x) (List.rev s).

(* l[0] for the result of a split (never empty; [] stands for IndexError, unreachable there) *)
Definition py_item0 (l : list str) : str := match l with x :: _ => x | [] => [] end.

(* x[:-n] for a constant n > 0 *)
Definition py_slice_to_neg (n : nat) (x : str) : str := firstn (length x - n) x.

Lemma digits_all_digit u : Forall (fun c => is_digit c = true) (digits u).
Proof. induction u; cbn; constructor; auto. Qed.

(* reading a digit string back *)
Definition digit_of (c : N) (u : Decimal.uint) : Decimal.uint :=
  match c with
  | 48 => D0 u | 49 => D1 u | 50 => D2 u | 51 => D3 u | 52 => D4 u
  | 53 => D5 u | 54 => D6 u | 55 => D7 u | 56 => D8 u | 57 => D9 u
  | _ => Nil
  end.

Lemma digits_inj u u' : digits u = digits u' -> u = u'.
Proof.
  assert (R : forall v, fold_right digit_of Nil (digits v) = v) by (induction v; cbn; congruence).
  intros H. rewrite <- (R u), H. apply R.
Qed.

(* a field of characters of one class, closed by a character outside it, is read back from the front *)
Lemma field_unique {A} (P : A -> Prop) a a' c c' r r' : Forall P a -> Forall P a' -> ~ P c -> ~ P c' ->
  a ++ c :: r = a' ++ c' :: r' -> a = a' /\ c = c' /\ r = r'.
Proof.
  intros Ha Ha' Hc Hc' E. apply (run_unique P) in E; auto.
  - destruct E as [-> [= -> ->]]. auto.
  - now intros x t [= <- _].
  - now intros x t [= <- _].
Qed.

Lemma digits_prefix : forall u u' c c' r r',
  is_digit c = false -> is_digit c' = false ->
  digits u ++ c :: r = digits u' ++ c' :: r' -> u = u' /\ c = c' /\ r = r'.
Proof.
  intros u u' c c' r r' Hc Hc' H.
  apply (field_unique (fun d => is_digit d = true)) in H; try apply digits_all_digit; try congruence.
  destruct H as [H R]. apply digits_inj in H. auto.
Qed.

Lemma to_int_inj z z' : Z.to_int z = Z.to_int z' -> z = z'.
Proof. intros H. rewrite <- (DecimalZ.of_to z), <- (DecimalZ.of_to z'), H. reflexivity. Qed.

(* the header written by _flatten: a decimal number then a tag letter that is neither a digit nor '-' *)
Definition is_tag (c : N) : bool := negb (is_digit c) && negb (c =? 45).

Lemma py_dec_chars z : Forall (fun c => is_tag c = false) (py_dec z).
Proof.
  assert (D : forall u, Forall (fun c => is_tag c = false) (digits u)).
  { intros u. eapply Forall_impl; [|apply digits_all_digit]. intros c H. unfold is_tag. now rewrite H. }
  unfold py_dec. destruct (Z.to_int z); [|constructor; [reflexivity|]]; apply D.
Qed.

Lemma py_dec_inj z z' : py_dec z = py_dec z' -> z = z'.
Proof.
  assert (M : forall u u', digits u <> 45 :: digits u').
  { intros u u' E. pose proof (digits_all_digit u) as F. rewrite E in F. now inversion F. }
  unfold py_dec. intros H. apply to_int_inj.
  destruct (Z.to_int z) as [u|u], (Z.to_int z') as [u'|u']; try injection H as H;
    [f_equal; now apply digits_inj | now apply M in H | symmetry in H; now apply M in H | f_equal; now apply digits_inj].
Qed.

Lemma py_dec_prefix : forall z z' c c' r r', is_tag c = true -> is_tag c' = true ->
  py_dec z ++ c :: r = py_dec z' ++ c' :: r' -> z = z' /\ c = c' /\ r = r'.
Proof.
  intros z z' c c' r r' Hc Hc' H.
  apply (field_unique (fun d => is_tag d = false)) in H; try apply py_dec_chars; try congruence.
  destruct H as [H R]. apply py_dec_inj in H. auto.
Qed.

Lemma app_inv_length {A} (a b r r' : list A) :
  length a = length b -> a ++ r = b ++ r' -> a = b /\ r = r'.
Proof.
  revert b. induction a as [|x a IH]; destruct b as [|y b]; cbn; intros L H; try discriminate; auto.
  injection H as -> H. destruct (IH b) as [-> ->]; auto.
Qed.

Lemma split_at_first c a a' b b' : no_char c a -> no_char c a' ->
  a ++ c :: b = a' ++ c :: b' -> a = a' /\ b = b'.
Proof. intros Ha Ha' E. apply (field_unique (fun d => d <> c)) in E; auto; tauto. Qed.

Lemma nul_split : forall a a' r r', nulfree a -> nulfree a' ->
  a ++ 0 :: r = a' ++ 0 :: r' -> a = a' /\ r = r'.
Proof. intros a a' r r'. apply (split_at_first 0). Qed.

Lemma nul_tail_inj : forall l l', Forall nulfree l -> Forall nulfree l' ->
  flat_map (fun x => [0] ++ x) l = flat_map (fun x => [0] ++ x) l' -> l = l'.
Proof.
  assert (Hd : forall (l : list str) x t, flat_map (fun x => [0] ++ x) l = x :: t -> ~ x <> 0).
  { intros [|a l] x t; cbn; [discriminate|]. intros [= <- _] H. now apply H. }
  induction l as [|a l IH]; destruct l' as [|a' l']; cbn; intros Hl Hl' H; try discriminate; auto.
  injection H as H. inversion Hl; inversion Hl'; subst.
  apply (run_unique (fun c => c <> 0)) in H; eauto.
  destruct H as [-> H]. f_equal. auto.
Qed.

(* reading hexadecimal digits back: the inverse of hex_go, in which the renderings are compared *)
Definition dval (c : N) : N := if c <? 58 then c - 48 else c - 87.
Definition hexval (s : str) : N := fold_left (fun a c => 16 * a + dval c) s 0.
Definition is_hexdigit (c : N) : bool := ((48 <=? c) && (c <=? 57)) || ((97 <=? c) && (c <=? 102)).

Lemma hexval_snoc d c : hexval (d ++ [c]) = 16 * hexval d + dval c.
Proof. unfold hexval. rewrite fold_left_app. reflexivity. Qed.

Lemma hex_digit_ok d : d < 16 -> is_hexdigit (hex_digit d) = true /\ dval (hex_digit d) = d /\
  (d <> 0 -> hex_digit d <> 48).
Proof.
  unfold is_hexdigit, hex_digit, dval. intros H. destruct (d <? 10) eqn:E.
  - assert (48 + d <? 58 = true) as -> by lia. lia.
  - assert (87 + d <? 58 = false) as -> by lia. lia.
Qed.

Lemma divmod16 n : exists q m, n / 16 = q /\ n mod 16 = m /\ n = 16 * q + m /\ m < 16.
Proof. exists (n / 16), (n mod 16). repeat split; [apply N.div_mod | apply N.mod_lt]; discriminate. Qed.

Lemma hex_go_spec : forall fuel n acc, n < 16 ^ N.of_nat fuel ->
  exists d, hex_go fuel n acc = d ++ acc /\ hexval d = n /\ Forall (fun c => is_hexdigit c = true) d /\
            (n = 0 -> d = []) /\ (n <> 0 -> exists c r, d = c :: r /\ c <> 48).
Proof.
  induction fuel as [|fuel IH]; intros n acc H;
    (destruct (N.eq_dec n 0) as [->|E]; [exists []; repeat split; auto; tauto|]).
  - cbn in H. lia.
  - cbn [hex_go]. rewrite (proj2 (N.eqb_neq n 0) E).
    destruct (divmod16 n) as (q & m & -> & -> & Hn & Hm).
    rewrite Nnat.Nat2N.inj_succ, N.pow_succ_r' in H.
    destruct (IH q (hex_digit m :: acc)) as (d & E1 & E2 & E3 & E4 & E5); [clear - H Hn; lia|].
    destruct (hex_digit_ok _ Hm) as (D1 & D2 & D3).
    exists (d ++ [hex_digit m]). rewrite E1, <- app_assoc. repeat split; auto.
    + rewrite hexval_snoc, E2, D2. clear - Hn. lia.
    + apply Forall_app; auto.
    + tauto.
    + intros _. destruct (N.eq_dec q 0) as [Z|NZ].
      * rewrite (E4 Z). exists (hex_digit m), []. split; [reflexivity|]. apply D3. clear - Hn Z E. lia.
      * destruct (E5 NZ) as (c & r & -> & Hc). cbn. eauto.
Qed.

(* the digits after "0x" *)
Definition hexbody (n : N) : str := if n =? 0 then [48] else hex_go (S (N.to_nat (N.log2 n))) n [].

Lemma py_hex_unfold z : py_hex z = [48; 120] ++ hexbody (Z.to_N z).
Proof. reflexivity. Qed.

Lemma hexbody_spec n : hexval (hexbody n) = n /\ Forall (fun c => is_hexdigit c = true) (hexbody n) /\
  exists c r, hexbody n = c :: r /\ (n <> 0 -> c <> 48).
Proof.
  unfold hexbody. destruct (N.eqb_spec n 0) as [->|H].
  { split; [reflexivity|]. split; [repeat constructor|]. exists 48, []. split; [reflexivity | congruence]. }
  destruct (hex_go_spec (S (N.to_nat (N.log2 n))) n []) as (d & E1 & E2 & E3 & _ & E5).
  - rewrite Nnat.Nat2N.inj_succ, Nnat.N2Nat.id.
    assert (n < 2 ^ N.succ (N.log2 n)) by (apply N.log2_spec; lia).
    assert (2 ^ N.succ (N.log2 n) <= 16 ^ N.succ (N.log2 n)) by (apply N.pow_le_mono_l; lia). lia.
  - rewrite app_nil_r in E1. rewrite E1. destruct (E5 H) as (c & r & -> & Hc). eauto 6.
Qed.

Lemma hexdigit_not c : is_hexdigit c = true -> c <> 120 /\ c <> 76 /\ c <> 46 /\ c <> 47 /\ c <> 95.
Proof. unfold is_hexdigit. lia. Qed.

Lemma py_lstrip_app a r chars : Forall (fun c => in_chars chars c = true) a ->
  (forall c t, r = c :: t -> in_chars chars c = false) -> py_lstrip (a ++ r) chars = r.
Proof.
  intros Ha Hr. induction Ha as [|c a Hc _ IH]; cbn [Datatypes.app py_lstrip]; [|now rewrite Hc].
  destruct r as [|c t]; [reflexivity|]. cbn [py_lstrip]. now rewrite (Hr c t eq_refl).
Qed.

Lemma py_rstrip_none s chars : (forall c, In c s -> in_chars chars c = false) -> py_rstrip s chars = s.
Proof.
  intros H. unfold py_rstrip. rewrite (py_lstrip_app [] (List.rev s)); [apply rev_involutive | constructor |].
  intros c t E. apply H, in_rev. rewrite E. now left.
Qed.

Lemma py_sorted_str_perm l : Permutation (py_sorted_str l) l.
Proof. apply py_sorted_perm. Qed.

Lemma py_sorted_str_in l k : In k (py_sorted_str l) <-> In k l.
Proof.
  split; apply Permutation_in; [apply py_sorted_str_perm | apply Permutation_sym, py_sorted_str_perm].
Qed.

Lemma py_sorted_str_length l : length (py_sorted_str l) = length l.
Proof. apply Permutation_length, py_sorted_str_perm. Qed.

Lemma basename_fold_noslash : forall s acc, no_char 47 s ->
  fold_left (fun acc c => if c =? 47 then [] else acc ++ [c]) s acc = acc ++ s.
Proof.
  induction s as [|c s IH]; intros acc H; cbn [fold_left].
  - now rewrite app_nil_r.
  - inversion H as [|? ? Hc Hs]; subst. assert (c =? 47 = false) as -> by lia.
    rewrite IH by exact Hs. rewrite <- app_assoc. reflexivity.
Qed.

Lemma py_basename_noslash s : no_char 47 s -> py_basename s = s.
Proof. intros H. unfold py_basename. now rewrite basename_fold_noslash. Qed.

Lemma py_basename_after_slash d s : no_char 47 s -> py_basename (d ++ [47] ++ s) = s.
Proof.
  intros H. unfold py_basename. rewrite !fold_left_app. cbn [fold_left].
  assert (47 =? 47 = true) as -> by reflexivity. now rewrite basename_fold_noslash.
Qed.

Lemma startswith_nochar c b : no_char c b -> py_startswith b [c] = false.
Proof.
  intros H. destruct H as [|x b Hx _]; [reflexivity|]. cbn [py_startswith].
  apply N.eqb_neq in Hx. now rewrite Hx.
Qed.

Lemma py_basename_join a b : no_char 47 b -> py_basename (py_path_join a b) = b.
Proof.
  intros H. unfold py_path_join. rewrite (startswith_nochar 47 b H).
  destruct (List.rev a) as [|x r] eqn:Er; [now apply py_basename_noslash|].
  destruct (N.eqb_spec x 47) as [->|_]; [|now apply py_basename_after_slash].
  apply (f_equal (@List.rev N)) in Er. rewrite rev_involutive in Er. subst a.
  cbn [List.rev]. rewrite <- app_assoc. now apply py_basename_after_slash.
Qed.

(* x.endswith(c + d) needs c in the last two characters *)
Lemma py_endswith_nochar c d x t : no_char c t -> (2 <= length t)%nat -> py_endswith (x ++ t) [c; d] = false.
Proof.
  intros H L. unfold py_endswith. rewrite rev_app_distr. apply Forall_rev in H. rewrite <- rev_length in L.
  destruct (List.rev t) as [|h [|h2 u]]; cbn [length] in L; try lia.
  inversion H as [|? ? _ H2]. inversion H2 as [|? ? Hc _]. subst.
  cbn [List.rev Datatypes.app py_startswith]. assert (h2 =? c = false) as -> by lia. now rewrite andb_false_r.
Qed.

Lemma break_at_nochar c a : forall r, no_char c a -> break_at c (a ++ c :: r) = (a, Some r).
Proof.
  induction a as [|x a IH]; intros r H.
  - change (break_at c (c :: r) = ([], Some r)). unfold break_at. assert (c =? c = true) as -> by lia. reflexivity.
  - inversion H as [|? ? Hx Ha]; subst. change (break_at c (x :: (a ++ c :: r)) = (x :: a, Some r)).
    cbn [break_at]. assert (x =? c = false) as -> by lia. now rewrite IH.
Qed.

Lemma break_at_nochar_all c a : no_char c a -> break_at c a = (a, None).
Proof.
  induction a as [|x a IH]; intros H; cbn [break_at]; auto.
  inversion H as [|? ? Hx Ha]; subst. assert (x =? c = false) as -> by lia. now rewrite IH.
Qed.

(* x.split(c, 1)[0]: the part before the first c *)
Lemma split1_item0_before c a r : no_char c a -> py_item0 (py_split1 c (a ++ c :: r)) = a.
Proof. intros H. unfold py_split1. now rewrite break_at_nochar. Qed.

Lemma split1_item0_none c a : no_char c a -> py_item0 (py_split1 c a) = a.
Proof. intros H. unfold py_split1. now rewrite break_at_nochar_all. Qed.
