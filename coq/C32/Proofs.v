(* C32 — proofs: the regenerated _flatten/flatten (C32/Gen.v) compute the specified encoding encf
   (C32/Spec.v); encf is a prefix code up to veq; dict order does not matter; the hashed key `key_of`. *)
From Coq Require Import List NArith ZArith Bool Lia Permutation Sorted.
Import ListNotations.
From Cffi Require Import C35.PyStr C35.Model C35.Lemmas C25.Model C25.Proofs C23.Order C24.Utf8.
From Cffi Require Import C32.PyStr C32.Model C32.Spec C32.Gen.
Open Scope N_scope.

Lemma py_for_mapM {X} (body : str -> X -> res str) (g : X -> res str) l :
  (forall f x, body f x = bind (g x) (fun e => Ok (f ++ e))) ->
  forall f, py_for body l f = bind (mapM g l) (fun es => Ok (f ++ concat es)).
Proof.
  intros H. induction l as [|a l IH]; intros f.
  - cbn. rewrite app_nil_r. reflexivity.
  - rewrite py_for_cons, H. cbn [mapM]. destruct (g a) as [e|e]; cbn [bind]; auto.
    rewrite IH. destruct (mapM g l) as [es|e']; cbn [bind concat]; auto.
    rewrite app_assoc. reflexivity.
Qed.

Lemma bind_acc (m : res (list str)) (f h : str) :
  bind (bind m (fun es => Ok ((f ++ h) ++ concat es))) (fun f0 => Ok f0) =
  bind (bind m (fun es => Ok (h ++ concat es))) (fun e => Ok (f ++ e)).
Proof. destruct m; cbn; [rewrite app_assoc|]; reflexivity. Qed.

Theorem flatten_encf : forall fuel v f,
  _flatten fuel v f = bind (encf fuel v) (fun e => Ok (f ++ e)).
Proof.
  induction fuel as [|fuel IH]; intros v f; [reflexivity|].
  destruct v as [s|z|b|l|l|kvs|t]; cbn [_flatten encf py_as_str py_as_dict py_as_seq py_as_int bind].
  4, 5: rewrite (py_for_mapM _ (encf fuel)) by (intros f0 x; rewrite IH; destruct (encf fuel x); reflexivity);
        destruct (mapM (encf fuel) l) as [es|e]; cbn [bind]; [unfold hdr; rewrite <- !app_assoc|]; reflexivity.
  - unfold hdr. rewrite <- !app_assoc. reflexivity.
  - unfold hdr. reflexivity.
  - unfold hdr. reflexivity.
  - cbv zeta. rewrite (py_for_mapM _ (fun k => bind (encf fuel (PStr k)) (fun ek =>
                             bind (pd_get kvs k) (fun v =>
                             bind (encf fuel v) (fun ev => Ok (ek ++ ev)))))).
    + apply bind_acc.
    + intros f0 k. rewrite IH. destruct (encf fuel (PStr k)) as [ek|e]; cbn [bind]; auto.
      destruct (pd_get kvs k) as [v|e]; cbn [bind]; auto.
      rewrite IH. destruct (encf fuel v) as [ev|e]; cbn [bind]; auto.
      rewrite app_assoc. reflexivity.
  - reflexivity.
Qed.

Corollary flatten_is_encf fuel v : flatten fuel v = encf fuel v.
Proof. unfold flatten. rewrite flatten_encf. destruct (encf fuel v); reflexivity. Qed.

(* values up to what flatten can see (list = tuple, True = 1): the two sides of the prefix-code proof are
   compared shape by shape *)
Inductive shape := ShStr (s : str) | ShInt (z : Z) | ShSeq (l : list pyval)
                 | ShDict (kvs : list (str * pyval)) | ShOther.

Definition shape_of (v : pyval) : shape :=
  match v with
  | PStr s => ShStr s | PInt z => ShInt z | PBool b => ShInt (if b then 1 else 0)%Z
  | PList l | PTuple l => ShSeq l | PDict kvs => ShDict kvs | POther _ => ShOther
  end.

Definition item (n : nat) (kvs : list (str * pyval)) (k : str) : res str :=
  bind (encf n (PStr k)) (fun ek => bind (pd_get kvs k) (fun v =>
  bind (encf n v) (fun ev => Ok (ek ++ ev)))).

Lemma encf_shape n v : encf (S n) v =
  match shape_of v with
  | ShStr s => Ok (hdr (py_len s) 115 ++ s)
  | ShInt z => Ok (hdr z 105)
  | ShSeq l => bind (mapM (encf n) l) (fun es => Ok (hdr (py_len l) 108 ++ concat es))
  | ShDict kvs => bind (mapM (item n kvs) (py_sorted_str (pd_keys kvs)))
                       (fun es => Ok (hdr (py_len (py_sorted_str (pd_keys kvs))) 100 ++ concat es))
  | ShOther => Err TypeError
  end.
Proof. destruct v; reflexivity. Qed.

Lemma hdr_inj z t r z' t' r' : is_tag t = true -> is_tag t' = true ->
  hdr z t ++ r = hdr z' t' ++ r' -> z = z' /\ t = t' /\ r = r'.
Proof.
  unfold hdr. rewrite <- !app_assoc. cbn [app]. intros. eapply py_dec_prefix; eauto.
Qed.

Lemma shape_of_inv v :
  match shape_of v with
  | ShStr s => v = PStr s | ShInt z => py_as_int v = Some z | ShSeq l => py_as_seq v = Some l
  | ShDict kvs => v = PDict kvs | ShOther => True
  end.
Proof. destruct v; reflexivity. Qed.

Definition shape_tag (sh : shape) : N :=
  match sh with ShStr _ => 115 | ShInt _ => 105 | ShSeq _ => 108 | ShDict _ => 100 | ShOther => 0 end.

Lemma shape_tag_ok sh : is_tag (shape_tag sh) = true.
Proof. destruct sh; reflexivity. Qed.

Lemma encf_ok_inv n v e : encf (S n) v = Ok e ->
  exists z body, e = hdr z (shape_tag (shape_of v)) ++ body /\
    match shape_of v with
    | ShStr s => z = py_len s /\ body = s
    | ShInt z' => z = z' /\ body = []
    | ShSeq l => z = py_len l /\ exists es, mapM (encf n) l = Ok es /\ body = concat es
    | ShDict kvs => z = py_len (py_sorted_str (pd_keys kvs)) /\
                    exists es, mapM (item n kvs) (py_sorted_str (pd_keys kvs)) = Ok es /\ body = concat es
    | ShOther => False
    end.
Proof.
  rewrite encf_shape. destruct (shape_of v); intros H; try discriminate H;
    try (apply bind_ok in H; destruct H as (es & M & H)); apply Ok_inj in H; subst e; cbn [shape_tag].
  - exists (py_len s), s. auto.
  - exists z, []. now rewrite app_nil_r.
  - exists (py_len l), (concat es). eauto.
  - eexists _, (concat es). eauto.
Qed.

Lemma py_len_inj {A B} (l : list A) (l' : list B) : py_len l = py_len l' -> length l = length l'.
Proof. unfold py_len. lia. Qed.

Lemma veq_str_inv k k' : veq (PStr k) (PStr k') -> k = k'.
Proof. intros H. inversion H; subst; auto; cbn in *; discriminate. Qed.

Lemma mapM_cons_ok {A B} (f : A -> res B) a l bs : mapM f (a :: l) = Ok bs ->
  exists b bs', f a = Ok b /\ mapM f l = Ok bs' /\ bs = b :: bs'.
Proof.
  cbn [mapM]. intros H. apply bind_ok in H. destruct H as (b & Hb & H).
  apply bind_ok in H. destruct H as (bs' & Hl & H). apply Ok_inj in H. eauto.
Qed.

Lemma item_ok n kvs k e : item n kvs k = Ok e ->
  exists ek v ev, encf n (PStr k) = Ok ek /\ pd_get kvs k = Ok v /\ encf n v = Ok ev /\ e = ek ++ ev.
Proof.
  unfold item. intros H. apply bind_ok in H. destruct H as (ek & K & H).
  apply bind_ok in H. destruct H as (v & G & H). apply bind_ok in H. destruct H as (ev & V & H).
  apply Ok_inj in H. eauto 8.
Qed.

Lemma pd_get_In kvs k v : pd_get kvs k = Ok v -> In (k, v) kvs.
Proof.
  induction kvs as [|[k' v'] kvs IH]; cbn; [discriminate|].
  destruct (str_eqb k k') eqn:E; [apply str_eqb_eq in E; intros H; inversion H; subst; auto | auto].
Qed.

Lemma pd_get_in kvs k v : pd_get kvs k = Ok v -> In k (pd_keys kvs).
Proof. intros H. apply pd_get_In in H. apply (in_map fst) in H. exact H. Qed.

Section PrefixStep.
Variable n : nat.
Hypothesis IH : forall v1 v2 m e1 e2 r1 r2, encf n v1 = Ok e1 -> encf m v2 = Ok e2 ->
  e1 ++ r1 = e2 ++ r2 -> veq v1 v2 /\ r1 = r2.

Lemma seq_inj : forall l l' m es es' r r',
  mapM (encf n) l = Ok es -> mapM (encf m) l' = Ok es' -> length l = length l' ->
  concat es ++ r = concat es' ++ r' -> Forall2 veq l l' /\ r = r'.
Proof.
  induction l as [|a l IHl]; destruct l' as [|a' l']; intros m es es' r r' H H' L E; try discriminate L.
  - apply Ok_inj in H, H'. subst. auto.
  - apply mapM_cons_ok in H, H'. destruct H as (e & es0 & Ha & Hl & ->), H' as (e' & es0' & Ha' & Hl' & ->).
    cbn [concat] in E. rewrite <- !app_assoc in E.
    destruct (IH _ _ _ _ _ _ _ Ha Ha' E) as [V E2].
    destruct (IHl _ _ _ _ _ _ Hl Hl' (eq_add_S _ _ L) E2) as [F R]. auto.
Qed.

Lemma dict_inj kvs kvs' : forall ks ks' m es es' r r',
  mapM (item n kvs) ks = Ok es -> mapM (item m kvs') ks' = Ok es' -> length ks = length ks' ->
  concat es ++ r = concat es' ++ r' ->
  ks = ks' /\ (forall k, In k ks -> exists v v', pd_get kvs k = Ok v /\ pd_get kvs' k = Ok v' /\ veq v v') /\ r = r'.
Proof.
  induction ks as [|k ks IHk]; destruct ks' as [|k' ks']; intros m es es' r r' H H' L E; try discriminate L.
  - apply Ok_inj in H, H'. subst. repeat split; auto. intros k [].
  - apply mapM_cons_ok in H, H'. destruct H as (e & es0 & Ha & Hl & ->), H' as (e' & es0' & Ha' & Hl' & ->).
    apply item_ok in Ha, Ha'.
    destruct Ha as (ek & v & ev & K1 & G1 & V1 & ->), Ha' as (ek' & v' & ev' & K2 & G2 & V2 & ->).
    cbn [concat] in E. rewrite <- !app_assoc in E.
    destruct (IH _ _ _ _ _ _ _ K1 K2 E) as [Vk E2]. apply veq_str_inv in Vk. subst k'.
    destruct (IH _ _ _ _ _ _ _ V1 V2 E2) as [Vv E3].
    destruct (IHk _ _ _ _ _ _ Hl Hl' (eq_add_S _ _ L) E3) as [-> [F R]].
    repeat split; auto. intros k0 [<-|Hin]; eauto.
Qed.
End PrefixStep.

Theorem encf_prefix_code : forall n v1 v2 m e1 e2 r1 r2,
  encf n v1 = Ok e1 -> encf m v2 = Ok e2 -> e1 ++ r1 = e2 ++ r2 -> veq v1 v2 /\ r1 = r2.
Proof.
  induction n as [|n IH]; intros v1 v2 m e1 e2 r1 r2 H1 H2 E; [discriminate|].
  destruct m as [|m]; [discriminate|].
  apply encf_ok_inv in H1, H2. destruct H1 as (z & b & -> & D1), H2 as (z' & b' & -> & D2).
  rewrite <- !app_assoc in E. apply hdr_inj in E; [|apply shape_tag_ok..]. destruct E as (<- & Et & E).
  (* equal tags: the two values have the same shape *)
  pose proof (shape_of_inv v1) as I1. pose proof (shape_of_inv v2) as I2.
  destruct (shape_of v1) as [s|z1|l|kvs|], (shape_of v2) as [s'|z2|l'|kvs'|]; try discriminate Et;
    try contradiction; clear Et.
  - (* str / str *)
    destruct D1 as [L1 ->], D2 as [L2 ->]. rewrite L1 in L2. apply py_len_inj in L2.
    destruct (app_inv_length _ _ _ _ L2 E) as [-> ->]. subst v1 v2. split; [constructor | reflexivity].
  - (* int / int *)
    destruct D1 as [<- ->], D2 as [<- ->]. split; [eapply veq_int; eassumption | exact E].
  - (* seq / seq *)
    destruct D1 as (L1 & es & M1 & ->), D2 as (L2 & es' & M2 & ->). rewrite L1 in L2. apply py_len_inj in L2.
    destruct (seq_inj n IH _ _ _ _ _ _ _ M1 M2 L2 E) as [F R]. split; [eapply veq_seq; eassumption | exact R].
  - (* dict / dict *)
    destruct D1 as (L1 & es & M1 & ->), D2 as (L2 & es' & M2 & ->). rewrite L1 in L2. apply py_len_inj in L2.
    destruct (dict_inj n IH _ _ _ _ _ _ _ _ _ M1 M2 L2 E) as [K [F R]]. split; auto.
    subst v1 v2. apply veq_dict.
    + intros k. rewrite <- (py_sorted_str_in (pd_keys kvs)), <- (py_sorted_str_in (pd_keys kvs')), K. tauto.
    + intros k v G. destruct (F k) as [v0 [v' [G1 [G2 V]]]].
      { apply py_sorted_str_in. eapply pd_get_in; eauto. }
      exists v'. split; auto. congruence.
Qed.

Corollary encf_injective n m v1 v2 e : encf n v1 = Ok e -> encf m v2 = Ok e -> veq v1 v2.
Proof.
  intros H1 H2. destruct (encf_prefix_code n v1 v2 m e e [] [] H1 H2 eq_refl). auto.
Qed.

Lemma mapM_total {A B} (f : A -> res B) l :
  (forall a, In a l -> exists b, f a = Ok b) -> exists bs, mapM f l = Ok bs.
Proof.
  induction l as [|a l IH]; intros H; cbn; [eauto|].
  destruct (H a (or_introl eq_refl)) as [b ->]. cbn.
  destruct IH as [bs ->]; [intros; apply H; right; auto|]. cbn. eauto.
Qed.

Lemma depth_in_seq x l : In x l -> (depth x <= fold_right (fun x a => Nat.max (depth x) a) O l)%nat.
Proof. induction l as [|a l IH]; cbn; [tauto|]. intros [->|H]; [lia|]. apply IH in H. lia. Qed.

Lemma depth_in_dict k x kvs : In (k, x) kvs ->
  (depth x <= fold_right (fun (kv : str * pyval) a => let '(_, x) := kv in Nat.max (depth x) a) O kvs)%nat.
Proof.
  induction kvs as [|[k' a] l IH]; cbn; [tauto|]. intros [H|H]; [inversion H; subst; lia|].
  apply IH in H. lia.
Qed.

Lemma pd_get_of_key kvs k : In k (pd_keys kvs) -> exists v, pd_get kvs k = Ok v.
Proof.
  induction kvs as [|[k' v'] kvs IH]; cbn; [tauto|].
  destruct (str_eqb k k') eqn:E; [eauto|]. intros [H|H]; [|auto].
  subst. rewrite str_eqb_refl in E. discriminate.
Qed.

Theorem encf_total : forall fuel v, supported v = true -> (depth v < fuel)%nat ->
  exists e, encf fuel v = Ok e.
Proof.
  induction fuel as [|fuel IH]; intros v S D; [lia|].
  destruct v as [s|z|b|l|l|kvs|t]; cbn [encf]; try (eexists; reflexivity); cbn [supported depth] in S, D.
  1, 2: destruct (mapM_total (encf fuel) l) as [es ->]; [|cbn; eauto];
        intros a Ha; apply IH; [rewrite forallb_forall in S; auto|]; apply depth_in_seq in Ha; clear - D Ha; lia.
  - match goal with |- context [mapM ?g ?l] => destruct (mapM_total g l) as [es ->]; [|cbn; eauto] end.
    intros k Hk. apply (proj1 (py_sorted_str_in _ _)) in Hk.
    assert (exists ek, encf fuel (PStr k) = Ok ek) as [ek ->] by (destruct fuel; [lia|eexists; reflexivity]).
    cbn [bind].
    destruct (pd_get_of_key _ _ Hk) as [v G]. rewrite G. cbn [bind].
    apply pd_get_In in G.
    destruct (IH v) as [ev ->]; [| |cbn; eauto].
    + rewrite forallb_forall in S. apply (S _ G).
    + apply depth_in_dict in G. clear - D G. lia.
  - discriminate.
Qed.

Lemma mapM_err {A B} (f : A -> res B) : forall l e, mapM f l = Err e -> exists a, In a l /\ f a = Err e.
Proof.
  induction l as [|a l IHl]; cbn; intros e H; [discriminate|].
  destruct (f a) as [b|e0] eqn:E; cbn in H; [|inversion H; subst; eauto].
  destruct (mapM f l) as [bs|e1]; cbn in H; [discriminate|]. inversion H; subst.
  destruct (IHl _ eq_refl) as (x & Hx & Fx). eauto.
Qed.

Theorem encf_error : forall fuel v e, encf fuel v = Err e -> e = TypeError \/ e = OutOfFuel.
Proof.
  induction fuel as [|fuel IH]; intros v e H; [inversion H; auto|].
  rewrite encf_shape in H. destruct (shape_of v) as [s|z|l|kvs|]; try discriminate H.
  - destruct (mapM (encf fuel) l) as [es|e0] eqn:E; cbn in H; [discriminate|]. inversion H; subst.
    destruct (mapM_err _ _ _ E) as (a & _ & Ha). eauto.
  - destruct (mapM (item fuel kvs) _) as [es|e0] eqn:E; cbn in H; [discriminate|]. inversion H; subst.
    destruct (mapM_err _ _ _ E) as (k & Hk & Fk). apply (proj1 (py_sorted_str_in _ _)) in Hk.
    unfold item in Fk. destruct (encf fuel (PStr k)) as [ek|e1] eqn:E1; cbn in Fk; [|inversion Fk; subst; eauto].
    destruct (pd_get_of_key _ _ Hk) as [v' G]. rewrite G in Fk. cbn in Fk.
    destruct (encf fuel v') as [ev|e2] eqn:E2; cbn in Fk; [discriminate|]. inversion Fk; subst. eauto.
  - inversion H; auto.
Qed.

Lemma sorted_perm_unique : forall l l', StronglySorted lt_lex l -> StronglySorted lt_lex l' ->
  Permutation l l' -> l = l'.
Proof. exact (keyed_sorted_unique cstr (fun k => k)). Qed.

Lemma pd_get_perm kvs kvs' k : Permutation kvs kvs' -> NoDup (pd_keys kvs) -> pd_get kvs k = pd_get kvs' k.
Proof.
  induction 1 as [|[k0 v0] l l' P IH|[k1 v1] [k2 v2] l|l l' l'' P1 IH1 P2 IH2]; intros N; auto.
  - cbn in *. inversion N; subst. destruct (str_eqb k k0); auto.
  - cbn in *. inversion N as [|? ? N1 N2]; subst. inversion N2; subst.
    destruct (str_eqb k k2) eqn:E2; destruct (str_eqb k k1) eqn:E1; auto.
    apply str_eqb_eq in E1, E2. subst. exfalso. apply N1. left; auto.
  - rewrite IH1; auto. apply IH2. unfold pd_keys in *.
    eapply Permutation_NoDup; [apply Permutation_map; eauto|auto].
Qed.

Lemma mapM_ext {A B} (f g : A -> res B) l : (forall a, f a = g a) -> mapM f l = mapM g l.
Proof. intros H. induction l as [|a l IH]; cbn; auto. rewrite H, IH. auto. Qed.

Theorem encf_dict_order : forall fuel kvs kvs', Permutation kvs kvs' -> NoDup (pd_keys kvs) ->
  encf fuel (PDict kvs) = encf fuel (PDict kvs').
Proof.
  intros fuel kvs kvs' P N. destruct fuel as [|fuel]; auto. cbn [encf].
  assert (py_sorted_str (pd_keys kvs) = py_sorted_str (pd_keys kvs')) as K.
  { assert (Permutation (pd_keys kvs) (pd_keys kvs')) as PK by (apply Permutation_map; auto).
    apply sorted_perm_unique.
    - apply py_sorted_strict; auto.
    - apply py_sorted_strict. eapply Permutation_NoDup; eauto.
    - eapply Permutation_trans; [apply py_sorted_str_perm|].
      eapply Permutation_trans; [exact PK|]. apply Permutation_sym, py_sorted_str_perm. }
  rewrite <- K. f_equal. apply mapM_ext. intros k. rewrite (pd_get_perm _ _ k P N). reflexivity.
Qed.

Lemma verify_key_unfold v m p f srcs :
  verify_key v m p f srcs = v ++ 0 :: m ++ 0 :: p ++ 0 :: f ++ flat_map (fun x => [0] ++ x) srcs.
Proof. unfold verify_key, py_join. cbn. rewrite <- ?app_assoc. reflexivity. Qed.

(* the text that Verifier.__init__ hashes, from the inputs of C32/Spec.v *)
Definition key_of (fuel : nat) (i : inputs) : res str :=
  bind (flatten fuel (PDict (i_kwds i))) (fun fk =>
  Ok (verify_key (i_version i) (i_vvm i) (i_preamble i) fk (i_sources i))).

