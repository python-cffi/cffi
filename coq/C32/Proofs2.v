(* C32 — the module name.  The two hexadecimal numbers are injective in the pair of (masked) CRCs: hex rendering,
   the lstrip/rstrip calls of Verifier.__init__ and the 'x' that lstrip('0') leaves in front of the second number.
   Then from the chosen name to what Verifier.get_module_name() returns (regenerated: Gen.v get_module_name,
   module_filename, class_keys), and the last '_' of the name, which separates the tag from engine key and CRCs. *)
From Coq Require Import List NArith ZArith Bool Lia ZifyBool.
Import ListNotations.
From Cffi Require Import C35.PyStr C35.Model C35.Lemmas C24.Utf8 C32.PyStr C32.Model C32.Gen.
Open Scope N_scope.

(* what Verifier.__init__ appends for the two numbers *)
Definition k1_of (n : N) : str := if n =? 0 then [] else hexbody n.          (* hex(n).lstrip('0x') *)
Definition k2_of (n : N) : str := 120 :: hexbody n.                           (* hex(n).lstrip('0') *)

Lemma k1_spec z : py_rstrip (py_lstrip (py_hex z) [48; 120]) [76] = k1_of (Z.to_N z).
Proof.
  rewrite py_hex_unfold. set (n := Z.to_N z). unfold k1_of.
  destruct (hexbody_spec n) as (_ & F & c & r & Hb & Hc).
  destruct (N.eqb_spec n 0) as [E|E].
  - unfold hexbody. rewrite E. reflexivity.
  - rewrite py_lstrip_app.
    + apply py_rstrip_none. intros d I. rewrite Forall_forall in F. apply F, hexdigit_not in I.
      unfold in_chars. cbn. lia.
    + repeat constructor.
    + rewrite Hb. intros c0 r0 [= <- <-]. rewrite Hb in F. inversion F as [|? ? X _]. apply hexdigit_not in X.
      specialize (Hc E). unfold in_chars. cbn. lia.
Qed.

Lemma k2_spec z : py_rstrip (py_lstrip (py_hex z) [48]) [76] = k2_of (Z.to_N z).
Proof.
  rewrite py_hex_unfold. set (n := Z.to_N z). unfold k2_of.
  rewrite (py_lstrip_app [48] (120 :: hexbody n)); [| repeat constructor | now intros c t [= <- _]].
  apply py_rstrip_none. destruct (hexbody_spec n) as (_ & F & _). rewrite Forall_forall in F.
  intros d [<-|I]; [reflexivity|]. apply F, hexdigit_not in I. unfold in_chars. cbn. lia.
Qed.

Lemma k1_digits n : Forall (fun c => is_hexdigit c = true) (k1_of n) /\ hexval (k1_of n) = n.
Proof.
  unfold k1_of. destruct (N.eqb_spec n 0) as [->|_]; [split; [constructor|reflexivity]|].
  destruct (hexbody_spec n) as (V & F & _). auto.
Qed.

(* the 'x' that lstrip('0') leaves in front of the second number separates the two *)
Lemma k_pair_inj p1 p2 q1 q2 : k1_of p1 ++ k2_of p2 = k1_of q1 ++ k2_of q2 -> p1 = q1 /\ p2 = q2.
Proof.
  assert (Hx : forall n, no_char 120 (k1_of n)).
  { intros n. destruct (k1_digits n) as [F _]. eapply Forall_impl; [|exact F]. intros c Hc. now apply hexdigit_not in Hc. }
  intros H. unfold k2_of in H. apply split_at_first in H; auto. destruct H as [A B].
  destruct (k1_digits p1) as [_ V1], (k1_digits q1) as [_ V1'].
  destruct (hexbody_spec p2) as [V2 _], (hexbody_spec q2) as [V2' _].
  rewrite A in V1. rewrite B in V2. split; congruence.
Qed.

Definition cffi_prefix : str := [95;99;102;102;105;95].     (* _cffi_ *)

Section WithCrc.
Variable crc32 : list N -> Z.

Definition crc_pair (b : list N) : N * N :=
  (Z.to_N (Z.land (crc32 (py_slice_step2 0 b)) 4294967295), Z.to_N (Z.land (crc32 (py_slice_step2 1 b)) 4294967295)).

Lemma module_name_form tag ck key b : utf8_encode key = Some b ->
  module_name crc32 tag ck key =
  Ok (cffi_prefix ++ tag ++ [95] ++ ck ++ k1_of (fst (crc_pair b)) ++ k2_of (snd (crc_pair b))).
Proof.
  intros E. unfold module_name, py_encode_utf8. rewrite E. cbn [bind]. cbv zeta.
  rewrite k1_spec, k2_spec. reflexivity.
Qed.

Lemma module_name_ok_form tag ck key n : module_name crc32 tag ck key = Ok n ->
  exists b, utf8_encode key = Some b /\
            n = cffi_prefix ++ tag ++ [95] ++ ck ++ k1_of (fst (crc_pair b)) ++ k2_of (snd (crc_pair b)).
Proof.
  intros H. destruct (utf8_encode key) as [b|] eqn:E.
  - exists b. split; auto. rewrite (module_name_form tag ck key b E) in H. apply Ok_inj in H. now subst.
  - unfold module_name, py_encode_utf8 in H. rewrite E in H. discriminate.
Qed.
End WithCrc.

(* get_module_name() gives what precedes the first '.' of the file's base name, unless a debug build cuts a final "_d" *)
Lemma get_module_name_stem debug tmpdir base a r : base = a ++ 46 :: r -> no_char 46 a -> no_char 47 base ->
  debug = false \/ py_endswith a [95;100] = false ->
  get_module_name debug (py_path_join tmpdir base) = a.
Proof.
  intros -> Hd Hs Hdbg. unfold get_module_name. rewrite py_basename_join by exact Hs.
  rewrite split1_item0_before by exact Hd.
  destruct Hdbg as [-> | ->]; [rewrite andb_false_r|]; reflexivity.
Qed.

(* the file name is tmpdir/<name><suffix>; get_module_name gives <name> back when it has no '.' *)
Lemma get_module_name_roundtrip : forall debug tmpdir name suffix r,
  no_char 46 name -> no_char 47 name -> no_char 47 suffix -> suffix = 46 :: r ->
  debug = false \/ py_endswith name [95;100] = false ->
  get_module_name debug (module_filename tmpdir name suffix) = name.
Proof.
  intros debug tmpdir name suffix r Hd Hs Hs' E Hdbg.
  apply (get_module_name_stem debug tmpdir _ name r); [now rewrite E | exact Hd | apply Forall_app; auto | exact Hdbg].
Qed.

Lemma k_tail_plain c p q : c = 46 \/ c = 47 \/ c = 95 -> no_char c (k1_of p ++ k2_of q).
Proof.
  intros Hc. destruct (k1_digits p) as [F1 _], (hexbody_spec q) as (_ & F2 & _).
  apply Forall_app. split; [|constructor; [lia|]]; eapply Forall_impl; try eassumption;
    intros d Hd; apply hexdigit_not in Hd; lia.
Qed.

Lemma generated_no_char c tag ck p q : c = 46 \/ c = 47 -> no_char c tag -> no_char c ck ->
  no_char c (cffi_prefix ++ tag ++ [95] ++ ck ++ k1_of p ++ k2_of q).
Proof.
  intros Hc T C. assert (K : no_char c (k1_of p ++ k2_of q)) by (apply k_tail_plain; tauto).
  apply Forall_app in K. destruct K. unfold no_char. rewrite !Forall_app.
  repeat split; auto; destruct Hc as [->| ->]; repeat constructor; discriminate.
Qed.

(* a generated name never ends with "_d": it ends with 'x' and at least one hexadecimal digit *)
Lemma generated_not_d pre n : py_endswith (pre ++ k2_of n) [95;100] = false.
Proof.
  destruct (hexbody_spec n) as (_ & F & c & r & Hb & _).
  apply py_endswith_nochar; unfold k2_of; [|rewrite Hb; cbn; lia].
  constructor; [discriminate|]. eapply Forall_impl; [|exact F]. intros d Hd. now apply hexdigit_not in Hd.
Qed.

(* for a tag without '.' and '/', get_module_name() is the name chosen by __init__, debug build or not *)
Theorem get_module_name_of_generated : forall (crc : list N -> Z) debug tmpdir suffix r tag ck key n,
  no_char 46 tag -> no_char 47 tag -> no_char 46 ck -> no_char 47 ck -> no_char 47 suffix -> suffix = 46 :: r ->
  module_name crc tag ck key = Ok n ->
  get_module_name debug (module_filename tmpdir n suffix) = n.
Proof.
  intros crc debug tmpdir suffix r tag ck key n T6 T7 C6 C7 S7 ES H.
  destruct (module_name_ok_form _ _ _ _ _ H) as [b [_ ->]].
  apply (get_module_name_roundtrip debug tmpdir _ suffix r); try assumption.
  1, 2: apply generated_no_char; auto.
  right. rewrite !app_assoc. apply generated_not_d.
Qed.

(* a tag with a '.': get_module_name() keeps what precedes the first '.', whatever the key is *)
Theorem dotted_tag_collapses : forall (crc : list N -> Z) tmpdir suffix t1 t2 ck key n,
  no_char 46 t1 -> no_char 47 t1 -> no_char 47 t2 -> no_char 47 ck -> no_char 47 suffix ->
  module_name crc (t1 ++ 46 :: t2) ck key = Ok n ->
  get_module_name false (module_filename tmpdir n suffix) = cffi_prefix ++ t1.
Proof.
  intros crc tmpdir suffix t1 t2 ck key n T6 T7 U7 C7 S7 H.
  destruct (module_name_ok_form _ _ _ _ _ H) as [b [_ ->]].
  eapply (get_module_name_stem false tmpdir _ (cffi_prefix ++ t1)); [| | |left; reflexivity].
  - rewrite <- !app_assoc. reflexivity.
  - apply Forall_app. split; [repeat constructor; discriminate | exact T6].
  - apply Forall_app. split; [apply generated_no_char; auto | exact S7].
    apply Forall_app. split; [exact T7 | constructor; [discriminate | exact U7]].
Qed.

(* the stand-in for CRC32 in the counterexample C32_dotted_tag_refuted *)
Definition len_crc (b : list N) : Z := Z.of_nat (length b).

Lemma rev_eq_inv {A} (l m : list A) : List.rev l = List.rev m -> l = m.
Proof. intros H. rewrite <- (rev_involutive l), H. apply rev_involutive. Qed.

Lemma split_at_last c a a' b b' : no_char c b -> no_char c b' ->
  a ++ c :: b = a' ++ c :: b' -> a = a' /\ b = b'.
Proof.
  intros Hb Hb' H. apply (f_equal (@List.rev N)) in H. rewrite !rev_app_distr in H. cbn [List.rev] in H.
  rewrite <- !app_assoc in H. cbn [app] in H.
  apply split_at_first in H; try (apply Forall_rev; assumption).
  destruct H as [A B]. split; apply rev_eq_inv; auto.
Qed.

(* the engine keys of the code: one character each, no '_', '.', '/' *)
Lemma class_keys_ok : forall ck, In ck class_keys ->
  length ck = 1%nat /\ no_char 95 ck /\ no_char 46 ck /\ no_char 47 ck.
Proof.
  assert (forallb (fun ck => (Nat.eqb (length ck) 1) && forallb (fun c => negb (c =? 95) && negb (c =? 46) && negb (c =? 47)) ck)
                  class_keys = true) as H by (vm_compute; reflexivity).
  rewrite forallb_forall in H. intros ck I. specialize (H ck I).
  apply andb_true_iff in H. destruct H as [L F]. rewrite forallb_forall in F.
  split; [apply Nat.eqb_eq; exact L|].
  repeat split; apply Forall_forall; intros c Ic; specialize (F c Ic); lia.
Qed.
