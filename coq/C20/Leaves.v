(* C20 — what the filling pass needs from the shared leaf models (C03 integer store, C02 bit-field
   write, C15 character arrays): each leaf conversion yields the bytes of its target or a Python
   exception, never a write outside the block nor C undefined behaviour. *)
From Coq Require Import ZArith Lia Bool List.
Import ListNotations.
From Cffi Require C03.Mem C03.MemProofs C03.Store C03.StoreProofs C02.Spec C02.Model C02.Proofs C15.Model C15.WProofs C15.Proofs.
From Cffi Require Import C20.Model.
Open Scope Z_scope.

(* an outcome that is not a write outside the block (nor C undefined behaviour), and satisfies Q
   when it is a value *)
Definition result_ok {A} (Q : A -> Prop) (r : res A) : Prop :=
  match r with Ok a => Q a | Err e => e <> SegV end.

Lemma result_weaken {A} (Q Q' : A -> Prop) r : (forall a, Q a -> Q' a) -> result_ok Q r -> result_ok Q' r.
Proof. intros H. destruct r; cbn; auto. Qed.

Lemma result_bind {A B} (Q : A -> Prop) (R : B -> Prop) r f :
  result_ok Q r -> (forall a, Q a -> result_ok R (f a)) -> result_ok R (bind r f).
Proof. destruct r; cbn; auto. Qed.

Lemma result_ok_noseg {A} (Q : A -> Prop) r : result_ok Q r -> r <> Err SegV.
Proof. destruct r; cbn; congruence. Qed.

Lemma le_bytes_len n z : 0 <= n -> mlen (le_bytes n z) = n.
Proof. intros. unfold le_bytes, mlen. rewrite C03.MemProofs.length_encode_le. lia. Qed.

Lemma of_c03_ok T z old :
  result_ok (fun d => length d = C03.Store.isize T) (of_c03 (C03.Store.convert_from_object_int T z old)).
Proof.
  unfold C03.Store.convert_from_object_int, C03.Store.as_longlong, C03.Store.as_ulonglong_strict.
  repeat match goal with
         | |- context [if ?c then _ else _] => destruct c
         end;
    cbn [of_c03 of_exc result_ok]; try discriminate; apply C03.MemProofs.write_raw_length.
Qed.

Definition int_kind (k : pkind) : bool :=
  match k with KSigned | KUnsigned | KBool => true | _ => false end.

Lemma conv_prim_int k s z old : int_kind k = true ->
  conv_prim k s (VInt z) old = of_c03 (C03.Store.convert_from_object_int (ity_of k s) z old).
Proof. destruct k; try discriminate; reflexivity. Qed.

Lemma conv_prim_ok k s v old : 0 < s -> result_ok (fun bs => mlen bs = s) (conv_prim k s v old).
Proof.
  intros Hs. destruct (int_kind k) eqn:Hk.
  - destruct v; try (destruct k; discriminate).
    rewrite conv_prim_int by exact Hk. eapply result_weaken; [|apply of_c03_ok].
    unfold mlen. intros d ->. cbn. lia.
  - unfold conv_prim. destruct k; try discriminate; destruct v; try discriminate;
    repeat match goal with
           | |- context [match ?l with [] => _ | _ :: _ => _ end] => destruct l
           | |- context [if ?c then _ else _] => destruct c eqn:?
           | |- context [match ?o with Some _ => _ | None => _ end] => destruct o
           end; cbn [result_ok]; try discriminate; try (apply le_bytes_len; lia); apply Z.eqb_eq; assumption.
Qed.

(* for a field narrower than long long whose bits lie inside a unit of at most 8 bytes: accepted and
   the unit holds `s` bytes, or refused; never UB (whatever the unit holds) *)
Lemma conv_bitfield_ok k s sh b v old : 0 < s -> 1 <= b < 64 -> 0 <= sh < 64 ->
  result_ok (fun bs => mlen bs = s) (conv_bitfield k s sh b v old).
Proof.
  intros Hs Hb Hsh. destruct v; try discriminate. unfold conv_bitfield. rewrite C02.Proofs.bf_write_narrow by assumption.
  destruct (C02.Proofs.acceptb _ _ _); cbn [of_c02 result_ok]; [|discriminate].
  unfold mlen. rewrite C03.MemProofs.write_raw_length. cbn. lia.
Qed.

(* convert_array refuses with IndexError, TypeError or ValueError only.  The units it stores: those
   of the initialiser, plus the terminator unless they fill the array exactly; more units than the
   declared length are refused *)
Lemma c15_convert_ok t len v :
  match C15.Model.convert_array t len v with
  | C15.Spec.Ok us =>
      let n := C15.Model.new_array_length t v - 1 in
      ((0 <=? len) && (len <? n)) = false /\ mlen us = if n =? len then n else n + 1
  | C15.Spec.Err e => of_exn e <> SegV
  end.
Proof.
  destruct (C15.Proofs.units_of t v) as [us|e] eqn:Hu.
  - rewrite (C15.Proofs.convert_array_units t v us len Hu), <- (C15.Proofs.units_size t v us Hu). cbv zeta.
    replace (C15.Spec.zlen us + 1 - 1) with (C15.Spec.zlen us) by lia.
    destruct (_ && _); [discriminate|]. destruct (_ =? _); (split; [reflexivity|]); [reflexivity|].
    exact (C15.WProofs.zlen_app us [0]).
  - destruct (C15.Proofs.convert_array_no_units t len v e Hu) as (e' & -> & [->|[->| ->]]); discriminate.
Qed.

Lemma new_array_length_pos t v : 1 <= C15.Model.new_array_length t v.
Proof.
  unfold C15.Model.new_array_length, C15.Gen.size32, C15.Spec.zlen. destruct v as [bs|s]; [lia|].
  destruct t; try lia. rewrite C15.WProofs.size16_unfold. pose proof (C15.WProofs.sz16_count_nonneg s).
  unfold C15.Spec.zlen. lia.
Qed.

Lemma c15_array_ok t len v cap :
  (0 <= len -> cap = len) -> (len < 0 -> cap = C15.Model.new_array_length t v) ->
  result_ok (fun us => mlen us <= cap) (of_c15 (C15.Model.convert_array t len v)).
Proof.
  intros Hfix Hflex. pose proof (c15_convert_ok t len v) as H.
  destruct (C15.Model.convert_array t len v) as [us|e]; cbn [of_c15 result_ok]; [|exact H].
  cbv zeta in H. destruct H as (Hlong & ->).
  destruct (Z.eqb_spec (C15.Model.new_array_length t v - 1) len); lia.
Qed.

Lemma ity_of_wf k s : 1 <= s <= 8 -> C03.StoreProofs.wf_ity (ity_of k s).
Proof.
  intros H. split; cbn [ity_of C03.Store.isize C03.Store.ibool C03.Store.isigned]; [lia|].
  destruct k; try discriminate; reflexivity.
Qed.

(* ffi.new("T[]", str/bytes) allocates C15's new_array_length units *)
Lemma open_char_array_size fuel s v pv :
  (v = VStr pv /\ 0 <= 0) \/ v = VBytes pv ->
  alloc_size fuel (NewArr (LPrim KChar s) (-1)) v =
  let n := C15.Model.new_array_length (ety_of s)
             (match v with VStr c => C15.Model.PStr c | _ => C15.Model.PBytes pv end) in
  if SSIZE_MAX <? n * s then Err OverflowError else Ok (n * s).
Proof. intros [(-> & _)| ->]; reflexivity. Qed.
