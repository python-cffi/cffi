(* C20 — ffi.new zero-fills and initializes exactly like assignment; flexible-array sizing.
   The general lemmas are in C20/Proofs.v and Leaves.v.  Model: C20/Model.v. *)
From Coq Require Import ZArith List Bool Lia.
Import ListNotations.
From Cffi Require C03.Mem C03.Store C03.StoreProofs C02.Model C02.Proofs C15.Model.
From Cffi Require Import C20.Model C20.Leaves C20.Proofs.
Open Scope Z_scope.

(* ffi.new(T, init) = a zero block of the size computed by the sizing pass, then the same
   convert_from_object that an assignment performs.
   This is the unfolding of new_bytes — the model has ONE `fill`,
   used by both forms, because direct_newp and cdata_ass_sub literally call the same C function
   convert_from_object.  It carries no information beyond that modelling decision; what ties
   "p = ffi.new(T, init)" to "p = ffi.new(T); p[0] = init" is the correspondence run on the real code
   (bytes of both forms compared on every generated case, tools/props/c20.py). *)
Theorem C20_new_is_assign : forall fuel T init,
  new_bytes fuel T init =
  bind (alloc_size fuel T init) (fun n =>
  if MAX_ALLOC <? n then Err MemoryError
  else match new_init T init with
       | VNone => Ok (zeros n)
       | i => assign_bytes fuel T i n
       end).
Proof. exact new_is_assign. Qed.
Print Assumptions C20_new_is_assign.

(* for types that are not var-sized: p = ffi.new(T, init) is p = ffi.new(T); p[0] = init *)
Theorem C20_new_is_literal_assign : forall fuel T init, fixed_size T -> init <> VNone ->
  new_bytes fuel T init =
  bind (new_bytes fuel T VNone) (fun m0 => fill fuel (new_target T) 0 init m0).
Proof.
  intros fuel T init HF Hn. rewrite (new_is_assign fuel T init), (new_is_assign fuel T VNone).
  rewrite (alloc_fixed fuel T init HF), (new_init_fixed T init HF), (new_init_fixed T VNone HF).
  destruct (alloc_size fuel T VNone) as [n|e]; cbn [bind]; [|reflexivity].
  destruct (MAX_ALLOC <? n); cbn [bind]; [reflexivity|].
  destruct init; try reflexivity. contradiction.
Qed.
Print Assumptions C20_new_is_literal_assign.

(* Memory safety of ffi.new, all nesting depths: for every type whose layout is well formed
   (wf_type: fields inside their struct, bit-field units inside, flexible arrays flagged), every
   initialiser (lists, tuples, dicts, bytes, str counted in units of the item type, cdata,
   lengths; valid or not) and any fuel, no byte is written outside the block whose size the
   sizing pass computed (a write outside it is the model's SegV) — and no leaf store runs into C
   undefined behaviour (C03's UB / C02's BUB outcomes are mapped to SegV as well; wf_type contains
   C02's placement condition for bit-fields). *)
Theorem C20_sizing_dominates : forall fuel T init,
  wf_type (new_target T) = true -> new_bytes fuel T init <> Err SegV.
Proof. exact sizing_dominates. Qed.
Print Assumptions C20_sizing_dominates.

(* Frame, the invariant behind it (usable for assignments too): converting any initialiser into a
   fixed-size type at offset off changes no byte outside [off, off + sizeof), never leaves the
   block and keeps its length, whenever that range lies inside the block: a nested initialiser
   cannot spill over into neighbouring members *)
Theorem C20_assign_stays_inside : forall fuel t off init m,
  wf_type t = true -> agg_var t = false -> 0 <= lsize t ->
  0 <= off -> off + lsize t <= mlen m ->
  fill fuel t off init m <> Err SegV /\
  forall m', fill fuel t off init m = Ok m' ->
    mlen m' = mlen m /\
    forall i, 0 <= i -> i < off \/ off + lsize t <= i -> byte m' i = byte m i.
Proof. intros fuel t off init m. intros. apply fill_within_room; auto. rewrite room_need, need_nonvar; auto. Qed.
Print Assumptions C20_assign_stays_inside.

(* general form: a block as large as the sizing pass asks for (need) is enough for the filling
   pass, at every offset and nesting depth, and nothing outside [off, off + need) changes *)
Theorem C20_need_is_enough : forall fuel t off v m n,
  wf_type t = true -> 0 <= lsize t -> 0 <= off ->
  need fuel t v = Ok n -> off + n <= mlen m ->
  fill fuel t off v m <> Err SegV /\
  forall m', fill fuel t off v m = Ok m' ->
    mlen m' = mlen m /\
    forall i, 0 <= i -> i < off \/ off + n <= i -> byte m' i = byte m i.
Proof. intros fuel t off v m n Hwf Hsz Ho Hneed Hb. apply fill_within_room; auto. rewrite room_need; assumption. Qed.
Print Assumptions C20_need_is_enough.

(* "memory that is zero except where init writes", for keyword initialisers of fixed-size
   structs/unions: the block has exactly sizeof bytes and every byte that does not belong to a
   member named in the dict (for a bit-field: to its storage unit) is zero.
   (Positional initialisers are keyword ones over the leading constructor fields:
   C20_positional_is_keyword; tools/props/c20.py compares the two forms on the implementation as well.) *)
Theorem C20_unnamed_bytes_are_zero : forall fuel size fs kv m,
  wf_type (LAgg size false fs) = true ->
  new_bytes fuel (NewPtr (LAgg size false fs)) (VDict kv) = Ok m ->
  mlen m = size /\
  forall i, 0 <= i ->
    (forall k x f, In (k, x) kv -> lookup_field fs k = Some f ->
       i < lf_off f \/ lf_off f + lsize (lf_type f) <= i) ->
    byte m i = 0.
Proof. exact new_dict_unnamed_zero. Qed.
Print Assumptions C20_unnamed_bytes_are_zero.

(* An array of var-sized structs is filled item by item, flexible parts included, but sized as
   len * sizeof.  The guard of convert_array_from_object (item_guard in the model) refuses with ValueError
   an item whose initialiser needs more than ct_size: ffi.new("struct V[1]", [[1, [1,2,3]]]) with
   struct V { int n; int a[]; };  would otherwise write past the block (finding array_of_varsize_struct:
   SegV in the model, heap-buffer-overflow on the real code under ASan).  The witnesses: *)
Definition t_int := LPrim KSigned 4.
Definition t_V := LAgg 4 true [(t_int, 0, -1, -1, 0); (LArr t_int (-1), 4, -2, -1, 0)].
Example C20_former_overflow_is_refused :
  wf_type (LArr t_V 1) = true /\
  new_bytes FUEL (NewArr t_V 1) (VList [VList [VInt 1; VList [VInt 1; VInt 2; VInt 3]]]) = Err ValueError /\
  (* initialisers that fit are accepted *)
  new_bytes FUEL (NewArr t_V 2) (VList [VList [VInt 1]; VList [VInt 2; VInt 0]]) = Ok [1;0;0;0; 2;0;0;0].
Proof. repeat split; vm_compute; reflexivity. Qed.

(* the same through a struct member:  struct W { struct V arr[2]; } *)
Definition t_W := LAgg 8 false [(LArr t_V 2, 0, -1, -1, 0)].
Example C20_former_overflow_member :
  wf_type t_W = true /\ no_var_items t_W = false /\ new_bytes FUEL (NewPtr t_W)
    (VList [VList [VList [VInt 1; VList [VInt 1; VInt 2; VInt 3]]; VList [VInt 2]]]) = Err ValueError.
Proof. repeat split; vm_compute; reflexivity. Qed.

(* non-vacuity: a var-sized struct nested in a struct, initialised three levels deep
   struct V { int n; int a[]; };  struct X { int k; struct V v; };
   ffi.new("struct X *", [5, [1, [7, 8, 9]]])  ->  20 bytes *)
Definition t_X := LAgg 8 true [(t_int, 0, -1, -1, 0); (t_V, 4, -1, -1, 0)].
Example C20_example_nested :
  wf_type t_X = true /\ no_var_items t_X = true /\ alloc_size FUEL (NewPtr t_X) (VList [VInt 5; VList [VInt 1; VList [VInt 7; VInt 8; VInt 9]]]) = Ok 20 /\ new_bytes FUEL (NewPtr t_X) (VList [VInt 5; VList [VInt 1; VList [VInt 7; VInt 8; VInt 9]]])
  = Ok [5;0;0;0; 1;0;0;0; 7;0;0;0; 8;0;0;0; 9;0;0;0] /\ (* a length instead of items: sized, left zero *)
  new_bytes FUEL (NewPtr t_X) (VDict [(1, VDict [(1, VInt 3)])]) = Ok (zeros 20) /\ (* errors are explicit results *)
  new_bytes FUEL (NewPtr t_X) (VList [VInt 5; VList [VInt 1; VInt (-1)]]) = Err ValueError /\ new_bytes FUEL (NewPtr t_X) (VList [VInt 5; VList []; VInt 2]) = Err ValueError /\ new_bytes FUEL (NewPtr t_X) (VDict [(7, VInt 0)]) = Err KeyError /\ new_bytes FUEL (NewPtr t_X) (VList [VInt (2 ^ 31)]) = Err OverflowError.
Proof. repeat split; vm_compute; reflexivity. Qed.

(* a union sequence sets the first member only; bit-field store is a read-modify-write *)
Definition t_U := LAgg 4 false [(t_int, 0, -1, -1, 0); (LPrim KChar 1, 0, -1, -1, 1)].
Definition t_B := LAgg 4 false [(t_int, 0, 0, 3, 0); (t_int, 0, 3, 5, 0)].
Example C20_example_union_bitfield :
  new_bytes FUEL (NewPtr t_U) (VList [VInt 258]) = Ok [2; 1; 0; 0] /\ new_bytes FUEL (NewPtr t_U) (VList [VInt 1; VBytes [65]]) = Err ValueError /\ new_bytes FUEL (NewPtr t_B) (VList [VInt (-1); VInt 9]) = Ok [79; 0; 0; 0].
Proof. repeat split; vm_compute; reflexivity. Qed.

(* flexible character arrays are sized in UNITS of the item type, not in code points:
   struct S { int n; char16_t s[]; };  ffi.new("struct S *", [1, "a\U0001F600"])  needs 4 + 2*(1+2+1) bytes *)
Definition t_S16 := LAgg 4 true [(t_int, 0, -1, -1, 0); (LArr (LPrim KChar 2) (-1), 4, -2, -1, 0)].
Example C20_example_utf16 :
  wf_type t_S16 = true /\
  new_bytes FUEL (NewPtr t_S16) (VList [VInt 1; VStr [97; 128512]])
  = Ok [1;0;0;0; 97;0; 61;216; 0;222; 0;0].
Proof. repeat split; vm_compute; reflexivity. Qed.

(* "sequence initializers fill leading elements or fields in order, dict initializers set the
   named fields, and union sequences set the first member"

   ctor_keys 0 fs = the positions (in ct_extra, the keys of a model dict) of the fields without
   BF_IGNORE_IN_CTOR, in order.  A positional initialiser with at most that many items IS the
   keyword initialiser naming the leading ones — same bytes, same size, same error: structs and
   unions, fixed or var-sized (both passes of convert_struct_from_object skip as the code does). *)
Theorem C20_positional_is_keyword : forall fuel size var fs vs,
  (length vs <= length (ctor_keys 0 fs))%nat ->
  new_bytes fuel (NewPtr (LAgg size var fs)) (VList vs) =
  new_bytes fuel (NewPtr (LAgg size var fs)) (VDict (combine (ctor_keys 0 fs) vs)).
Proof.
  intros fuel size var fs l H. unfold new_bytes. cbn [alloc_size new_init new_target lsize agg_var agg_fields].
  destruct (size <? 0); [reflexivity|]. destruct var; cbn [andb negb].
  - rewrite (size_struct_list_dict fuel fs l size H).
    destruct (size_struct fuel fs _ size) as [n|e]; cbn [bind]; [|reflexivity].
    destruct (MAX_ALLOC <? n); [reflexivity|]. apply fill_list_dict. exact H.
  - cbn [bind]. destruct (MAX_ALLOC <? size); [reflexivity|]. apply fill_list_dict. exact H.
Qed.
Print Assumptions C20_positional_is_keyword.

(* more items than constructor fields are never accepted (ValueError "too many initializers",
   unless an earlier item already failed) *)
Theorem C20_positional_too_long : forall fuel size var fs vs m,
  (length (ctor_keys 0 fs) < length vs)%nat ->
  new_bytes fuel (NewPtr (LAgg size var fs)) (VList vs) <> Ok m.
Proof.
  intros fuel size var fs l m H. unfold new_bytes. cbn [alloc_size new_init new_target lsize agg_var agg_fields].
  destruct (size <? 0); [cbn; discriminate|]. destruct var; cbn [andb negb].
  - destruct fuel as [|f]; [cbn; discriminate|]. cbn [size_struct].
    pose proof (from_list_too_long (size_field (size_struct f)) fs l size) as Hn.
    destruct (struct_from_object _ fs (VList l) size) as [n|e]; cbn [bind]; [|discriminate].
    exfalso. exact (Hn n H eq_refl).
  - cbn [bind]. destruct (MAX_ALLOC <? size); [discriminate|].
    destruct fuel as [|f]; [discriminate|]. cbn [fill]. apply from_list_too_long, H.
Qed.
Print Assumptions C20_positional_too_long.

(* union: every member but the first carries BF_IGNORE_IN_CTOR, so a sequence has exactly one
   constructor field — [v] sets the first member, anything longer is refused *)
Theorem C20_union_sequence_first_member : forall fuel size var f0 rest v,
  ignore_in_ctor f0 = false -> Forall (fun f => ignore_in_ctor f = true) rest ->
  new_bytes fuel (NewPtr (LAgg size var (f0 :: rest))) (VList [v]) =
  new_bytes fuel (NewPtr (LAgg size var (f0 :: rest))) (VDict [(0, v)]) /\
  forall v2 vs m, new_bytes fuel (NewPtr (LAgg size var (f0 :: rest))) (VList (v :: v2 :: vs)) <> Ok m.
Proof.
  intros fuel size var f0 rest v H0 Hr. pose proof (union_keys f0 rest 0 H0 Hr) as Hk. split.
  - rewrite C20_positional_is_keyword by (rewrite Hk; cbn; lia). rewrite Hk. reflexivity.
  - intros v2 vs m. apply C20_positional_too_long. rewrite Hk. cbn. lia.
Qed.
Print Assumptions C20_union_sequence_first_member.

(* array sequences fill the leading items: with k items given, the block has len*sizeof(item)
   bytes and every byte from item k on is zero (items 0..k-1 are converted one after the other at
   off + j*sizeof(item): fill_items) *)
Theorem C20_array_sequence_leading : forall fuel item len vs m,
  wf_type (LArr item len) = true -> 0 <= len ->
  new_bytes fuel (NewArr item len) (VList vs) = Ok m ->
  mlen vs <= len /\ mlen m = len * lsize item /\
  forall i, mlen vs * lsize item <= i -> byte m i = 0.
Proof. exact array_sequence_leading. Qed.
Print Assumptions C20_array_sequence_leading.

(* "ffi.sizeof(p[0]) reports that allocated size"
   new_object = (block, the length slot direct_newp stores for var-sized structs and T[]);
   sizeof_cdata = direct_sizeof_cdata / _cdata_var_byte_size.  The reported size is the size the
   sizing pass computed AND the real size of the block, for structs ending in a flexible array as
   for everything else. *)
Theorem C20_sizeof_is_alloc_size : forall fuel T init m slot,
  wf_type (new_target T) = true ->
  (forall k s, T <> NewPtr (LPrim k s)) ->
  new_object fuel T init = Ok (m, slot) ->
  alloc_size fuel T init = Ok (sizeof_cdata T slot) /\ mlen m = sizeof_cdata T slot.
Proof. exact sizeof_is_alloc_size. Qed.
Print Assumptions C20_sizeof_is_alloc_size.

Example C20_example_sizeof :
  new_object FUEL (NewPtr t_X) (VList [VInt 5; VList [VInt 1; VList [VInt 7; VInt 8; VInt 9]]])
  = Ok ([5;0;0;0; 1;0;0;0; 7;0;0;0; 8;0;0;0; 9;0;0;0], Some 20) /\
  sizeof_cdata (NewPtr t_X) (Some 20) = 20 /\
  ctor_keys 0 (agg_fields t_U) = [0] /\ ctor_keys 0 (agg_fields t_X) = [0; 1].
Proof. repeat split; vm_compute; reflexivity. Qed.

(* "which values are written": the leaves of the filling pass are not C20's own.
   Model.v calls the functions that C03, C02 and C15 prove correct and tie to regenerated source:
     C03.Store.convert_from_object_int  (C03_gen_store_refines: = the regenerated statement lists)
     C02.Model.bf_write                 (C02_gen_write_refines: = the regenerated mask/shift program)
     C15.Model.convert_array / new_array_length / as_single_char16,32   (C15/Gen.v, regenerated)
   The first theorem of each group is the identification (by construction of the model: it is what
   makes the C20 correspondence run exercise those models); the others are what follows for ffi.new. *)
Theorem C20_prim_is_C03 : forall k s z old, int_kind k = true ->
  conv_prim k s (VInt z) old = of_c03 (C03.Store.convert_from_object_int (ity_of k s) z old).
Proof. exact conv_prim_int. Qed.
Print Assumptions C20_prim_is_C03.

(* closed form: accepted iff in C03's range, then the little-endian bytes; otherwise OverflowError *)
Theorem C20_prim_closed_form : forall k s z old, int_kind k = true -> 1 <= s <= 8 ->
  conv_prim k s (VInt z) old =
  if C03.Store.in_range (ity_of k s) z then Ok (le_bytes s (z mod 2 ^ 64)) else Err OverflowError.
Proof.
  intros k s z old Hk Hs. rewrite conv_prim_int by exact Hk.
  rewrite C03.StoreProofs.store_exact by (apply ity_of_wf; exact Hs).
  destruct (C03.Store.in_range (ity_of k s) z); reflexivity.
Qed.
Print Assumptions C20_prim_closed_form.

Theorem C20_prim_reads_back : forall k s z old bs, int_kind k = true -> 1 <= s <= 8 ->
  conv_prim k s (VInt z) old = Ok bs ->
  C03.Store.in_range (ity_of k s) z = true /\ C03.Store.read_int (ity_of k s) bs = z.
Proof.
  intros k s z old bs Hk Hs. rewrite conv_prim_int by exact Hk.
  rewrite C03.StoreProofs.store_exact by (apply ity_of_wf; exact Hs).
  destruct (C03.Store.in_range (ity_of k s) z) eqn:Hr; cbn; intros E; inversion E.
  split; [reflexivity|]. apply C03.StoreProofs.read_encode; [apply ity_of_wf; exact Hs|exact Hr].
Qed.
Print Assumptions C20_prim_reads_back.

Theorem C20_bitfield_is_C02 : forall k s sh w z old,
  conv_bitfield k s sh w (VInt z) old = of_c02 (C02.Model.bf_write (ity_of k s) w sh z old).
Proof. intros k s sh w z old. reflexivity. Qed.
Print Assumptions C20_bitfield_is_C02.

(* wf_type's bit-field clause (checked on every layout the harness reads) gives C02's placement, once
   _Bool fields have size 1 (which wf_type does not say) *)
Theorem C20_wf_bitfield_is_placement : forall k s sh w,
  0 < s -> ((0 <? w) && (sh + w <=? 8 * s) && (s <=? 8)) = true -> 0 <= sh -> (k = KBool -> s = 1) ->
  C02.Proofs.placement (ity_of k s) w sh.
Proof.
  intros k s sh w Hs H Hsh Hb. rewrite !andb_true_iff in H. destruct H as ((A & B) & C).
  apply Z.ltb_lt in A. apply Z.leb_le in B. apply Z.leb_le in C.
  constructor; cbn [ity_of C03.Store.isize C03.Store.ibool C03.Store.isigned]; try lia.
  intros Hk. destruct k; try discriminate. split; [|reflexivity]. rewrite (Hb eq_refl). reflexivity.
Qed.
Print Assumptions C20_wf_bitfield_is_placement.

(* a bit-field initialiser that is accepted reads back (C02's bf_read) as z (-1 for a signed 1-bit
   field given 1), and every bit of the storage unit outside [sh, sh+w) keeps its value *)
Theorem C20_bitfield_reads_back : forall k s sh w z old bs,
  C02.Proofs.placement (ity_of k s) w sh -> C02.Proofs.unit_ok (ity_of k s) old ->
  conv_bitfield k s sh w (VInt z) old = Ok bs ->
  C02.Model.bf_read (ity_of k s) w sh bs =
    C02.Model.BOk (if C03.Store.isigned (ity_of k s) && (w =? 1) && (z =? 1) then -1 else z) /\
  forall i, 0 <= i -> ~ (sh <= i < sh + w) ->
    Z.testbit (C03.Mem.read_raw_unsigned bs) i = Z.testbit (C03.Mem.read_raw_unsigned old) i.
Proof.
  intros k s sh w z old bs Hp Hu. rewrite C20_bitfield_is_C02.
  destruct (C02.Model.bf_write (ity_of k s) w sh z old) as [[[]|e|] d] eqn:E; cbn; intros H; inversion H; subst d.
  split.
  - exact (C02.Proofs.roundtrip _ _ _ _ _ _ Hp Hu E).
  - exact (proj2 (C02.Proofs.isolated _ _ _ _ _ _ Hp Hu E)).
Qed.
Print Assumptions C20_bitfield_reads_back.

Theorem C20_char_array_is_C15 : forall fuel s len off c m,
  fill (S fuel) (LArr (LPrim KChar s) len) off (VStr c) m =
  if s =? 1 then Err TypeError
  else bind (of_c15 (C15.Model.convert_array (ety_of s) len (C15.Model.PStr c)))
            (fun us => write off (flat_map (le_bytes s) us) m).
Proof. intros fuel s len off c m. cbn [fill fill_array wide_char_item lsize]. destruct (s =? 1); reflexivity. Qed.
Print Assumptions C20_char_array_is_C15.

Theorem C20_byte_array_is_C15 : forall fuel k s len off b m,
  k = KChar \/ k = KSigned \/ k = KUnsigned ->
  fill (S fuel) (LArr (LPrim k s) len) off (VBytes b) m =
  if s =? 1 then bind (of_c15 (C15.Model.convert_array C15.Model.E8 len (C15.Model.PBytes b)))
                      (fun src => write off src m)
  else Err TypeError.
Proof.
  intros fuel k s len off b m.
  intros [->|[->| ->]]; cbn [fill fill_array one_byte_item is_bool_item lsize andb];
    destruct (s =? 1); reflexivity.
Qed.
Print Assumptions C20_byte_array_is_C15.

(* the units C15 stores: as many as C15's new_array_length says (minus the terminator when the units
   fill the array exactly), never more than the declared length; only Index/Type/ValueError *)
Theorem C20_char_array_units : forall t len v us,
  C15.Model.convert_array t len v = C15.Spec.Ok us ->
  let n := C15.Model.new_array_length t v - 1 in
  ((0 <=? len) && (len <? n)) = false /\ mlen us = if n =? len then n else n + 1.
Proof. intros t len v us E. pose proof (c15_convert_ok t len v) as H. rewrite E in H. exact H. Qed.
Print Assumptions C20_char_array_units.

Example C20_example_leaves :
  (* a code point above 0x10FFFF cannot be stored in a char16_t array (C15's as_char16) *)
  new_bytes FUEL (NewArr (LPrim KChar 2) 4) (VStr [1114112]) = Err ValueError /\
  new_bytes FUEL (NewArr (LPrim KChar 2) (-1)) (VStr [97; 128512]) = Ok [97;0; 61;216; 0;222; 0;0] /\
  new_bytes FUEL (NewArr (LPrim KChar 4) 2) (VStr [97; 128512]) = Ok [97;0;0;0; 0;246;1;0] /\
  new_bytes FUEL (NewPtr (LPrim KBool 1)) (VInt 2) = Err OverflowError /\
  new_bytes FUEL (NewPtr (LPrim KSigned 2)) (VInt (-2)) = Ok [254; 255] /\
  new_bytes FUEL (NewPtr (LPrim KUnsigned 8)) (VInt (2 ^ 64)) = Err OverflowError /\
  (* a bit-field outside its unit is not a well-formed layout *)
  wf_type (LAgg 4 false [(t_int, 0, 30, 5, 0)]) = false /\ wf_type t_B = true.
Proof. repeat split; vm_compute; reflexivity. Qed.
