(* C20 — proofs about the model of ffi.new (C20/Model.v).
   The filling pass is followed through `safe`: no write outside the block, and a frame.  `room` is
   what the sizing pass leaves for a type and its initialiser; `fill_within_room` (one induction on
   the fuel) says the filling pass stays inside it.  What the loop over a keyword initialiser
   preserves goes through one invariant lemma (dict_inv); what each of its entries made of the size is
   no invariant of the state and has an induction of its own (dict_sized); a positional initialiser is
   rewritten into a keyword one (list_as_dict). *)
From Coq Require Import ZArith Lia Bool List.
Import ListNotations.
From Cffi Require C03.MemProofs C15.Model.
From Cffi Require Import C20.Model C20.Leaves.
Open Scope Z_scope.

Lemma new_is_assign fuel T init :
  new_bytes fuel T init =
  bind (alloc_size fuel T init) (fun n =>
  if MAX_ALLOC <? n then Err MemoryError
  else match new_init T init with
       | VNone => Ok (zeros n)
       | i => assign_bytes fuel T i n
       end).
Proof.
  unfold new_bytes, assign_bytes. destruct (alloc_size fuel T init); cbn [bind]; [|reflexivity].
  destruct (MAX_ALLOC <? a); [reflexivity|]. destruct (new_init T init); reflexivity.
Qed.

(* for a type that is not var-sized the block does not depend on the initialiser, so
   ffi.new(T, init) is literally  p = ffi.new(T); p[0] = init *)
Definition fixed_size (T : newtype) : Prop :=
  match T with
  | NewPtr t => agg_var t = false
  | NewArr _ len => 0 <= len
  end.

Lemma alloc_fixed fuel T init : fixed_size T -> alloc_size fuel T init = alloc_size fuel T VNone.
Proof.
  destruct T as [t|item len]; cbn [fixed_size alloc_size]; intros H.
  - rewrite H. reflexivity.
  - destruct (Z.ltb_spec len 0); [lia|reflexivity].
Qed.

Lemma new_init_fixed T init : fixed_size T -> new_init T init = init.
Proof.
  destruct T as [t|item len]; cbn; intros H; [destruct init; reflexivity|].
  destruct init; try reflexivity. destruct (Z.ltb_spec len 0); [lia|reflexivity].
Qed.

(* the filling pass did not leave the block, the block keeps its size, and every byte outside
   [lo, hi) keeps its value (frame) *)
Definition byte (m : mem) (i : Z) : Z := nth (Z.to_nat i) m 0.
Definition safe (lo hi : Z) (r : res mem) (m : mem) : Prop :=
  r <> Err SegV /\
  forall m', r = Ok m' ->
    mlen m' = mlen m /\ forall i, 0 <= i -> i < lo \/ hi <= i -> byte m' i = byte m i.

(* the frame of `safe` for an arbitrary set U of untouched positions (safe: those outside [lo, hi)); the
   loops over fields are followed through it, U being the positions outside every named field *)
Definition keeps (U : Z -> Prop) (m m' : mem) : Prop :=
  mlen m' = mlen m /\ forall i, 0 <= i -> U i -> byte m' i = byte m i.

Lemma keeps_refl U m : keeps U m m.
Proof. split; reflexivity. Qed.

Lemma keeps_trans U a b c : keeps U a b -> keeps U b c -> keeps U a c.
Proof. intros (L1 & B1) (L2 & B2). split; [congruence|]. intros i Hi Hu. rewrite B2, B1; auto. Qed.

Lemma keeps_weaken (U U' : Z -> Prop) a b : (forall i, U' i -> U i) -> keeps U a b -> keeps U' a b.
Proof. intros H (L & B). split; auto. Qed.

Lemma safe_keeps lo hi r m : safe lo hi r m <-> result_ok (keeps (fun i => i < lo \/ hi <= i) m) r.
Proof.
  unfold safe. destruct r as [m'|e]; cbn [result_ok]; split.
  - intros (_ & H). exact (H m' eq_refl).
  - intros H. split; [discriminate|]. intros m1 [= <-]. exact H.
  - intros (H & _). congruence.
  - intros H. split; [congruence|discriminate].
Qed.

Lemma safe_err lo hi e m : e <> SegV -> safe lo hi (Err e) m.
Proof. intros H. apply safe_keeps. exact H. Qed.

Lemma safe_ok lo hi m : safe lo hi (Ok m) m.
Proof. apply safe_keeps. apply keeps_refl. Qed.

Lemma safe_weaken lo hi lo' hi' r m : lo' <= lo -> hi <= hi' -> safe lo hi r m -> safe lo' hi' r m.
Proof.
  intros H1 H2 Hs. apply safe_keeps. apply safe_keeps in Hs. revert Hs. apply result_weaken.
  intros m'. apply keeps_weaken. lia.
Qed.

Lemma safe_bind {A} lo hi (Q : A -> Prop) (r : res A) (f : A -> res mem) m :
  result_ok Q r -> (forall a, Q a -> safe lo hi (f a) m) -> safe lo hi (bind r f) m.
Proof. intros Hr Hf. apply safe_keeps. eapply result_bind; [exact Hr|]. intros a Ha. apply safe_keeps, Hf, Ha. Qed.

Lemma safe_bind_mem lo hi (r : res mem) (f : mem -> res mem) m :
  safe lo hi r m -> (forall m1, mlen m1 = mlen m -> safe lo hi (f m1) m1) -> safe lo hi (bind r f) m.
Proof.
  intros Hr Hf. apply safe_keeps. apply safe_keeps in Hr. eapply result_bind; [exact Hr|].
  intros m1 Hk. generalize (Hf m1 (proj1 Hk)). rewrite safe_keeps. apply result_weaken.
  intros m2. apply keeps_trans. exact Hk.
Qed.

Lemma mlen_app {A} (a b : list A) : mlen (a ++ b) = mlen a + mlen b.
Proof. unfold mlen. rewrite app_length. lia. Qed.

Lemma mlen_nonneg {A} (a : list A) : 0 <= mlen a.
Proof. unfold mlen. lia. Qed.

(* `write` inside the block is C03's splice *)
Lemma write_safe_in lo hi off bs m :
  lo <= off -> 0 <= off -> off + mlen bs <= hi -> hi <= mlen m -> safe lo hi (write off bs m) m.
Proof.
  intros Hlo Ho Hhi Hb. unfold write.
  destruct (Z.ltb_spec off 0); [lia|]. destruct (Z.ltb_spec (mlen m) (off + mlen bs)); [lia|]. cbn [orb].
  change (firstn _ m ++ bs ++ skipn _ m) with (C03.Mem.splice (Z.to_nat off) bs m).
  apply safe_keeps. split; unfold mlen in *.
  - rewrite C03.MemProofs.splice_length; [reflexivity|lia].
  - intros i Hi Hr. apply C03.MemProofs.nth_splice_outside; lia.
Qed.

Lemma write_safe off bs m : 0 <= off -> off + mlen bs <= mlen m -> safe off (off + mlen bs) (write off bs m) m.
Proof. intros. apply write_safe_in; lia. Qed.

Lemma firstn_mlen {A} k (d : list A) : 0 <= k -> mlen (firstn (Z.to_nat k) d) <= k.
Proof. intros. unfold mlen. rewrite firstn_length. lia. Qed.

Lemma gnal_ok isz x : result_ok (fun lb => 0 <= fst lb) (get_new_array_length isz x).
Proof.
  destruct x; cbn [get_new_array_length result_ok fst]; try discriminate.
  - destruct (Z.ltb_spec z 0); [discriminate|]. destruct (SSIZE_MAX <? z); [discriminate|]. exact H.
  - pose proof (new_array_length_pos (ety_of isz) (C15.Model.PBytes b)). lia.
  - pose proof (new_array_length_pos (ety_of isz) (C15.Model.PStr cps)). lia.
  - apply mlen_nonneg.
Qed.

Lemma gnal_err isz x e : get_new_array_length isz x = Err e -> e <> SegV.
Proof. intros E. generalize (gnal_ok isz x). rewrite E. exact id. Qed.

Lemma gnal_nonneg isz x cap b : get_new_array_length isz x = Ok (cap, b) -> 0 <= cap.
Proof. intros E. generalize (gnal_ok isz x). rewrite E. exact id. Qed.

Lemma fill_items_safe rec isz : 0 <= isz ->
  forall l off m, 0 <= off -> off + isz * mlen l <= mlen m ->
  (forall x off' m', 0 <= off' -> off' + isz <= mlen m' -> safe off' (off' + isz) (rec off' x m') m') ->
  safe off (off + isz * mlen l) (fill_items rec off isz l m) m.
Proof.
  intros Hi. induction l as [|x l IH]; intros off m Ho Hb Hrec; cbn [fill_items].
  - apply safe_ok.
  - assert (mlen (x :: l) = 1 + mlen l) by (unfold mlen; cbn [length]; lia).
    pose proof (mlen_nonneg l).
    apply safe_bind_mem.
    + apply (safe_weaken off (off + isz)); [lia|nia|]. apply Hrec; nia.
    + intros m1 E. apply (safe_weaken (off + isz) (off + isz + isz * mlen l)); [lia|nia|]. apply IH.
      * lia.
      * rewrite E. nia.
      * exact Hrec.
Qed.

Lemma one_byte_size item : one_byte_item item = true -> lsize item = 1.
Proof.
  destruct item as [k s| |]; try discriminate. cbn. destruct k; try discriminate; apply Z.eqb_eq.
Qed.

Lemma flat_map_le_len isz src : 0 <= isz -> mlen (flat_map (le_bytes isz) src) = isz * mlen src.
Proof.
  intros H. induction src as [|c src IH]; cbn [flat_map]; [unfold mlen; cbn; lia|].
  rewrite mlen_app, IH, le_bytes_len by lia. unfold mlen. cbn [length]. lia.
Qed.

Lemma mlen_snoc (b : list Z) : mlen (b ++ [0]) = mlen b + 1.
Proof. rewrite mlen_app. reflexivity. Qed.

(* convert_array_from_object stays inside `cap` items, where cap is the declared length, or for
   `T[]` the length get_new_array_length computes from the same initialiser *)
Lemma fill_array_safe rec item len cap off v m :
  0 < lsize item -> 0 <= off ->
  (0 <= len -> cap = len) ->
  (len < 0 -> exists b, get_new_array_length (lsize item) v = Ok (cap, b)) ->
  off + lsize item * cap <= mlen m ->
  (forall x off' m', 0 <= off' -> off' + lsize item <= mlen m' ->
     safe off' (off' + lsize item) (rec off' x m') m') ->
  safe off (off + lsize item * cap) (fill_array rec item len off v m) m.
Proof.
  intros Hi Ho Hfix Hflex Hb Hrec. unfold fill_array.
  destruct v as [z|e4 e8|b|c|l|kv|same data alen|a|]; try (apply safe_err; discriminate).
  - destruct (one_byte_item item) eqn:H1; [|apply safe_err; discriminate].
    rewrite (one_byte_size _ H1) in *.
    eapply safe_bind; [apply (c15_array_ok _ len _ cap Hfix)|].
    { intros Hl. destruct (Hflex Hl) as (bb & [= <- _]). reflexivity. }
    intros src Hsrc. cbn beta in Hsrc. destruct (_ && _); [apply safe_err; discriminate|]. apply write_safe_in; lia.
  - destruct (wide_char_item item); [|apply safe_err; discriminate]. cbv zeta.
    eapply safe_bind; [apply (c15_array_ok _ len _ cap Hfix)|].
    { intros Hl. destruct (Hflex Hl) as (bb & [= <- _]). reflexivity. }
    intros us Hus. cbn beta in Hus. apply write_safe_in; try lia. rewrite flat_map_le_len by lia. nia.
  - destruct ((0 <=? len) && (len <? mlen l)) eqn:Hlong; [apply safe_err; discriminate|].
    pose proof (mlen_nonneg l).
    assert (Hl : mlen l <= cap).
    { destruct (Z.leb_spec 0 len) as [Hl|Hl].
      - rewrite (Hfix Hl) in *. destruct (Z.ltb_spec len (mlen l)); [discriminate|]. lia.
      - destruct (Hflex Hl) as (bb & [= <- _]). lia. }
    apply (safe_weaken off (off + lsize item * mlen l)); [lia|nia|].
    apply fill_items_safe; try lia; [nia|exact Hrec].
  - destruct same; [|apply safe_err; discriminate].
    destruct (Z.leb_spec 0 len) as [Hl|Hl].
    + apply write_safe_in; try lia. rewrite (Hfix Hl) in *.
      pose proof (firstn_mlen (len * lsize item) data ltac:(nia)). nia.
    + destruct (Hflex Hl) as (bb & E). discriminate E.
Qed.

(* wf_type's clause for one field of a struct of ct_size `size` and CT_WITH_VAR_ARRAY `var` *)
Definition field_wf (size : Z) (var : bool) (f : lfield) : Prop :=
  wf_type (lf_type f) = true /\ 0 <= lf_off f /\
  (if is_flex (lf_type f) then lf_off f <= size /\ var = true /\ lf_shift f < 0
   else lf_off f + lsize (lf_type f) <= size) /\
  (0 <= lf_shift f -> exists k s, lf_type f = LPrim k s /\
                       0 < lf_bits f /\ lf_shift f + lf_bits f <= 8 * s /\ s <= 8) /\
  (agg_var (lf_type f) = true -> var = true).

Lemma wf_fields size var (fs : list (ltype * Z * Z * Z * Z)) :
  (fix all (fs : list (ltype * Z * Z * Z * Z)) : bool :=
     match fs with
     | [] => true
     | (ft, off, shift, bits, flags) :: fs' =>
         wf_type ft && (0 <=? off) &&
         (if is_flex ft then (off <=? size) && var && (shift <? 0)
          else off + lsize ft <=? size) &&
         (if 0 <=? shift
          then match ft with
               | LPrim _ s => (0 <? bits) && (shift + bits <=? 8 * s) && (s <=? 8)
               | _ => false
               end
          else true) &&
         (if agg_var ft then var else true) &&
         all fs'
     end) fs = true ->
  Forall (field_wf size var) fs.
Proof.
  induction fs as [|[[[[ft off] shift] bits] flags] fs IH]; intros H; [constructor|].
  rewrite !andb_true_iff in H. destruct H as (((((H1 & H2) & H3) & H4) & H5) & H6).
  constructor; [|exact (IH H6)].
  unfold field_wf, lf_type, lf_off, lf_shift, lf_bits; cbn [fst snd].
  split; [exact H1|]. split; [lia|]. split; [|split].
  - destruct (is_flex ft); [|lia]. rewrite !andb_true_iff in H3. destruct H3 as ((A & B) & C).
    repeat split; [lia|exact B|lia].
  - intros Hs. destruct (Z.leb_spec 0 shift); [|lia]. destruct ft as [k s| |]; try discriminate.
    exists k, s. split; [reflexivity|lia].
  - intros Hv. rewrite Hv in H5. exact H5.
Qed.

Lemma wf_agg size var fs :
  wf_type (LAgg size var fs) = true -> 0 <= size /\ Forall (field_wf size var) fs.
Proof. cbn [wf_type]. rewrite andb_true_iff. intros (H0 & H). split; [lia|exact (wf_fields _ _ _ H)]. Qed.

Lemma wf_arr item len :
  wf_type (LArr item len) = true -> wf_type item = true /\ 0 < lsize item /\ -1 <= len.
Proof. cbn [wf_type]. rewrite !andb_true_iff. intros ((A & B) & C). repeat split; [exact A|lia|lia]. Qed.

Lemma nvi_fields (fs : list (ltype * Z * Z * Z * Z)) :
  (fix all (fs : list (ltype * Z * Z * Z * Z)) : bool :=
     match fs with
     | [] => true
     | (ft, _, _, _, _) :: fs' => no_var_items ft && all fs'
     end) fs = true ->
  Forall (fun f => no_var_items (lf_type f) = true) fs.
Proof.
  induction fs as [|[[[[ft off] shift] bits] flags] fs IH]; intros H; [constructor|].
  rewrite andb_true_iff in H. destruct H. constructor; [assumption|apply IH; assumption].
Qed.

Lemma wf_nonflex_size t : wf_type t = true -> is_flex t = false -> 0 <= lsize t.
Proof.
  destruct t as [k s|item len|size var fs]; cbn [is_flex lsize]; intros H F.
  - cbn in H. lia.
  - rewrite F. destruct (wf_arr _ _ H) as (_ & A & _). apply Z.ltb_ge in F. nia.
  - apply (wf_agg _ _ _ H).
Qed.

(* the field a dict key names: the expression struct_from_dict evaluates *)
Definition lookup_field (fs : list lfield) (k : Z) : option lfield :=
  if k <? 0 then None else nth_error fs (Z.to_nat k).

Lemma lookup_field_In fs k f : lookup_field fs k = Some f -> In f fs.
Proof. unfold lookup_field. destruct (k <? 0); [discriminate|apply nth_error_In]. Qed.

Lemma dict_inv {St} (I : St -> Prop) (F : lfield -> pyval -> St -> res St) fs kv :
  (forall k x f s, In (k, x) kv -> lookup_field fs k = Some f -> I s -> result_ok I (F f x s)) ->
  forall s, I s -> result_ok I (struct_from_dict F fs kv s).
Proof.
  induction kv as [|[k x] kv IH]; intros HF s Hs; cbn [struct_from_dict]; [exact Hs|].
  fold (lookup_field fs k). destruct (lookup_field fs k) as [f|] eqn:El; [|discriminate].
  eapply result_bind; [apply (HF k x f); auto; left; reflexivity|].
  apply IH. intros k2 x2 f2 s2 Hin. apply HF. right. exact Hin.
Qed.

Lemma dict_noseg (G : lfield -> pyval -> Z -> res Z) fs :
  (forall f x o, G f x o <> Err SegV) ->
  forall kv o, struct_from_dict G fs kv o <> Err SegV.
Proof.
  intros HG kv o. apply (result_ok_noseg (fun _ => True)), dict_inv; [|exact I].
  intros k x f s _ _ _. pose proof (HG f x s). destruct (G f x s); cbn; [exact I|congruence].
Qed.

Lemma dict_keeps (U : Z -> Prop) (F : lfield -> pyval -> mem -> res mem) fs kv m0 :
  (forall k x f m, In (k, x) kv -> lookup_field fs k = Some f -> mlen m = mlen m0 ->
     exists lo hi, safe lo hi (F f x m) m /\ forall i, U i -> i < lo \/ hi <= i) ->
  result_ok (keeps U m0) (struct_from_dict F fs kv m0).
Proof.
  intros HF. apply dict_inv; [|apply keeps_refl]. intros k x f m Hin El Hk.
  destruct (HF k x f m Hin El (proj1 Hk)) as (lo & hi & Hs & HU).
  apply safe_keeps in Hs. revert Hs. apply result_weaken. intros m' Hm'.
  apply (keeps_trans _ _ _ _ Hk). revert Hm'. apply keeps_weaken. exact HU.
Qed.

Lemma skip_incl fs : incl (skip_ignored fs) fs.
Proof.
  induction fs as [|f fs IH]; cbn [skip_ignored]; [apply incl_refl|].
  destruct (ignore_in_ctor f); [apply incl_tl; exact IH|apply incl_refl].
Qed.

Section Positional.
  Context {St : Type}.
  Variable F : lfield -> pyval -> St -> res St.
  Variable fs0 : list lfield.

  (* dict keys are positions in the whole field list fs0, so an induction over a suffix fs of it carries
     the position b at which fs starts *)
  Definition suffix_at (b : Z) (fs : list lfield) : Prop :=
    0 <= b /\ forall j, nth_error fs0 (Z.to_nat b + j) = nth_error fs j.

  Lemma suffix_tail b f r : suffix_at b (f :: r) -> suffix_at (b + 1) r.
  Proof using F fs0.
    intros (Hb & H). split; [lia|]. intros j. replace (Z.to_nat (b + 1) + j)%nat with (Z.to_nat b + S j)%nat by lia.
    rewrite H. reflexivity.
  Qed.

  Lemma suffix_head b f r : suffix_at b (f :: r) -> (if b <? 0 then None else nth_error fs0 (Z.to_nat b)) = Some f.
  Proof using F fs0.
    intros (Hb & H). destruct (Z.ltb_spec b 0); [lia|]. specialize (H 0%nat). rewrite Nat.add_0_r in H. exact H.
  Qed.

  (* a positional initialiser is the keyword initialiser over the leading constructor fields; items
     beyond them are refused once the others have been accepted *)
  Lemma list_as_dict l : forall fs b s, suffix_at b fs ->
    struct_from_list F fs l s =
    bind (struct_from_dict F fs0 (combine (ctor_keys b fs) l) s) (fun s' =>
    if (length l <=? length (ctor_keys b fs))%nat then Ok s' else Err ValueError).
  Proof.
    induction l as [|x l IH]; intros fs b s Hsuf.
    - destruct (ctor_keys b fs); reflexivity.
    - revert b Hsuf. induction fs as [|f r IHfs]; intros b Hsuf; [reflexivity|].
      cbn [struct_from_list skip_ignored ctor_keys]. destruct (ignore_in_ctor f).
      + exact (IHfs (b + 1) (suffix_tail _ _ _ Hsuf)).
      + cbn [combine struct_from_dict length Nat.leb]. rewrite (suffix_head _ _ _ Hsuf).
        destruct (F f x s) as [s1|e]; cbn [bind]; [|reflexivity].
        apply IH. eapply suffix_tail. exact Hsuf.
  Qed.
End Positional.

Lemma suffix_at_0 fs : suffix_at fs 0 fs.
Proof. split; [lia|]. intros j. reflexivity. Qed.

Lemma list_noseg (G : lfield -> pyval -> Z -> res Z) :
  (forall f x o, G f x o <> Err SegV) ->
  forall l fs o, struct_from_list G fs l o <> Err SegV.
Proof.
  intros HG l fs o. rewrite (list_as_dict G fs l fs 0 o (suffix_at_0 fs)).
  pose proof (dict_noseg G fs HG (combine (ctor_keys 0 fs) l) o) as H.
  destruct (struct_from_dict _ _ _ _); cbn [bind]; [destruct (_ <=? _)%nat; discriminate|exact H].
Qed.

Definition positional_end {St} (fs : list lfield) (l : list pyval) (s : St) : res St :=
  if (length l <=? length (ctor_keys 0 fs))%nat then Ok s else Err ValueError.

Lemma from_list_as_dict {St} (F : lfield -> pyval -> St -> res St) fs l s :
  struct_from_object F fs (VList l) s =
  bind (struct_from_object F fs (VDict (combine (ctor_keys 0 fs) l)) s) (positional_end fs l).
Proof. apply list_as_dict, suffix_at_0. Qed.

Lemma from_list_is_dict {St} (F : lfield -> pyval -> St -> res St) fs l s :
  (length l <= length (ctor_keys 0 fs))%nat ->
  struct_from_object F fs (VList l) s = struct_from_object F fs (VDict (combine (ctor_keys 0 fs) l)) s.
Proof.
  intros H. rewrite from_list_as_dict. unfold positional_end. rewrite (proj2 (Nat.leb_le _ _) H).
  destruct (struct_from_object _ _ _ _); reflexivity.
Qed.

Lemma from_list_too_long {St} (F : lfield -> pyval -> St -> res St) fs l s r :
  (length (ctor_keys 0 fs) < length l)%nat -> struct_from_object F fs (VList l) s <> Ok r.
Proof.
  intros H. rewrite from_list_as_dict. unfold positional_end. rewrite (proj2 (Nat.leb_gt _ _) H).
  destruct (struct_from_object _ _ _ _); discriminate.
Qed.

Lemma from_object_inv {St} (I : St -> Prop) (F : lfield -> pyval -> St -> res St) fs v :
  (forall f x s, In f fs -> I s -> result_ok I (F f x s)) ->
  forall s, I s -> result_ok I (struct_from_object F fs v s).
Proof.
  intros HF s Hs.
  assert (Hd : forall kv, result_ok I (struct_from_dict F fs kv s)).
  { intros kv. apply dict_inv; [|exact Hs]. intros k x f s1 _ El. apply HF. exact (lookup_field_In _ _ _ El). }
  destruct v; try discriminate; [|apply Hd].
  rewrite from_list_as_dict. eapply result_bind; [apply Hd|].
  intros s1 H1. unfold positional_end. destruct (_ <=? _)%nat; [exact H1|discriminate].
Qed.

(* the bytes a value of type t takes, t not the open array `T[]`: ct_size, or for a var-sized struct given
   anything but a cdata what the sizing pass makes of its initialiser *)
Definition need (fuel : nat) (t : ltype) (v : pyval) : res Z :=
  match t with
  | LAgg size true fs => if is_cdata v then Ok size else size_struct fuel fs v size
  | _ => Ok (lsize t)
  end.

Lemma need_eq fuel t v :
  need fuel t v = if agg_var t && negb (is_cdata v)
                  then size_struct fuel (agg_fields t) v (lsize t) else Ok (lsize t).
Proof. destruct t as [| |size [] fs]; try reflexivity. cbn. destruct (is_cdata v); reflexivity. Qed.

Lemma need_nonvar fuel t v : agg_var t = false -> need fuel t v = Ok (lsize t).
Proof. intros H. rewrite need_eq, H. reflexivity. Qed.

(* `need`, extended to the open array `T[]`, where `need` has only the negative ct_size to give: as many
   items as get_new_array_length computes *)
Definition room (fuel : nat) (t : ltype) (v : pyval) : res Z :=
  if is_flex t
  then bind (get_new_array_length (lsize (item_of t)) v) (fun lb => Ok (lsize (item_of t) * fst lb))
  else need fuel t v.

Lemma room_need fuel t v : 0 <= lsize t -> room fuel t v = need fuel t v.
Proof.
  unfold room. destruct t as [|item len|]; try reflexivity. cbn [is_flex lsize].
  destruct (len <? 0); [lia|reflexivity].
Qed.

Lemma add_varsize_ok off isz len o :
  result_ok (fun o' => o <= o' /\ off + isz * len <= o') (add_varsize_length off isz len o).
Proof. unfold add_varsize_length. destruct (SSIZE_MAX <? _); cbn; [discriminate|lia]. Qed.

Lemma add_varsize_noseg off isz len o : add_varsize_length off isz len o <> Err SegV.
Proof. exact (result_ok_noseg _ _ (add_varsize_ok off isz len o)). Qed.

Lemma size_field_mono rec fld x o o2 : size_field rec fld x o = Ok o2 -> o <= o2.
Proof.
  assert (A : forall off isz len, add_varsize_length off isz len o = Ok o2 -> o <= o2).
  { intros off isz len E. generalize (add_varsize_ok off isz len o). rewrite E. intros H. apply H. }
  unfold size_field. destruct (is_flex _).
  - destruct (get_new_array_length _ x); cbn [bind]; [apply A|discriminate].
  - destruct (_ && _); [|intros [= <-]; lia]. destruct (rec _ x _); cbn [bind]; [apply A|discriminate].
Qed.

Lemma size_field_ok rec fld x o :
  (forall fs v opt, result_ok (Z.le opt) (rec fs v opt)) -> result_ok (Z.le o) (size_field rec fld x o).
Proof.
  intros Hrec. unfold size_field. destruct (is_flex _).
  - eapply result_bind; [apply gnal_ok|]. intros lb _.
    eapply result_weaken; [|apply add_varsize_ok]. cbn. lia.
  - destruct (_ && _); [|cbn; lia]. eapply result_bind; [apply Hrec|]. intros sub _.
    eapply result_weaken; [|apply add_varsize_ok]. cbn. lia.
Qed.

Lemma size_struct_ok fuel : forall fs v opt, result_ok (Z.le opt) (size_struct fuel fs v opt).
Proof.
  induction fuel as [|f IH]; intros fs v opt; cbn [size_struct]; [discriminate|].
  apply from_object_inv; [|lia]. intros fld x o _ Ho.
  eapply result_weaken; [|apply size_field_ok; exact IH]. cbn. lia.
Qed.

Lemma size_struct_lower fuel fs v opt n : size_struct fuel fs v opt = Ok n -> opt <= n.
Proof. intros E. generalize (size_struct_ok fuel fs v opt). rewrite E. exact id. Qed.

Lemma size_struct_noseg fuel : forall fs v opt, size_struct fuel fs v opt <> Err SegV.
Proof. intros fs v opt. exact (result_ok_noseg _ _ (size_struct_ok fuel fs v opt)). Qed.

(* what a field's initialiser made of the size: it left room for the field's own filling *)
Lemma size_field_room f size var fld x o o2 :
  field_wf size var fld -> size <= o -> size_field (size_struct f) fld x o = Ok o2 ->
  exists r, room f (lf_type fld) x = Ok r /\ lf_off fld + r <= o2.
Proof.
  intros (_ & _ & Hpl & _) Hlo. unfold size_field, room. destruct (is_flex (lf_type fld)).
  - destruct (get_new_array_length _ x) as [lb|]; cbn [bind]; [|discriminate]. intros E.
    pose proof (add_varsize_ok (lf_off fld) (lsize (item_of (lf_type fld))) (fst lb) o) as A.
    rewrite E in A. eexists. split; [reflexivity|apply A].
  - rewrite need_eq. destruct (agg_var _ && negb _).
    + destruct (size_struct _ _ x _) as [sub|]; cbn [bind]; [|discriminate]. intros E.
      pose proof (add_varsize_ok (lf_off fld) 1 sub o) as A. rewrite E in A. cbn [result_ok] in A.
      exists sub. split; [reflexivity|lia].
    + intros [= <-]. eexists. split; [reflexivity|lia].
Qed.

Lemma fixed_field_room f size fld x :
  field_wf size false fld ->
  room f (lf_type fld) x = Ok (lsize (lf_type fld)) /\ lf_off fld + lsize (lf_type fld) <= size.
Proof.
  intros (_ & _ & Hpl & _ & Hv). unfold room.
  destruct (is_flex (lf_type fld)); [destruct Hpl as (_ & [=] & _)|].
  rewrite need_nonvar; [auto|]. destruct (agg_var (lf_type fld)); [discriminate (Hv eq_refl)|reflexivity].
Qed.

Lemma dict_sized (G : lfield -> pyval -> Z -> res Z) fs lob :
  (forall f x o o', In f fs -> lob <= o -> G f x o = Ok o' -> o <= o') ->
  forall kv o n, lob <= o -> struct_from_dict G fs kv o = Ok n ->
  o <= n /\ forall k x f, In (k, x) kv -> lookup_field fs k = Some f ->
            exists o1 o2, o <= o1 /\ G f x o1 = Ok o2 /\ o2 <= n.
Proof.
  intros HG. induction kv as [|[k x] kv IH]; intros o n Hlo; cbn [struct_from_dict].
  - intros [= <-]. split; [lia|]. intros k x f [].
  - fold (lookup_field fs k). destruct (lookup_field fs k) as [f|] eqn:El; [|discriminate].
    destruct (G f x o) as [o'|] eqn:Eg; cbn [bind]; [|discriminate].
    intros Hs. pose proof (HG _ _ _ _ (lookup_field_In _ _ _ El) Hlo Eg) as Hle.
    destruct (IH o' n ltac:(lia) Hs) as (Hn & Hall). split; [lia|].
    intros k2 x2 f2 [[= <- <-]|Hin] El2.
    + rewrite El in El2. injection El2 as <-. exists o, o'. repeat split; [lia|exact Eg|exact Hn].
    + destruct (Hall _ _ _ Hin El2) as (o1 & o2 & A & B & C). exists o1, o2. repeat split; [lia|exact B|exact C].
Qed.

Lemma dict_mono (G : lfield -> pyval -> Z -> res Z) fs :
  (forall f x o o2, G f x o = Ok o2 -> o <= o2) ->
  forall kv o n, struct_from_dict G fs kv o = Ok n -> o <= n.
Proof. intros HG kv o n E. refine (proj1 (dict_sized G fs o _ kv o n (Z.le_refl o) E)). intros f x o1 o2 _ _. apply HG. Qed.

Lemma list_mono (G : lfield -> pyval -> Z -> res Z) :
  (forall f x o o2, G f x o = Ok o2 -> o <= o2) ->
  forall l fs o n, struct_from_list G fs l o = Ok n -> o <= n.
Proof.
  intros HG l fs o n. rewrite (list_as_dict G fs l fs 0 o (suffix_at_0 fs)).
  destruct (struct_from_dict _ _ _ _) as [n'|] eqn:E; cbn [bind]; [|discriminate].
  destruct (_ <=? _)%nat; [|discriminate]. intros [= <-]. exact (dict_mono G fs HG _ _ _ E).
Qed.

Definition fill_in_room (fuel : nat) : Prop := forall t off v m n,
  wf_type t = true -> 0 <= off ->
  room fuel t v = Ok n -> off + n <= mlen m -> safe off (off + n) (fill fuel t off v m) m.

(* an array item behind the guard of convert_array_from_object: the sizing pass of the item's own
   initialiser must not ask for more than ct_size, which is exactly what the item has *)
Lemma guarded_item_safe f (IH : fill_in_room f) item x off m :
  wf_type item = true -> 0 < lsize item -> 0 <= off -> off + lsize item <= mlen m ->
  safe off (off + lsize item) (bind (item_guard f item x) (fun _ => fill f item off x m)) m.
Proof.
  intros Hwf Hsz Ho Hb. pose proof (fun n => IH item off x m n Hwf Ho) as Hfill.
  rewrite room_need, need_eq in Hfill by lia. unfold item_guard.
  (* this is where the order fact is used: the flag the guard reads is the real one *)
  change flag_visible with true. cbn [andb].
  destruct (agg_var item && negb (is_cdata x)); cbn [bind]; [|apply Hfill; [reflexivity|lia]].
  pose proof (size_struct_ok f (agg_fields item) x (lsize item)) as Hn.
  destruct (size_struct f _ x _) as [n|e]; cbn [bind result_ok] in *; [|apply safe_err; exact Hn].
  destruct (Z.ltb_spec (lsize item) n); cbn [bind]; [apply safe_err; discriminate|].
  apply (safe_weaken off (off + n)); [lia|lia|]. apply Hfill; [reflexivity|lia].
Qed.

Lemma fill_field_safe f (IH : fill_in_room f) size var off m fld x r :
  field_wf size var fld -> 0 <= off ->
  room f (lf_type fld) x = Ok r -> off + lf_off fld + r <= mlen m ->
  safe (off + lf_off fld) (off + lf_off fld + r) (fill_field (fill f) off fld x m) m.
Proof.
  intros (Hwf & Hoff & Hpl & Hbf & _) Ho Hr Hb.
  assert (Hrec : safe (off + lf_off fld) (off + lf_off fld + r)
                      (fill f (lf_type fld) (off + lf_off fld) x m) m) by (apply IH; auto; lia).
  unfold fill_field. unfold room in Hr. destruct (is_flex (lf_type fld)).
  - destruct Hpl as (_ & _ & Hsh).
    destruct (get_new_array_length _ x) as [[cap []]|]; cbn [bind snd] in *; [apply safe_ok| |discriminate].
    destruct (Z.leb_spec 0 (lf_shift fld)); [lia|exact Hrec].
  - destruct (Z.leb_spec 0 (lf_shift fld)) as [Hs|Hs]; [|exact Hrec].
    destruct (Hbf Hs) as (k & s & Et & Hb0 & Hfit & Hs8). rewrite Et in *.
    injection Hr as <-. cbn in Hwf.
    destruct (Z.leb_spec 64 (lf_bits fld)); [exact Hrec|].
    eapply safe_bind; [apply conv_bitfield_ok; lia|].
    intros bs E. cbn beta in E. apply write_safe_in; lia.
Qed.

Lemma agg_dict_safe f (IH : fill_in_room f) size var fs off kv m n :
  Forall (field_wf size var) fs -> 0 <= off ->
  need (S f) (LAgg size var fs) (VDict kv) = Ok n -> off + n <= mlen m ->
  safe off (off + n) (struct_from_dict (fill_field (fill f) off) fs kv m) m.
Proof.
  intros Hfs Ho Hneed Hb. rewrite Forall_forall in Hfs.
  assert (Hroom : forall k x fld, In (k, x) kv -> lookup_field fs k = Some fld ->
            exists r, room f (lf_type fld) x = Ok r /\ lf_off fld + r <= n).
  { intros k x fld Hin El. pose proof (Hfs fld (lookup_field_In _ _ _ El)) as Hw. destruct var.
    - cbn in Hneed.
      apply (dict_sized _ _ size) in Hneed; [|intros fld' x' o o' _ _; apply size_field_mono|lia].
      destruct Hneed as (_ & Hall). destruct (Hall k x fld Hin El) as (o1 & o2 & Ho1 & E & Ho2).
      destruct (size_field_room f size true fld x o1 o2 Hw Ho1 E) as (r & Er & Hr).
      exists r. split; [exact Er|lia].
    - injection Hneed as <-. eexists. apply fixed_field_room. exact Hw. }
  apply safe_keeps, dict_keeps. intros k x fld m' Hin El Hm.
  destruct (Hroom k x fld Hin El) as (r & Er & Hr).
  pose proof (Hfs fld (lookup_field_In _ _ _ El)) as Hw.
  exists (off + lf_off fld), (off + lf_off fld + r).
  split; [apply (fill_field_safe f IH size var); auto; lia|]. destruct Hw as (_ & ? & _). lia.
Qed.

Lemma need_list_dict fuel size var fs l n :
  need fuel (LAgg size var fs) (VList l) = Ok n ->
  need fuel (LAgg size var fs) (VDict (combine (ctor_keys 0 fs) l)) = Ok n.
Proof.
  destruct var; [|exact id]. destruct fuel as [|f]; [discriminate|]. cbn [need is_cdata size_struct].
  rewrite from_list_as_dict. destruct (struct_from_object _ _ _ _) as [n'|]; [|discriminate].
  unfold positional_end. cbn [bind]. destruct (_ <=? _)%nat; [exact id|discriminate].
Qed.

(* the sizing pass dominates the filling pass, at every offset and nesting depth.  fill_in_room is this
   statement at one fuel: the lemmas above take it, at the fuel below, as their hypothesis IH *)
Theorem fill_within_room fuel : fill_in_room fuel.
Proof.
  induction fuel as [|f IH]; intros t off v m n Hwf Ho Hroom Hb; [apply safe_err; discriminate|].
  destruct t as [k s|item len|size var fs]; cbn [fill].
  - injection Hroom as <-. cbn in Hwf.
    eapply safe_bind; [apply conv_prim_ok; lia|]. intros bs E. cbn beta in E. apply write_safe_in; lia.
  - destruct (wf_arr _ _ Hwf) as (Hwi & Hisz & Hlen).
    assert (exists cap, n = lsize item * cap /\ (0 <= len -> cap = len) /\
              (len < 0 -> exists b, get_new_array_length (lsize item) v = Ok (cap, b))) as (cap & -> & Hfix & Hflex).
    { unfold room in Hroom. cbn [is_flex item_of need lsize] in Hroom. destruct (Z.ltb_spec len 0).
      - destruct (get_new_array_length _ v) as [[cap b]|]; [|discriminate]. injection Hroom as <-.
        exists cap. repeat split; [lia|eauto].
      - injection Hroom as <-. exists len. repeat split; lia. }
    apply fill_array_safe; auto; try lia.
    intros x off' m' Ho' Hb'. apply guarded_item_safe; auto.
  - destruct (wf_agg _ _ _ Hwf) as (Hs0 & Hfs). unfold room in Hroom. cbn [is_flex] in Hroom.
    destruct v as [z|e4 e8|b|c|l|kv|same data alen|a|];
      try (cbn [struct_from_object]; apply safe_err; discriminate).
    + rewrite from_list_as_dict. apply need_list_dict in Hroom. apply safe_bind_mem.
      * apply (agg_dict_safe f IH size var); assumption.
      * intros m1 _. unfold positional_end. destruct (_ <=? _)%nat; [apply safe_ok|apply safe_err; discriminate].
    + apply (agg_dict_safe f IH size var); assumption.
    + (* same-type struct cdata: memcpy of ct_size bytes *)
      destruct same; [|cbn [struct_from_object]; apply safe_err; discriminate].
      assert (n = size) as -> by (destruct var; injection Hroom; auto).
      destruct (Z.leb_spec 0 size); [|lia].
      pose proof (firstn_mlen size data ltac:(lia)). apply write_safe_in; lia.
Qed.

Lemma mlen_zeros n : mlen (zeros n) = Z.max 0 n.
Proof. unfold mlen, zeros. rewrite repeat_length. lia. Qed.

Lemma alloc_size_ok fuel T init :
  wf_type (new_target T) = true ->
  result_ok (fun n => 0 <= n /\
               (new_init T init <> VNone ->
                exists r, room fuel (new_target T) (new_init T init) = Ok r /\ r <= n))
            (alloc_size fuel T init).
Proof.
  intros Hwf. destruct T as [t|item len]; cbn [new_target alloc_size] in *.
  - destruct (Z.ltb_spec (lsize t) 0) as [|Hsz]; [discriminate|].
    assert (new_init (NewPtr t) init = init) as -> by (destruct init; reflexivity).
    rewrite room_need, need_eq by exact Hsz.
    set (datasize := match t with LPrim KChar _ => lsize t * 2 | _ => lsize t end).
    assert (Hds : lsize t <= datasize) by (subst datasize; destruct t as [[] ?| |]; lia).
    destruct (agg_var t) eqn:Ev; cbn [andb].
    + destruct t as [| |size var fs]; try discriminate. cbn [agg_fields lsize] in *. subst datasize.
      destruct (match init with VNone => true | _ => false end) eqn:Hnone; cbn [negb].
      * cbn [result_ok]. split; [lia|]. intros H. destruct init; try discriminate Hnone. contradiction.
      * pose proof (size_struct_ok fuel fs init size) as Hn.
        destruct (size_struct fuel fs init size) as [n|e] eqn:Es; cbn [result_ok] in *; [|exact Hn].
        split; [lia|]. intros _. exists n. split; [|lia].
        destruct (is_cdata init) eqn:Ec; [|reflexivity].
        destruct init; try discriminate Ec. destruct fuel; discriminate Es.
    + cbn [result_ok]. split; [lia|]. intros _. exists (lsize t). split; [reflexivity|exact Hds].
  - destruct (wf_arr _ _ Hwf) as (Hwi & Hisz & Hlen). unfold room. cbn [is_flex item_of new_init].
    destruct (Z.ltb_spec len 0) as [Hneg|Hpos].
    + pose proof (gnal_ok (lsize item) init) as Hcap.
      destruct (get_new_array_length (lsize item) init) as [[cap b]|e] eqn:Eg;
        cbn [bind fst result_ok] in *; [|exact Hcap].
      destruct (SSIZE_MAX <? cap * lsize item); [discriminate|]. cbn [result_ok]. split; [nia|].
      intros Hnn. exists (lsize item * cap). split; [|lia].
      replace (match init with VInt _ => VNone | _ => init end) with init
        by (destruct init; try reflexivity; contradiction).
      rewrite Eg. reflexivity.
    + cbn [result_ok]. split; [nia|]. intros _.
      replace (match init with VInt _ => init | _ => init end) with init by (destruct init; reflexivity).
      cbn [need lsize]. destruct (Z.ltb_spec len 0); [lia|]. eexists. split; [reflexivity|lia].
Qed.

Lemma alloc_fill_safe fuel T init n :
  wf_type (new_target T) = true -> alloc_size fuel T init = Ok n ->
  0 <= n /\
  (new_init T init <> VNone ->
   safe 0 n (fill fuel (new_target T) 0 (new_init T init) (zeros n)) (zeros n)).
Proof.
  intros Hwf Ha. pose proof (alloc_size_ok fuel T init Hwf) as H. rewrite Ha in H.
  destruct H as (Hn & Hr). split; [exact Hn|]. intros Hi. destruct (Hr Hi) as (r & Er & Hrn).
  apply (safe_weaken 0 (0 + r)); [lia|lia|].
  apply fill_within_room; auto; [lia|rewrite mlen_zeros; lia].
Qed.

(* ffi.new as a whole: on the zero block of the size the sizing pass computed, it does not leave the
   block and the block keeps its size *)
Theorem new_safe fuel T init n :
  wf_type (new_target T) = true -> alloc_size fuel T init = Ok n ->
  0 <= n /\ safe 0 n (new_bytes fuel T init) (zeros n).
Proof.
  intros Hwf Ha. destruct (alloc_fill_safe fuel T init n Hwf Ha) as (Hn & Hfill). split; [exact Hn|].
  unfold new_bytes. rewrite Ha. cbn [bind]. destruct (MAX_ALLOC <? n); [apply safe_err; discriminate|].
  destruct (new_init T init); try (apply Hfill; discriminate). apply safe_ok.
Qed.

Theorem sizing_dominates fuel T init :
  wf_type (new_target T) = true -> new_bytes fuel T init <> Err SegV.
Proof.
  intros Hwf. pose proof (alloc_size_ok fuel T init Hwf) as Ha. pose proof (new_safe fuel T init) as Hs.
  unfold new_bytes in *. destruct (alloc_size fuel T init) as [n|e]; cbn [bind result_ok] in *; [|congruence].
  apply (Hs n Hwf eq_refl).
Qed.

Theorem new_ptr_safe fuel t init : wf_type t = true ->
  new_bytes fuel (NewPtr t) init <> Err SegV.
Proof. exact (sizing_dominates fuel (NewPtr t) init). Qed.

Theorem new_arr_safe fuel item len init :
  wf_type (LArr item len) = true ->
  new_bytes fuel (NewArr item len) init <> Err SegV.
Proof. exact (sizing_dominates fuel (NewArr item len) init). Qed.

Lemma byte_zeros n i : byte (zeros n) i = 0.
Proof.
  unfold byte, zeros. destruct (Nat.lt_ge_cases (Z.to_nat i) (Z.to_nat n)).
  - apply nth_repeat.
  - apply nth_overflow. rewrite repeat_length. lia.
Qed.

Theorem new_dict_unnamed_zero fuel size fs kv m :
  wf_type (LAgg size false fs) = true ->
  new_bytes fuel (NewPtr (LAgg size false fs)) (VDict kv) = Ok m ->
  mlen m = size /\
  forall i, 0 <= i ->
    (forall k x f, In (k, x) kv -> lookup_field fs k = Some f ->
       i < lf_off f \/ lf_off f + lsize (lf_type f) <= i) ->
    byte m i = 0.
Proof.
  intros Hwf. destruct (wf_agg _ _ _ Hwf) as (Hs0 & Hfs). rewrite Forall_forall in Hfs.
  rewrite new_is_assign. cbn [alloc_size lsize agg_var andb new_init].
  destruct (Z.ltb_spec size 0); [lia|]. cbn [bind]. destruct (MAX_ALLOC <? size); [discriminate|].
  unfold assign_bytes. destruct fuel as [|f]; [discriminate|]. cbn [new_target fill struct_from_object].
  intros E.
  pose proof (dict_keeps (fun i => forall k x f, In (k, x) kv -> lookup_field fs k = Some f ->
                            i < lf_off f \/ lf_off f + lsize (lf_type f) <= i)
                         (fill_field (fill f) 0) fs kv (zeros size)) as Hk.
  rewrite E in Hk. destruct Hk as (Hl & Hb).
  - intros k x fld m' Hin El Hm'. pose proof (Hfs fld (lookup_field_In _ _ _ El)) as Hw.
    destruct (fixed_field_room f size fld x Hw) as (Er & Hr).
    exists (0 + lf_off fld), (0 + lf_off fld + lsize (lf_type fld)). split.
    + apply (fill_field_safe f (fill_within_room f) size false); auto; [lia|].
      rewrite Hm', mlen_zeros. lia.
    + intros i Hi. specialize (Hi k x fld Hin El). lia.
  - rewrite mlen_zeros in Hl. split; [lia|]. intros i Hi Hout. rewrite Hb by assumption. apply byte_zeros.
Qed.

Lemma size_struct_list_dict fuel fs l opt :
  (length l <= length (ctor_keys 0 fs))%nat ->
  size_struct fuel fs (VList l) opt = size_struct fuel fs (VDict (combine (ctor_keys 0 fs) l)) opt.
Proof. intros H. destruct fuel as [|f]; [reflexivity|]. apply from_list_is_dict, H. Qed.

Lemma fill_list_dict fuel size var fs off l m :
  (length l <= length (ctor_keys 0 fs))%nat ->
  fill fuel (LAgg size var fs) off (VList l) m =
  fill fuel (LAgg size var fs) off (VDict (combine (ctor_keys 0 fs) l)) m.
Proof. intros H. destruct fuel as [|f]; [reflexivity|]. apply from_list_is_dict, H. Qed.

(* a union: only its first member is a constructor field *)
Lemma union_keys f0 rest b :
  ignore_in_ctor f0 = false -> Forall (fun f => ignore_in_ctor f = true) rest ->
  ctor_keys b (f0 :: rest) = [b].
Proof.
  intros H0 Hr. cbn [ctor_keys]. rewrite H0. f_equal.
  revert b. induction Hr as [|f r Hf Hr IH]; intros b; [reflexivity|]. cbn [ctor_keys]. rewrite Hf. apply IH.
Qed.

Theorem new_block_len fuel T init n m :
  wf_type (new_target T) = true -> alloc_size fuel T init = Ok n ->
  new_bytes fuel T init = Ok m -> mlen m = n.
Proof.
  intros Hwf Ha Hn. destruct (new_safe fuel T init n Hwf Ha) as (Hnn & _ & Hs).
  rewrite (proj1 (Hs m Hn)), mlen_zeros. lia.
Qed.

Theorem sizeof_is_alloc_size fuel T init m slot :
  wf_type (new_target T) = true ->
  (forall k s, T <> NewPtr (LPrim k s)) ->        (* p[0] of a primitive pointer is not a cdata *)
  new_object fuel T init = Ok (m, slot) ->
  alloc_size fuel T init = Ok (sizeof_cdata T slot) /\ mlen m = sizeof_cdata T slot.
Proof.
  intros Hwf Hnp. unfold new_object.
  destruct (alloc_size fuel T init) as [n|e] eqn:Ha; cbn [bind]; [|discriminate].
  destruct (new_bytes fuel T init) as [m1|e] eqn:Hn; cbn [bind]; [|discriminate].
  intros [= -> <-].
  pose proof (new_block_len _ _ _ _ _ Hwf Ha Hn) as Hl.
  destruct (new_safe fuel T init n Hwf Ha) as (Hnn & _).
  assert (Hs : sizeof_cdata T (own_length T n) = n); [|rewrite Hs; auto].
  destruct T as [t|item len]; cbn [sizeof_cdata own_length].
  - destruct (agg_var t) eqn:Ev.
    + destruct (Z.ltb_spec n 0); [lia|reflexivity].
    + cbn [alloc_size] in Ha. destruct (lsize t <? 0); [discriminate|]. rewrite Ev in Ha. cbn [andb] in Ha.
      destruct t as [k s| |]; [exfalso; eapply Hnp; reflexivity| |]; inversion Ha; reflexivity.
  - destruct (wf_arr _ _ Hwf) as (_ & Hisz & _). cbn [alloc_size] in Ha. destruct (Z.ltb_spec len 0).
    + destruct (get_new_array_length (lsize item) init) as [[cap b]|]; cbn [bind fst] in Ha; [|discriminate].
      destruct (SSIZE_MAX <? cap * lsize item); [discriminate|]. inversion Ha; subst n.
      rewrite Z.div_mul by lia. reflexivity.
    + inversion Ha. reflexivity.
Qed.

Theorem array_sequence_leading fuel item len l m :
  wf_type (LArr item len) = true -> 0 <= len ->
  new_bytes fuel (NewArr item len) (VList l) = Ok m ->
  mlen l <= len /\ mlen m = len * lsize item /\
  forall i, mlen l * lsize item <= i -> byte m i = 0.
Proof.
  intros Hwf Hlen Hn.
  assert (Ha : alloc_size fuel (NewArr item len) (VList l) = Ok (len * lsize item))
    by (cbn [alloc_size]; destruct (Z.ltb_spec len 0); [lia|reflexivity]).
  pose proof (new_block_len fuel (NewArr item len) _ _ _ Hwf Ha Hn) as Hl.
  destruct (wf_arr _ _ Hwf) as (Hwi & Hisz & _).
  rewrite new_is_assign, Ha in Hn. cbn [bind new_init] in Hn.
  destruct (MAX_ALLOC <? len * lsize item); [discriminate|]. unfold assign_bytes in Hn.
  destruct fuel as [|f]; [discriminate|]. cbn [new_target fill fill_array] in Hn.
  destruct (Z.leb_spec 0 len); [|lia]. destruct (Z.ltb_spec len (mlen l)); [discriminate|].
  cbn [andb] in Hn. split; [lia|]. split; [exact Hl|].
  pose proof (mlen_nonneg l).
  destruct (fill_items_safe
              (fun off x m => bind (item_guard f item x) (fun _ => fill f item off x m))
              (lsize item) ltac:(lia) l 0 (zeros (len * lsize item)) ltac:(lia)) as (_ & Hfr).
  - rewrite mlen_zeros. nia.
  - intros x off2 m2 Ho2 Hb2. apply guarded_item_safe; auto. apply fill_within_room.
  - destruct (Hfr m Hn) as (_ & Hb). intros i Hi. rewrite Hb; [apply byte_zeros|nia|right; lia].
Qed.
