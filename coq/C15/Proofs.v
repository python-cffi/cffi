(* C15 — proofs about the hand-written string / character-array model (Model.v); the lemmas about the
   regenerated wide-character helpers are in WProofs.v. *)
From Coq Require Import ZArith List Bool Lia.
Import ListNotations.
From Cffi Require Import C15.Model C15.WProofs.
Open Scope Z_scope.

(* no NUL unit / code point: what ffi.string needs to return the whole value *)
Definition zero_free (l : list Z) : Prop := Forall (fun c => c <> 0) l.

Theorem as_char16_loop_size : forall s, valid_str s ->
  exists us, as_char16_loop s = Ok us /\ zlen us = size16 s.
Proof.
  intros s Hv. destruct (as_char16_loop_total s Hv) as [us Hus]. exists us. split; [exact Hus|].
  exact (as_char16_loop_length s us Hus).
Qed.

Theorem decode16_encode16 : forall s us, valid_str s -> count_surrogates s = 0 ->
  as_char16_loop s = Ok us -> from_char16 us = Ok s.
Proof. intros s us Hv Hc Hus. apply (decode16_encode16_iff s us Hv Hus). exact Hc. Qed.

Lemma as_char16_loop_zero_free : forall s us, valid_str s -> zero_free s ->
  as_char16_loop s = Ok us -> zero_free us.
Proof. intros s us Hv Hz H. apply (as_char16_loop_units s us Hv H), Hz. Qed.

Lemma from_char32_valid : forall s, valid_str s -> from_char32 s = Ok s.
Proof.
  intros s H. apply from_char32_ok. eapply Forall_impl; [|exact H]. unfold valid_cp. intros c Hc. apply Hc.
Qed.

Lemma until_zero_app : forall us rest, zero_free us -> until_zero (us ++ rest) = us ++ until_zero rest.
Proof.
  induction us as [|u r IH]; intros rest H; [reflexivity|].
  inversion H; subst. cbn [app until_zero]. destruct (Z.eqb_spec u 0); [contradiction|].
  f_equal. apply IH; assumption.
Qed.

Lemma until_zero_app_zero : forall us rest, zero_free us -> until_zero (us ++ 0 :: rest) = us.
Proof. intros us rest H. rewrite until_zero_app by exact H. apply app_nil_r. Qed.

Lemma until_zero_all : forall us, zero_free us -> until_zero us = us.
Proof. intros us H. rewrite <- (app_nil_r us) at 1. rewrite until_zero_app by exact H. apply app_nil_r. Qed.

Theorem until_zero_spec : forall us, exists rest,
  us = until_zero us ++ rest /\ zero_free (until_zero us) /\
  (rest = [] \/ exists rest', rest = 0 :: rest').
Proof.
  induction us as [|u r IH].
  - exists []. repeat split; [constructor|left; reflexivity].
  - cbn [until_zero]. destruct (Z.eqb_spec u 0) as [->|Hne].
    + exists (0 :: r). repeat split; [constructor|right; eexists; reflexivity].
    + destruct IH as [rest [H1 [H2 H3]]]. exists rest. repeat split.
      * cbn [app]. f_equal. exact H1.
      * constructor; assumption.
      * exact H3.
Qed.

Lemma store_zeros : forall us n, zlen us = n -> store (zeros n) us = us.
Proof.
  intros us n H. unfold store, zeros. rewrite skipn_all2; [apply app_nil_r|].
  rewrite repeat_length. unfold zlen in H. lia.
Qed.

Definition units_of (t : ety) (v : pyval) : res (list Z) :=
  match t, v with
  | E8, PBytes bs => Ok bs
  | E16, PStr s => as_char16_loop s
  | E32, PStr s => Ok s
  | _, _ => Err TypeError
  end.

Definition wf_value (t : ety) (v : pyval) : Prop :=
  match t, v with
  | E8, PBytes bs => True
  | E16, PStr s => valid_str s
  | E32, PStr s => valid_str s
  | _, _ => False
  end.

(* what follows needs no validity of the code points: the units, when the value has any, decide *)
Lemma units_size : forall t v us, units_of t v = Ok us -> zlen us + 1 = new_array_length t v.
Proof.
  intros t v us Hu. destruct t, v; try discriminate; cbn [units_of] in Hu; cbn [new_array_length].
  - injection Hu as ->. reflexivity.
  - rewrite (as_char16_loop_length _ _ Hu). reflexivity.
  - injection Hu as ->. reflexivity.
Qed.

(* convert_array_from_object asks the writer for n units, or for n + 1 unless they fill the array exactly:
   the zero unit is written in exactly that case *)
Lemma terminator_room : forall (A : Type) n k (a b : A),
  (if n <? (if negb (n =? k) then n + 1 else n) then a else b) = if n =? k then b else a.
Proof.
  intros. destruct (n =? k); cbn [negb]; [rewrite Z.ltb_irrefl | replace (n <? n + 1) with true by lia]; reflexivity.
Qed.

Theorem convert_array_units : forall t v us k, units_of t v = Ok us ->
  convert_array t k v =
  if (0 <=? k) && (k <? zlen us) then Err IndexError
  else if zlen us =? k then Ok us
  else Ok (us ++ [0]).
Proof.
  intros t v us k Hu.
  destruct t, v; try discriminate; cbn [units_of] in Hu; cbn [convert_array].
  - injection Hu as ->. destruct (_ && _); [reflexivity|]. destruct (zlen us =? k); reflexivity.
  - rewrite <- (as_char16_loop_length _ _ Hu). destruct (_ && _); [reflexivity|].
    unfold as_char16. rewrite Hu, terminator_room. destruct (_ =? _); reflexivity.
  - injection Hu as ->. unfold size32. destruct (_ && _); [reflexivity|].
    rewrite as_char32_room, terminator_room by (destruct (_ =? _); cbn [negb]; lia). destruct (_ =? _); reflexivity.
Qed.

Theorem convert_array_spec : forall t v us k, wf_value t v -> units_of t v = Ok us -> -1 <= k ->
  convert_array t k v =
  if (0 <=? k) && (k <? zlen us) then Err IndexError
  else if zlen us =? k then Ok us
  else Ok (us ++ [0]).
Proof. intros t v us k _ Hu _. exact (convert_array_units t v us k Hu). Qed.

Theorem convert_array_no_units : forall t k v e, units_of t v = Err e ->
  exists e', convert_array t k v = Err e' /\ (e' = IndexError \/ e' = TypeError \/ e' = ValueError).
Proof.
  intros t k v e Hu. destruct t, v; cbn [convert_array units_of] in *; try discriminate; eauto.
  destruct (_ && _); [eauto|]. unfold as_char16. rewrite Hu. rewrite as_char16_loop_flat in Hu.
  destruct (existsb _ _); [injection Hu as <-; eauto|discriminate].
Qed.

Theorem assign_units : forall t mem v us, units_of t v = Ok us ->
  assign t mem v =
  if zlen mem <? zlen us then Err IndexError
  else if zlen us =? zlen mem then Ok us
  else Ok (us ++ [0] ++ skipn (length us + 1) mem).
Proof.
  intros t mem v us Hu. unfold assign. rewrite (convert_array_units t v us _ Hu).
  rewrite (proj2 (Z.leb_le 0 (zlen mem)) (zlen_nonneg mem)). cbn [andb].
  destruct (zlen mem <? zlen us); [reflexivity|]. unfold store.
  destruct (Z.eqb_spec (zlen us) (zlen mem)) as [E|].
  - rewrite skipn_all2 by (unfold zlen in E; lia). rewrite app_nil_r. reflexivity.
  - rewrite app_length, <- app_assoc. reflexivity.
Qed.

Theorem assign_shorter : forall t mem v us, wf_value t v -> units_of t v = Ok us ->
  zlen us < zlen mem ->
  assign t mem v = Ok (us ++ [0] ++ skipn (length us + 1) mem).
Proof.
  intros t mem v us _ Hu Hl. rewrite (assign_units t mem v us Hu).
  destruct (Z.ltb_spec (zlen mem) (zlen us)); [lia|]. destruct (Z.eqb_spec (zlen us) (zlen mem)); [lia|reflexivity].
Qed.

(* the values that come back unchanged from ffi.string(ffi.new("T[]", v)) *)
Definition roundtrips (t : ety) (v : pyval) : Prop :=
  match t, v with
  | E8, PBytes bs => zero_free bs
  | E16, PStr s => valid_str s /\ zero_free s /\ count_surrogates s = 0
  | E32, PStr s => valid_str s /\ zero_free s
  | _, _ => False
  end.

Theorem string_new_roundtrip : forall t v, roundtrips t v ->
  exists mem, new_open_array t v = Ok mem /\ zlen mem = new_array_length t v /\
              string_array t mem (-1) = Ok v.
Proof.
  intros t v H.
  assert (exists us, units_of t v = Ok us /\ zero_free us /\ of_units t us = Ok v) as [us [Hu [Hz Ho]]].
  { destruct t, v; cbn in H; try contradiction; cbn [units_of of_units].
    - eexists. repeat split; [exact H].
    - destruct H as [Hv [Hz Hc]]. destruct (as_char16_loop_size cps Hv) as [us [E _]].
      exists us. split; [exact E|]. split; [eapply as_char16_loop_zero_free; eauto|].
      rewrite (decode16_encode16 cps us Hv Hc E). reflexivity.
    - destruct H as [Hv Hz]. exists cps. repeat split; [exact Hz|].
      rewrite from_char32_valid by assumption. reflexivity. }
  pose proof (units_size t v us Hu) as Hsz. pose proof (zlen_nonneg us) as Hp.
  unfold new_open_array. rewrite (convert_array_units t v us (-1) Hu).
  cbn [Z.leb Z.compare andb]. destruct (Z.eqb_spec (zlen us) (-1)); [lia|].
  exists (us ++ [0]). rewrite store_zeros by (rewrite zlen_app; cbn; lia).
  split; [reflexivity|]. split; [rewrite zlen_app; cbn; lia|].
  unfold string_array. cbn [Z.ltb Z.compare].
  unfold zlen. rewrite Nat2Z.id, firstn_all.
  rewrite until_zero_app_zero by assumption. exact Ho.
Qed.

Lemma unpack_of_units : forall t mem n, 0 <= n <= zlen mem ->
  unpack t mem n = of_units t (firstn (Z.to_nat n) mem) /\ zlen (firstn (Z.to_nat n) mem) = n.
Proof.
  intros t mem n H. unfold unpack. destruct (Z.ltb_spec n 0); [lia|].
  split; [reflexivity|]. unfold zlen in *. rewrite firstn_length. lia.
Qed.

Theorem unpack_exact : forall mem n, 0 <= n <= zlen mem ->
  exists us, unpack E8 mem n = Ok (PBytes us) /\ zlen us = n /\ us = firstn (Z.to_nat n) mem.
Proof.
  intros mem n H. destruct (unpack_of_units E8 mem n H) as [E L].
  eexists. split; [exact E|]. split; [exact L|reflexivity].
Qed.
