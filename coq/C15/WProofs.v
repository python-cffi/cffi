(* C15 / C18 — lemmas about the REGENERATED wide-character helpers (C15/Gen.v, from
   src/c/wchar_helper_3.h).  Everything here is re-proved against the regenerated tests and arithmetic on
   every run; the statements are the interface used by C15/Proofs.v and C18/Proofs.v. *)
From Coq Require Import ZArith List Bool Lia ZifyBool.
Import ListNotations.
From Cffi Require Import Base.ListFacts Base.Bits C15.Spec C15.Gen.
Open Scope Z_scope.

(* names for the regenerated tests of _my_PyUnicode_FromChar16 *)
Definition is_hi (u : Z) : bool := fc16_hi_test u.
Definition is_lo (u : Z) : bool := fc16_lo_test u.
Definition join_pair (a b : Z) : Z := fc16_join a b.

(* a code point of a Python str (lone surrogates included) *)
Definition valid_cp (c : Z) : Prop := 0 <= c <= 0x10FFFF.
Definition valid_str (s : list Z) : Prop := Forall valid_cp s.

Lemma zlen_app : forall a b, zlen (a ++ b) = zlen a + zlen b.
Proof. intros. unfold zlen. rewrite app_length. lia. Qed.
Lemma zlen_cons : forall a l, zlen (a :: l) = 1 + zlen l.
Proof. intros. unfold zlen. cbn [length]. lia. Qed.
Lemma zlen_nonneg : forall l, 0 <= zlen l.
Proof. intros. unfold zlen. lia. Qed.

Lemma is_hi_range : forall u, is_hi u = true <-> 0xD800 <= u <= 0xDBFF.
Proof. intros u. unfold is_hi, fc16_hi_test. lia. Qed.

Lemma is_lo_range : forall u, is_lo u = true <-> 0xDC00 <= u <= 0xDFFF.
Proof. intros u. unfold is_lo, fc16_lo_test. lia. Qed.

(* the test of the counting loop is the conjunction of the two tests of the converting loop *)
Lemma pair_test_eq : forall a b, fc16_pair_test a b = is_hi a && is_lo b.
Proof. intros a b. unfold fc16_pair_test, is_hi, is_lo, fc16_hi_test, fc16_lo_test. lia. Qed.

(* the two ranges are disjoint: the low half of a pair cannot start another pair *)
Lemma lo_not_hi : forall u, is_lo u = true -> is_hi u = false.
Proof.
  intros u H. apply is_lo_range in H. destruct (is_hi u) eqn:E; [|reflexivity].
  apply is_hi_range in E. lia.
Qed.

Lemma hi_not_lo : forall u, is_hi u = true -> is_lo u = false.
Proof. intros u H. destruct (is_lo u) eqn:E; [apply lo_not_hi in E; congruence|reflexivity]. Qed.

Lemma u32_small : forall x, 0 <= x < 2 ^ 32 -> u32 x = x.
Proof. intros. unfold u32. apply Z.mod_small. assumption. Qed.
Lemma u16_small : forall x, 0 <= x < 2 ^ 16 -> u16 x = x.
Proof. intros. unfold u16. apply Z.mod_small. assumption. Qed.

Lemma lor_shiftl10 : forall x y, 0 <= y < 1024 -> Z.lor (Z.shiftl x 10) y = x * 1024 + y.
Proof. intros x y. now apply (Bits.lor_shiftl_add x y 10). Qed.

Lemma join_pair_val : forall a b, is_hi a = true -> is_lo b = true ->
  join_pair a b = (a - 0xD800) * 1024 + (b - 0xDC00) + 0x10000.
Proof.
  intros a b Ha Hb. apply is_hi_range in Ha. apply is_lo_range in Hb.
  unfold join_pair, fc16_join.
  change 0x3FF with (Z.ones 10). rewrite !Z.land_ones by lia. change (2 ^ 10) with 1024.
  assert (a mod 1024 = a - 0xD800) as -> by (symmetry; apply Z.mod_unique with (q := 54); lia).
  assert (b mod 1024 = b - 0xDC00) as -> by (symmetry; apply Z.mod_unique with (q := 55); lia).
  rewrite lor_shiftl10 by lia. apply u32_small. change (2 ^ 32) with 4294967296. lia.
Qed.

Lemma join_pair_astral : forall a b, is_hi a = true -> is_lo b = true ->
  0xFFFF < join_pair a b <= 0x10FFFF.
Proof.
  intros a b Ha Hb. rewrite join_pair_val by assumption.
  apply is_hi_range in Ha. apply is_lo_range in Hb. lia.
Qed.

(* count_surrogates counts the high surrogates immediately followed by a low one; `count_surrogates w = 0`
   is how the statements say that w has no adjacent pair (count_pos_has_pair) *)
Lemma count_surrogates_cons2 : forall a b r,
  count_surrogates (a :: b :: r) = (if is_hi a && is_lo b then 1 else 0) + count_surrogates (b :: r).
Proof. intros. cbn [count_surrogates]. rewrite pair_test_eq. reflexivity. Qed.

Lemma join16_loop_cons2 : forall a b r,
  join16_loop (a :: b :: r) =
  if is_hi a && is_lo b then join_pair a b :: join16_loop r else a :: join16_loop (b :: r).
Proof. reflexivity. Qed.

Lemma count_surrogates_nonneg : forall w, 0 <= count_surrogates w.
Proof.
  induction w as [|x l IHl]; [cbn; lia|].
  destruct l as [|y l']; [cbn; lia|].
  rewrite count_surrogates_cons2. destruct (is_hi x && is_lo y); lia.
Qed.

Lemma count_surrogates_skip : forall b r, is_hi b = false ->
  count_surrogates (b :: r) = count_surrogates r.
Proof.
  intros b r H. destruct r as [|c r']; [reflexivity|].
  rewrite count_surrogates_cons2, H. cbn [andb]. lia.
Qed.

(* the converting loop writes exactly size - count_surrogates items: the str allocated by
   PyUnicode_New(size - count_surrogates, ...) is filled exactly (needs the disjointness of the two
   ranges: every counted pair is joined and only those) *)
Theorem join16_length : forall w, zlen (join16_loop w) + count_surrogates w = zlen w.
Proof.
  induction w as [|a|a b r IHr IHbr] using list_ind2; [reflexivity|reflexivity|].
  rewrite count_surrogates_cons2, join16_loop_cons2.
  destruct (is_hi a && is_lo b) eqn:E.
  - apply andb_prop in E. destruct E as [_ Eb].
    rewrite count_surrogates_skip by (apply lo_not_hi; assumption). rewrite !zlen_cons. lia.
  - rewrite (zlen_cons a (b :: r)), zlen_cons. lia.
Qed.

Lemma count_zero_join : forall w, count_surrogates w = 0 -> join16_loop w = w.
Proof.
  induction w as [|a|a b r _ IHbr] using list_ind2; intros Hc; [reflexivity|reflexivity|].
  rewrite count_surrogates_cons2 in Hc. rewrite join16_loop_cons2.
  pose proof (count_surrogates_nonneg (b :: r)) as Hp.
  destruct (is_hi a && is_lo b); [lia|]. f_equal. apply IHbr. lia.
Qed.

Theorem join16_fixed_iff : forall w, join16_loop w = w <-> count_surrogates w = 0.
Proof.
  intros w. split; [|apply count_zero_join].
  intros H. pose proof (join16_length w) as L. rewrite H in L. lia.
Qed.

Definition has_pair (w : list Z) : Prop :=
  exists l1 a b l2, w = l1 ++ a :: b :: l2 /\ is_hi a = true /\ is_lo b = true.

Lemma count_pos_has_pair : forall w, count_surrogates w <> 0 <-> has_pair w.
Proof.
  intros w. split.
  - induction w as [|a r IH]; intros H; [cbn in H; lia|].
    destruct r as [|b r']; [cbn in H; lia|].
    rewrite count_surrogates_cons2 in H.
    destruct (is_hi a && is_lo b) eqn:E.
    + apply andb_prop in E. exists [], a, b, r'. tauto.
    + destruct (IH ltac:(lia)) as [l1 [x [y [l2 [Heq Hxy]]]]].
      exists (a :: l1), x, y, l2. rewrite Heq. tauto.
  - intros [l1 [a [b [l2 [-> [Ha Hb]]]]]].
    induction l1 as [|x l1 IH].
    + cbn [app]. rewrite count_surrogates_cons2, Ha, Hb. cbn [andb].
      pose proof (count_surrogates_nonneg (b :: l2)). lia.
    + cbn [app]. destruct (l1 ++ a :: b :: l2) as [|y t] eqn:E; [destruct l1; discriminate|].
      pose proof (count_surrogates_nonneg (y :: t)).
      rewrite count_surrogates_cons2. destruct (is_hi x && is_lo y); lia.
Qed.

(* _my_PyUnicode_FromChar16 as a whole: never an error (the allocation is exact); the joined units, which
   are the units themselves when no pair is adjacent *)
Lemma from_char16_join : forall w, from_char16 w = Ok (join16_loop w).
Proof.
  intros w. unfold from_char16. destruct (Z.eqb_spec (count_surrogates w) 0) as [E|E].
  - rewrite count_zero_join by assumption. reflexivity.
  - unfold PyUnicode_New_filled. assert ((MAX_UNICODE <? fc16_maxchar) = false) as -> by reflexivity.
    pose proof (join16_length w) as L.
    destruct (Z.eqb_spec (zlen (join16_loop w)) (zlen w - count_surrogates w)); [reflexivity|lia].
Qed.

Lemma from_char16_single : forall u, from_char16 [u] = Ok [u].
Proof. intros. reflexivity. Qed.

(* _my_PyUnicode_FromChar32: the identity on code units, or CPython's SystemError above 0x10FFFF *)
Lemma from_char32_eq : forall w,
  from_char32 w = if existsb (fun u => 0x10FFFF <? u) w then Err SystemError else Ok w.
Proof. reflexivity. Qed.

Lemma from_char32_ok : forall w, Forall (fun u => u <= 0x10FFFF) w -> from_char32 w = Ok w.
Proof.
  intros w H. rewrite from_char32_eq.
  assert (existsb (fun u => 0x10FFFF <? u) w = false) as ->; [|reflexivity].
  induction H as [|u r Hu Hr IH]; [reflexivity|]. cbn [existsb]. rewrite IH.
  destruct (Z.ltb_spec 0x10FFFF u); [lia|reflexivity].
Qed.

(* _my_PyUnicode_AsChar32 into a buffer with room for the code points: they are copied, with a zero unit
   behind them when there is room for one (the shape as_char16 has by definition) *)
Lemma as_char32_room : forall s r, zlen s <= r -> as_char32 s r = Ok (if zlen s <? r then s ++ [0] else s).
Proof.
  intros s r H. unfold as_char32, PyUnicode_AsUCS4. cbn zeta.
  destruct (Z.ltb_spec (zlen s) r); [destruct (Z.ltb_spec r (zlen s + 1)) | destruct (Z.ltb_spec r (zlen s + 0))];
    reflexivity || lia.
Qed.

Definition hi_of (c : Z) : Z := ac16_hi (ac16_sub c).
Definition lo_of (c : Z) : Z := ac16_lo (ac16_sub c).

Lemma ac16_astral_ltb : forall c, ac16_astral_test c = (0xFFFF <? c).
Proof. intros. unfold ac16_astral_test. lia. Qed.
Lemma ac16_range_iff : forall c, ac16_range_test c = true <-> 0x10FFFF < c.
Proof. intros. unfold ac16_range_test. lia. Qed.

Lemma ac16_sub_val : forall c, 0xFFFF < c <= 0x10FFFF -> ac16_sub c = c - 0x10000.
Proof. intros c H. unfold ac16_sub. apply u32_small. change (2 ^ 32) with 4294967296. lia. Qed.

Lemma hi_of_val : forall c, 0xFFFF < c <= 0x10FFFF -> hi_of c = 0xD800 + (c - 0x10000) / 1024.
Proof.
  intros c H. unfold hi_of. rewrite ac16_sub_val by assumption. unfold ac16_hi.
  rewrite Z.shiftr_div_pow2 by lia. change (2 ^ 10) with 1024.
  assert (0 <= (c - 0x10000) / 1024 < 1024) as Hq
    by (split; [apply Z.div_pos; lia|apply Z.div_lt_upper_bound; lia]).
  change 0xD800 with (Z.shiftl 54 10) at 1. rewrite lor_shiftl10 by lia.
  apply u16_small. change (2 ^ 16) with 65536. lia.
Qed.

Lemma lo_of_val : forall c, 0xFFFF < c <= 0x10FFFF -> lo_of c = 0xDC00 + (c - 0x10000) mod 1024.
Proof.
  intros c H. unfold lo_of. rewrite ac16_sub_val by assumption. unfold ac16_lo.
  change 0x3FF with (Z.ones 10). rewrite Z.land_ones by lia. change (2 ^ 10) with 1024.
  pose proof (Z.mod_pos_bound (c - 0x10000) 1024 ltac:(lia)) as Hm.
  change 0xDC00 with (Z.shiftl 55 10) at 1. rewrite lor_shiftl10 by lia.
  apply u16_small. change (2 ^ 16) with 65536. lia.
Qed.

Lemma ac16_bmp_val : forall c, 0 <= c <= 0xFFFF -> ac16_bmp c = c.
Proof. intros c H. unfold ac16_bmp. apply u16_small. change (2 ^ 16) with 65536. lia. Qed.

Lemma astral_split : forall c, 0xFFFF < c <= 0x10FFFF ->
  exists q r, 0 <= q < 1024 /\ 0 <= r < 1024 /\ c = 0x10000 + 1024 * q + r /\
              hi_of c = 0xD800 + q /\ lo_of c = 0xDC00 + r.
Proof.
  intros c H. exists ((c - 0x10000) / 1024), ((c - 0x10000) mod 1024).
  split; [split; [apply Z.div_pos; lia|apply Z.div_lt_upper_bound; lia]|].
  split; [apply Z.mod_pos_bound; reflexivity|].
  split; [pose proof (Z.div_mod (c - 0x10000) 1024 ltac:(discriminate)); lia|].
  split; [apply hi_of_val, H|apply lo_of_val, H].
Qed.

Lemma surrogates_of_astral : forall c, 0xFFFF < c <= 0x10FFFF ->
  is_hi (hi_of c) = true /\ is_lo (lo_of c) = true /\ join_pair (hi_of c) (lo_of c) = c /\
  hi_of c <> 0 /\ lo_of c <> 0.
Proof.
  intros c H. destruct (astral_split c H) as (q & r & Hq & Hr & Hc & -> & ->).
  assert (is_hi (0xD800 + q) = true) as Hh by (apply is_hi_range; lia).
  assert (is_lo (0xDC00 + r) = true) as Hl by (apply is_lo_range; lia).
  split; [exact Hh|]. split; [exact Hl|]. rewrite join_pair_val by assumption. lia.
Qed.

(* the units written for one code point *)
Definition enc16 (c : Z) : list Z := if ac16_astral_test c then [hi_of c; lo_of c] else [ac16_bmp c].

Lemma as_char16_loop_flat : forall s,
  as_char16_loop s =
  if existsb (fun c => ac16_astral_test c && ac16_range_test c) s then Err ac16_exn
  else Ok (flat_map enc16 s).
Proof.
  induction s as [|c r IH]; [reflexivity|]. cbn [as_char16_loop existsb flat_map]. rewrite IH.
  unfold enc16, hi_of, lo_of.
  destruct (ac16_astral_test c); [destruct (ac16_range_test c); [reflexivity|]|]; cbn [andb orb];
    destruct (existsb _ r); reflexivity.
Qed.

Lemma as_char16_loop_ok : forall s us, as_char16_loop s = Ok us -> us = flat_map enc16 s.
Proof.
  intros s us H. rewrite as_char16_loop_flat in H. destruct (existsb _ s); [discriminate|].
  injection H as <-. reflexivity.
Qed.

Lemma enc16_bmp : forall c, 0 <= c <= 0xFFFF -> enc16 c = [c].
Proof.
  intros c H. unfold enc16. rewrite ac16_astral_ltb. destruct (Z.ltb_spec 0xFFFF c); [lia|].
  rewrite ac16_bmp_val by assumption. reflexivity.
Qed.

Lemma enc16_astral : forall c, 0xFFFF < c -> enc16 c = [hi_of c; lo_of c].
Proof. intros c H. unfold enc16. rewrite ac16_astral_ltb, (proj2 (Z.ltb_lt _ _) H). reflexivity. Qed.

Lemma as_char16_loop_valid : forall s, valid_str s -> as_char16_loop s = Ok (flat_map enc16 s).
Proof.
  intros s Hv. rewrite as_char16_loop_flat.
  replace (existsb _ s) with false; [reflexivity|]. symmetry.
  induction Hv as [|c r Hc _ IH]; [reflexivity|]. cbn [existsb]. rewrite IH, orb_false_r.
  apply andb_false_intro2. destruct (ac16_range_test c) eqn:E; [|reflexivity].
  apply ac16_range_iff in E. unfold valid_cp in Hc. lia.
Qed.

(* the test of the sizing pass is the test of the writing pass *)
Lemma sz16_test_is_ac16_test : forall c, sz16_astral_test c = ac16_astral_test c.
Proof. intros. unfold sz16_astral_test, ac16_astral_test. lia. Qed.

Lemma sz16_count_nonneg : forall s, 0 <= sz16_count s.
Proof. induction s as [|c r IH]; cbn [sz16_count]; [lia|]. destruct (sz16_astral_test c); lia. Qed.

(* strings of the 1- and 2-byte kinds have no code point above 0xFFFF (CPython's invariant, Spec),
   so skipping the loop for them changes nothing *)
Lemma size16_unfold : forall s, size16 s = zlen s + sz16_count s.
Proof.
  intros s. unfold size16, PyUnicode_KIND.
  destruct (existsb (fun c => 0xFFFF <? c) s) eqn:E; [reflexivity|].
  assert (sz16_count s = 0) as ->.
  { induction s as [|c r IH]; [reflexivity|]. cbn [existsb] in E. apply orb_false_iff in E.
    destruct E as [E1 E2]. cbn [sz16_count]. rewrite IH by assumption.
    rewrite sz16_test_is_ac16_test, ac16_astral_ltb, E1. reflexivity. }
  destruct (existsb (fun c => 0xFF <? c) s); cbn; lia.
Qed.

Lemma size16_cons : forall c r,
  size16 (c :: r) = (if 0xFFFF <? c then 2 else 1) + size16 r.
Proof.
  intros c r. rewrite !size16_unfold. cbn [sz16_count]. rewrite zlen_cons, sz16_test_is_ac16_test, ac16_astral_ltb.
  destruct (0xFFFF <? c); lia.
Qed.

Lemma size16_nil : size16 [] = 0.
Proof. reflexivity. Qed.

Lemma zlen_enc16 : forall s, zlen (flat_map enc16 s) = size16 s.
Proof.
  induction s as [|c r IH]; [reflexivity|]. cbn [flat_map]. rewrite zlen_app, size16_cons, IH. f_equal.
  unfold enc16. rewrite ac16_astral_ltb. destruct (0xFFFF <? c); reflexivity.
Qed.

(* the allocation computed by _my_PyUnicode_SizeAsChar16 is exactly the number of units that
   _my_PyUnicode_AsChar16 writes - for EVERY list of code points on which the writer succeeds *)
Theorem as_char16_loop_length : forall s us, as_char16_loop s = Ok us -> zlen us = size16 s.
Proof. intros s us H. rewrite (as_char16_loop_ok s us H). apply zlen_enc16. Qed.

Theorem as_char16_loop_total : forall s, valid_str s -> exists us, as_char16_loop s = Ok us.
Proof. intros s Hv. eexists. apply as_char16_loop_valid, Hv. Qed.

Lemma enc16_units : forall c, valid_cp c ->
  Forall (fun u => 0 <= u < 0x10000) (enc16 c) /\ (c <> 0 -> Forall (fun u => u <> 0) (enc16 c)).
Proof.
  intros c Hc. unfold valid_cp in Hc. destruct (Z_le_gt_dec c 0xFFFF).
  - rewrite enc16_bmp by lia. split; repeat constructor; lia || assumption.
  - rewrite enc16_astral by lia. destruct (surrogates_of_astral c ltac:(lia)) as (Hh & Hl & _ & Hh0 & Hl0).
    apply is_hi_range in Hh. apply is_lo_range in Hl. split; repeat constructor; lia || assumption.
Qed.

Lemma as_char16_loop_units : forall s us, valid_str s -> as_char16_loop s = Ok us ->
  Forall (fun u => 0 <= u < 0x10000) us /\ (Forall (fun c => c <> 0) s -> Forall (fun u => u <> 0) us).
Proof.
  intros s us Hv H. rewrite (as_char16_loop_ok s us H). clear H.
  induction Hv as [|c r Hc _ [IH1 IH2]]; cbn [flat_map]; [split; constructor|].
  destruct (enc16_units c Hc) as [U1 U2]. split; [apply Forall_app; split; assumption|].
  intros Hz. inversion Hz; subst. apply Forall_app. split; auto.
Qed.

Definition hd_lo (w : list Z) : bool := match w with b :: _ => is_lo b | [] => false end.

Lemma join16_loop_keep : forall a w, is_hi a && hd_lo w = false -> join16_loop (a :: w) = a :: join16_loop w.
Proof. intros a [|b w] H; [reflexivity|]. rewrite join16_loop_cons2. cbn [hd_lo] in H. rewrite H. reflexivity. Qed.

(* encoding does not change whether the next unit is a low surrogate: an astral code point is none, and
   its first unit is a high one *)
Lemma hd_lo_enc16 : forall r, valid_str r -> hd_lo (flat_map enc16 r) = hd_lo r.
Proof.
  intros r Hv. destruct Hv as [|d r' Hd _]; [reflexivity|]. unfold valid_cp in Hd. cbn [flat_map hd_lo].
  destruct (Z_le_gt_dec d 0xFFFF).
  - rewrite enc16_bmp by lia. reflexivity.
  - rewrite enc16_astral by lia. cbn [app hd_lo].
    destruct (surrogates_of_astral d ltac:(lia)) as (Hh & _). rewrite (hi_not_lo _ Hh).
    destruct (is_lo d) eqn:E; [apply is_lo_range in E; lia|reflexivity].
Qed.

Lemma join16_enc16_head : forall c w, valid_cp c -> join16_loop (enc16 c ++ w) = join16_loop (c :: w).
Proof.
  intros c w Hc. unfold valid_cp in Hc. destruct (Z_le_gt_dec c 0xFFFF); [rewrite enc16_bmp by lia; reflexivity|].
  rewrite enc16_astral by lia. destruct (surrogates_of_astral c ltac:(lia)) as (Hh & Hl & Hj & _).
  cbn [app]. rewrite join16_loop_cons2, Hh, Hl, Hj. cbn [andb]. symmetry. apply join16_loop_keep.
  destruct (is_hi c) eqn:E; [apply is_hi_range in E; lia|reflexivity].
Qed.

Lemma join16_enc16 : forall s, valid_str s -> join16_loop (flat_map enc16 s) = join16_loop s.
Proof.
  induction s as [|c|c d r IHr IHdr] using list_ind2; intros Hv; [reflexivity| |];
    inversion Hv as [|? ? Hc Hr]; subst; cbn [flat_map]; rewrite join16_enc16_head by assumption; [reflexivity|].
  change (enc16 d ++ flat_map enc16 r) with (flat_map enc16 (d :: r)).
  destruct (is_hi c && is_lo d) eqn:E.
  - (* c and d are a surrogate pair: d is its own encoding, and the two are joined on both sides *)
    apply andb_prop in E. destruct E as [Eh El]. pose proof El as Ed. apply is_lo_range in Ed.
    inversion Hr as [|? ? _ Hr']; subst. cbn [flat_map]. rewrite enc16_bmp by lia.
    cbn [app]. rewrite !join16_loop_cons2, Eh, El. cbn [andb]. f_equal. apply IHr, Hr'.
  - rewrite !join16_loop_keep by (rewrite ?hd_lo_enc16; assumption). f_equal. apply IHdr, Hr.
Qed.

Theorem join16_encode : forall s us, valid_str s -> as_char16_loop s = Ok us ->
  join16_loop us = join16_loop s.
Proof.
  intros s us Hv H. rewrite (as_char16_loop_ok s us H). exact (join16_enc16 s Hv).
Qed.

(* THE round trip, for every str: decoding the units written by _my_PyUnicode_AsChar16 gives the str
   with every (high surrogate code point, low surrogate code point) adjacent pair - scanned left to
   right - replaced by the astral code point they spell; every other code point, lone surrogates
   included, comes back unchanged and in place *)
Theorem decode16_encode16_general : forall s us, valid_str s -> as_char16_loop s = Ok us ->
  from_char16 us = Ok (join16_loop s).
Proof. intros s us Hv H. rewrite from_char16_join, (join16_encode s us Hv H). reflexivity. Qed.

Theorem decode16_encode16_iff : forall s us, valid_str s -> as_char16_loop s = Ok us ->
  (from_char16 us = Ok s <-> count_surrogates s = 0).
Proof.
  intros s us Hv H. rewrite (decode16_encode16_general s us Hv H). rewrite <- join16_fixed_iff.
  split; [intros E; inversion E; congruence|intros ->; reflexivity].
Qed.

(* storing one char16_t (_my_PyUnicode_AsSingleChar16): the code point of a one-character str; astral
   characters are refused *)
Theorem as_single_char16_spec : forall s, valid_str s ->
  as_single_char16 s = match s with
                       | [c] => if 0xFFFF <? c then None else Some c
                       | _ => None
                       end.
Proof.
  intros s Hv. destruct s as [|c [|d r]]; try reflexivity.
  inversion Hv as [|? ? Hc _]; subst. unfold valid_cp in Hc.
  cbn [as_single_char16]. unfold asc16_toobig_test.
  destruct (Z.ltb_spec 0xFFFF c); [reflexivity|].
  rewrite u16_small by (change (2 ^ 16) with 65536; lia). reflexivity.
Qed.

