(* C15 — Character arrays and strings round-trip, including the terminator.
   Statements, each with its proof when nothing else uses it; the lemmas they share are in C15/WProofs.v
   (the regenerated wide-character helpers) and C15/Proofs.v.
   Units are 8/16/32-bit code units; a str is a list of code points (lone surrogates allowed).
   size16, as_char16_loop, from_char16, count_surrogates, join16_loop, as_single_char16/32 are the
   definitions REGENERATED from src/c/wchar_helper_3.h into C15/Gen.v on every run: a changed threshold
   or range test in the source changes Gen.v and these statements are re-proved against it. *)
From Coq Require Import ZArith List Bool Lia.
Import ListNotations.
From Cffi Require Base.ListFacts.
From Cffi Require Import C15.Model C15.WProofs C15.Proofs.
Open Scope Z_scope.

(* the size computed separately (for the allocation and the length test) is exactly the number of
   units the UTF-16 copy loop writes *)
Theorem C15_size16_is_encoded_length : forall s, valid_str s ->
  exists us, as_char16_loop s = Ok us /\ zlen us = size16 s.
Proof. exact as_char16_loop_size. Qed.
Print Assumptions C15_size16_is_encoded_length.

(* decoding (from_char16) what the writer (as_char16_loop) stores for s gives s, for every str without a
   high surrogate immediately followed by a low one *)
Theorem C15_decode16_encode16 : forall s us, valid_str s -> count_surrogates s = 0 ->
  as_char16_loop s = Ok us -> from_char16 us = Ok s.
Proof. exact decode16_encode16. Qed.
Print Assumptions C15_decode16_encode16.

(* the same for EVERY list of non-negative code points on which the writer succeeds (no validity
   assumption): the allocation computed by _my_PyUnicode_SizeAsChar16 is exactly the number of units
   _my_PyUnicode_AsChar16 writes *)
Theorem C15_size16_agrees_with_writer : forall s us, Forall (fun c => 0 <= c) s ->
  as_char16_loop s = Ok us -> zlen us = size16 s.
Proof. intros s us _. apply as_char16_loop_length. Qed.
Print Assumptions C15_size16_agrees_with_writer.

(* the writer fails only with ValueError and only on a code point above 0x10FFFF (no Python str has one) *)
Theorem C15_as_char16_error : forall s e, Forall (fun c => 0 <= c) s ->
  as_char16_loop s = Err e -> e = ValueError /\ exists c, In c s /\ 0x10FFFF < c.
Proof.
  intros s e _ H. rewrite as_char16_loop_flat in H.
  destruct (existsb _ s) eqn:E; [|discriminate]. injection H as <-. split; [reflexivity|].
  apply existsb_exists in E. destruct E as (c & Hin & Hc). apply andb_prop in Hc.
  exists c. split; [exact Hin|]. apply ac16_range_iff, Hc.
Qed.
Print Assumptions C15_as_char16_error.

(* every unit written fits a char16_t (the u16 truncation of the store never changes a value) *)
Theorem C15_as_char16_units_are_16bit : forall s us, valid_str s -> as_char16_loop s = Ok us ->
  Forall (fun u => 0 <= u < 0x10000) us.
Proof. intros s us Hv H. apply (as_char16_loop_units s us Hv H). Qed.
Print Assumptions C15_as_char16_units_are_16bit.

(* the regenerated range tests of _my_PyUnicode_FromChar16 are the UTF-16 surrogate ranges, and the
   test of its counting loop is the conjunction of the two tests of its converting loop *)
Theorem C15_regenerated_surrogate_tests : forall a b,
  (fc16_hi_test a = true <-> 0xD800 <= a <= 0xDBFF) /\
  (fc16_lo_test b = true <-> 0xDC00 <= b <= 0xDFFF) /\
  fc16_pair_test a b = fc16_hi_test a && fc16_lo_test b.
Proof. intros a b. split; [apply is_hi_range|]. split; [apply is_lo_range|apply pair_test_eq]. Qed.
Print Assumptions C15_regenerated_surrogate_tests.

(* _my_PyUnicode_FromChar16, every unit list: the converting loop writes exactly
   size - count_surrogates items, i.e. the str allocated by PyUnicode_New is filled exactly (never
   BufferMisuse), and the result is the unit list with every adjacent (high, low) pair joined *)
Theorem C15_from_char16_allocation_exact : forall w,
  zlen (join16_loop w) + count_surrogates w = zlen w.
Proof. exact join16_length. Qed.
Print Assumptions C15_from_char16_allocation_exact.

(* ... and the helper never fails *)
Theorem C15_from_char16_total : forall w, from_char16 w = Ok (join16_loop w).
Proof. exact from_char16_join. Qed.
Print Assumptions C15_from_char16_total.

(* THE round trip through char16_t for EVERY str s: from_char16 (as_char16 s) is s with every adjacent
   (high surrogate code point, low surrogate code point) pair - scanned left to right - replaced by
   the astral code point the two spell; all other code points, lone surrogates included, come back
   unchanged and in place ... *)
Theorem C15_decode16_encode16_general : forall s us, valid_str s -> as_char16_loop s = Ok us ->
  from_char16 us = Ok (join16_loop s).
Proof. exact decode16_encode16_general. Qed.
Print Assumptions C15_decode16_encode16_general.

(* ... hence s round-trips EXACTLY when it has no high surrogate immediately followed by a low one
   (lone surrogates anywhere else are fine) *)
Theorem C15_decode16_encode16_iff : forall s us, valid_str s -> as_char16_loop s = Ok us ->
  (from_char16 us = Ok s <-> count_surrogates s = 0).
Proof. exact decode16_encode16_iff. Qed.
Print Assumptions C15_decode16_encode16_iff.

(* what count_surrogates counts: it is non-zero exactly when some high surrogate is immediately followed by
   a low one (has_pair, C15/WProofs.v, written out) *)
Theorem C15_no_pair_iff : forall w, count_surrogates w <> 0 <->
  exists l1 a b l2, w = l1 ++ a :: b :: l2 /\ is_hi a = true /\ is_lo b = true.
Proof. exact count_pos_has_pair. Qed.
Print Assumptions C15_no_pair_iff.

(* single characters (_my_PyUnicode_AsSingleChar16/32): a one-character str gives its code point as the
   unit; astral characters are refused for char16_t *)
Theorem C15_as_single_char16 : forall s, valid_str s ->
  as_single_char16 s = match s with [c] => if 0xFFFF <? c then None else Some c | _ => None end.
Proof. exact as_single_char16_spec. Qed.
Print Assumptions C15_as_single_char16.

(* ... which is the unit the array conversion writes for the same str *)
Theorem C15_as_single_char16_agrees : forall s u, valid_str s ->
  as_single_char16 s = Some u -> as_char16_loop s = Ok [u].
Proof.
  intros s u Hv H. rewrite as_single_char16_spec in H by assumption.
  destruct s as [|c [|d r]]; try discriminate.
  inversion Hv as [|? ? Hc _]; subst. unfold valid_cp in Hc.
  destruct (Z.ltb_spec 0xFFFF c); [discriminate|]. injection H as <-.
  rewrite as_char16_loop_valid by assumption. cbn [flat_map]. rewrite enc16_bmp by lia. reflexivity.
Qed.
Print Assumptions C15_as_single_char16_agrees.

Theorem C15_as_single_char32 : forall s, valid_str s ->
  as_single_char32 s = match s with [c] => Some c | _ => None end.
Proof.
  intros s Hv. destruct s as [|c [|d r]]; try reflexivity.
  inversion Hv as [|? ? Hc _]; subst. unfold valid_cp in Hc.
  cbn [as_single_char32]. rewrite u32_small by (change (2 ^ 32) with 4294967296; lia). reflexivity.
Qed.
Print Assumptions C15_as_single_char32.

(* non-vacuity: lone surrogates round-trip (also low before high); an adjacent pair is joined; U+10000
   and U+10FFFF take two units and U+FFFF one *)
Example C15_example_lone_surrogates :
  as_char16_loop [0xD800; 0x41; 0xDC00; 0xDFFF; 0xDBFF] = Ok [0xD800; 0x41; 0xDC00; 0xDFFF; 0xDBFF] /\
  from_char16 [0xD800; 0x41; 0xDC00; 0xDFFF; 0xDBFF] = Ok [0xD800; 0x41; 0xDC00; 0xDFFF; 0xDBFF] /\
  count_surrogates [0xD800; 0x41; 0xDC00; 0xDFFF; 0xDBFF] = 0 /\
  from_char16 [0x41; 0xD83D; 0xDE00; 0xDE00] = Ok [0x41; 0x1F600; 0xDE00] /\
  as_char16_loop [0xFFFF; 0x10000; 0x10FFFF] = Ok [0xFFFF; 0xD800; 0xDC00; 0xDBFF; 0xDFFF] /\
  size16 [0xFFFF; 0x10000; 0x10FFFF] = 5 /\ size16 [0x41; 0xFFFF] = 2 /\
  as_char16_loop [0x41; 0x110000] = Err ValueError.
Proof. vm_compute. repeat split; reflexivity. Qed.

(* a str with a high surrogate immediately followed by a low one does not round-trip through char16_t: the
   two code points come back as one astral code point
   (finding "adjacent_surrogates", inherent to UTF-16) *)
Theorem C15_decode16_encode16_refuted : exists s us, valid_str s /\
  as_char16_loop s = Ok us /\ from_char16 us <> Ok s.
Proof.
  exists [0xD83D; 0xDE00], [0xD83D; 0xDE00]. split.
  - repeat constructor; unfold valid_cp; lia.
  - split; [reflexivity|]. vm_compute. discriminate.
Qed.
Print Assumptions C15_decode16_encode16_refuted.

(* ffi.string(ffi.new("T[]", s)) == s: bytes without NUL for char types; str without U+0000 for
   char32_t/wchar_t; and for char16_t when no surrogates are adjacent.  The array has exactly
   len(units) + 1 units. *)
Theorem C15_string_new_roundtrip : forall t v, roundtrips t v ->
  exists mem, new_open_array t v = Ok mem /\ zlen mem = new_array_length t v /\
              string_array t mem (-1) = Ok v.
Proof. exact string_new_roundtrip. Qed.
Print Assumptions C15_string_new_roundtrip.

(* conversion into an array of k units (k = -1: open array): IndexError when the string has more
   than k units, the units alone when they fill it exactly, the units and ONE zero unit otherwise *)
Theorem C15_convert_array : forall t v us k, wf_value t v -> units_of t v = Ok us -> -1 <= k ->
  convert_array t k v =
  if (0 <=? k) && (k <? zlen us) then Err IndexError
  else if zlen us =? k then Ok us
  else Ok (us ++ [0]).
Proof. exact convert_array_spec. Qed.
Print Assumptions C15_convert_array.

(* assigning a shorter string to a fixed-size array (item / field assignment, ffi.new initializer):
   the string, one terminating zero unit, and the later units unchanged *)
Theorem C15_assign_shorter : forall t mem v us, wf_value t v -> units_of t v = Ok us ->
  zlen us < zlen mem ->
  assign t mem v = Ok (us ++ [0] ++ skipn (length us + 1) mem).
Proof. exact assign_shorter. Qed.
Print Assumptions C15_assign_shorter.

Theorem C15_assign_shorter_frame : forall t mem v us mem' j, wf_value t v -> units_of t v = Ok us ->
  zlen us < zlen mem -> assign t mem v = Ok mem' ->
  length mem' = length mem /\
  firstn (length us) mem' = us /\ nth_error mem' (length us) = Some 0 /\
  ((length us < j)%nat -> nth_error mem' j = nth_error mem j).
Proof.
  intros t mem v us mem' j Hw Hu Hl H. rewrite (assign_shorter t mem v us Hw Hu Hl) in H.
  inversion H; subst mem'; clear H. unfold zlen in Hl.
  split; [rewrite app_length; cbn [app length]; rewrite skipn_length; lia|].
  split; [rewrite firstn_app, Nat.sub_diag, firstn_all; cbn [firstn]; apply app_nil_r|].
  split; [rewrite nth_error_app2 by lia; rewrite Nat.sub_diag; reflexivity|].
  intros Hj. rewrite nth_error_app2 by lia. cbn [app].
  destruct (j - length us)%nat as [|m] eqn:E; [lia|]. cbn [nth_error].
  rewrite Base.ListFacts.nth_error_skipn. f_equal. lia.
Qed.
Print Assumptions C15_assign_shorter_frame.

Theorem C15_assign_exact : forall t mem v us, wf_value t v -> units_of t v = Ok us ->
  zlen us = zlen mem -> assign t mem v = Ok us.
Proof.
  intros t mem v us _ Hu Hl. rewrite (assign_units t mem v us Hu), Hl, Z.ltb_irrefl, Z.eqb_refl. reflexivity.
Qed.
Print Assumptions C15_assign_exact.

Theorem C15_assign_too_long : forall t mem v us, wf_value t v -> units_of t v = Ok us ->
  zlen mem < zlen us -> assign t mem v = Err IndexError.
Proof.
  intros t mem v us _ Hu Hl. rewrite (assign_units t mem v us Hu), (proj2 (Z.ltb_lt _ _) Hl). reflexivity.
Qed.
Print Assumptions C15_assign_too_long.

(* ffi.string(x, maxlen) on an array cdata over the units mem: the scan covers the first `length`
   units, length = maxlen if given (>= 0) else the array length; the result is built from the units r
   before the first zero unit in that range (r is zero-free, and is followed by a zero unit or by the
   end of the range) *)
Theorem C15_string_array_stops_at_first_zero : forall t mem maxlen,
  let length := if maxlen <? 0 then zlen mem else maxlen in
  exists r rest,
    firstn (Z.to_nat length) mem = r ++ rest /\ zero_free r /\
    (rest = [] \/ exists rest', rest = 0 :: rest') /\
    string_array t mem maxlen = of_units t r.
Proof.
  intros t mem maxlen length.
  destruct (until_zero_spec (firstn (Z.to_nat length) mem)) as [rest [H1 [H2 H3]]].
  exists (until_zero (firstn (Z.to_nat length) mem)), rest. repeat split; auto.
Qed.
Print Assumptions C15_string_array_stops_at_first_zero.

(* ffi.string(p, maxlen) on a pointer: the same within maxlen units; without maxlen up to the first
   zero unit of the memory *)
Theorem C15_string_pointer_stops_at_first_zero : forall t mem maxlen,
  exists r rest,
    (if maxlen <? 0 then mem else firstn (Z.to_nat maxlen) mem) = r ++ rest /\ zero_free r /\
    (rest = [] \/ exists rest', rest = 0 :: rest') /\
    string_pointer t mem maxlen = of_units t r.
Proof.
  intros t mem maxlen. unfold string_pointer.
  destruct (maxlen <? 0).
  - destruct (until_zero_spec mem) as [rest [H1 [H2 H3]]].
    exists (until_zero mem), rest. repeat split; auto.
  - destruct (until_zero_spec (firstn (Z.to_nat maxlen) mem)) as [rest [H1 [H2 H3]]].
    exists (until_zero (firstn (Z.to_nat maxlen) mem)), rest. repeat split; auto.
Qed.
Print Assumptions C15_string_pointer_stops_at_first_zero.

(* ffi.unpack(p, n), every element kind: built from exactly the first n units, zeros included (for
   char16_t the n units are then decoded as UTF-16, cf. C18) *)
Theorem C15_unpack_exact : forall t mem n, 0 <= n <= zlen mem ->
  exists us, us = firstn (Z.to_nat n) mem /\ zlen us = n /\ unpack t mem n = of_units t us.
Proof.
  intros t mem n H. destruct (unpack_of_units t mem n H) as [E L].
  eexists. split; [reflexivity|]. split; [exact L|exact E].
Qed.
Print Assumptions C15_unpack_exact.

(* non-vacuity of C15_string_new_roundtrip: values of every element type meet `roundtrips` *)
Example C15_example_roundtrips :
  roundtrips E8 (PBytes [104; 105; 255]) /\ roundtrips E16 (PStr [0x1F600; 97; 0xD800; 0x20AC]) /\
  roundtrips E32 (PStr [0x1F600; 0xDC00; 97]).
Proof.
  unfold roundtrips, valid_str, zero_free, valid_cp.
  repeat split; repeat constructor; try lia; try discriminate.
Qed.

Example C15_example_roundtrip_run :
  new_open_array E16 (PStr [0x1F600; 97; 0xD800; 0x20AC]) = Ok [0xD83D; 0xDE00; 97; 0xD800; 0x20AC; 0] /\
  string_array E16 [0xD83D; 0xDE00; 97; 0xD800; 0x20AC; 0] (-1) = Ok (PStr [0x1F600; 97; 0xD800; 0x20AC]) /\
  string_array E16 [0xD83D; 0xDE00; 97; 0xD800; 0x20AC; 0] 1 = Ok (PStr [0xD83D]).
Proof. vm_compute. repeat split; reflexivity. Qed.

(* non-vacuity: the terminator is written: a = 'wxyz' then a = 'ab' in char16_t[4]
   and char32_t[4]; an astral character takes two units; U+1F600 round-trips through char16_t *)
Example C15_example_terminator :
  assign E16 [119; 120; 121; 122] (PStr [97; 98]) = Ok [97; 98; 0; 122] /\
  assign E32 [119; 120; 121; 122] (PStr [97; 98]) = Ok [97; 98; 0; 122] /\
  assign E8 [119; 120; 121; 122] (PBytes [97; 98]) = Ok [97; 98; 0; 122] /\
  assign E16 [119; 120; 121; 122] (PStr [0x1F600; 98]) = Ok [0xD83D; 0xDE00; 98; 0] /\
  assign E16 [119; 120; 121; 122] (PStr [0x1F600; 98; 99]) = Ok [0xD83D; 0xDE00; 98; 99] /\
  assign E16 [119; 120; 121; 122] (PStr [0x1F600; 98; 99; 100]) = Err IndexError /\
  string_array E16 [0xD83D; 0xDE00; 98; 0] (-1) = Ok (PStr [0x1F600; 98]).
Proof. vm_compute. repeat split; reflexivity. Qed.
