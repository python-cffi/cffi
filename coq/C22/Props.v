(* C22 — errno is passed to and from C calls and is thread-local.  Each statement is derived from
   the lemmas of C22/Proofs*.v.
   `crun false` is the code as written under the hypothesis that __thread storage
   (cffi_saved_errno) and the C library's errno are per thread; threads are `nat`, a schedule is
   any list of (thread, operation).

   Call paths.  The property names four paths into C: ABI-mode calls (b_call, _cffi_backend.c:3252),
   API-mode calls (wrappers generated by recompiler.py:745 with _cffi_restore_errno/_cffi_save_errno),
   callbacks (invoke_callback :6360 and extern "Python" cffi_call_python, call_python.c:241/278) and
   the fetch of a global through its accessor (cglob.c).  All of them bracket the foreign code with the
   same two functions, restore_errno() before and save_errno() after (callbacks: save before, restore
   after), so the model has ONE pair OCallEnter/OCallExit and one pair OCbEnter/OCbExit; that each
   real path does bracket its call this way is decided by the correspondence (tools/props/c22.py
   runs every generated program through the ABI path and through a compiled API-mode module, with
   ffi.callback and extern "Python" callbacks and a global-variable fetch) and, for the statement
   order of each path, by its regeneration into C22/Gen.v, tied to the abstract pairs by
   C22_gen_call_paths / C22_gen_paths_are_the_model below. *)
From Coq Require Import ZArith List Bool Arith.
Import ListNotations.
From Cffi Require Import C22.Model C22.Spec C22.Gen C22.Proofs C22.Proofs2 C22.Micro C22.Proofs3.
Open Scope Z_scope.

(* for every schedule over any number of threads, thread t's observations (ffi.errno reads and the
   errno seen by C code it calls) are those of its own operations run alone *)
Theorem C22_noninterference : forall (sch : list (nat * op)) (t : nat),
  obs_of t (snd (crun false cs0 sch)) = snd (run1 ts0 (ops_of t sch)).
Proof. intros. apply noninterference_from. Qed.
Print Assumptions C22_noninterference.

(* the central statement: under any schedule over any number of threads, every thread whose
   operations are well-bracketed (Python / C alternation) observes exactly one logical errno of
   its own (C22/Spec.v) — values assigned to ffi.errno reach the C code, values left by C code or
   assigned in callbacks reach ffi.errno, interpreter noise and other threads are invisible *)
Theorem C22_threads_refine_spec : forall (sch : list (nat * op)) (t : nat),
  wf Py (ops_of t sch) = true ->
  obs_of t (snd (crun false cs0 sch)) = spec_run 0 (ops_of t sch).
Proof. intros sch t. exact (threads_refine_spec_from Py cs0 sch t). Qed.
Print Assumptions C22_threads_refine_spec.

(* whatever the interpreter does to the C errno while the thread runs Python code is invisible *)
Theorem C22_noise_irrelevant : forall ops s e',
  wf Py ops = true ->
  snd (run1 s ops) = snd (run1 (mkTs e' (saved s)) (erase ops)).
Proof. intros ops s e' W. apply (noise_irrelevant_any_mode ops Py); auto. Qed.
Print Assumptions C22_noise_irrelevant.

(* a value assigned to ffi.errno is the errno the next C call sees *)
Theorem C22_set_then_call : forall s v, in_int v = true ->
  snd (run1 s [OSet v; OCallEnter; OCRead]) = [ObsVal v].
Proof. intros s v H. cbn. rewrite H. reflexivity. Qed.
Print Assumptions C22_set_then_call.

(* the errno left by a C function is what ffi.errno returns afterwards *)
Theorem C22_call_then_get : forall s e,
  snd (run1 s [OCallEnter; OCSet e; OCallExit; OGet]) = [ObsVal e].
Proof. intros. reflexivity. Qed.
Print Assumptions C22_call_then_get.

Theorem C22_call_untouched : forall s v, in_int v = true ->
  snd (run1 s [OSet v; OCallEnter; OCallExit; OGet]) = [ObsVal v].
Proof. intros s v H. cbn. rewrite H. reflexivity. Qed.
Print Assumptions C22_call_untouched.

(* inside a callback ffi.errno is the caller's errno; what the callback assigns is what the C caller sees *)
Theorem C22_callback_sees_c_errno : forall s e,
  snd (run1 s [OCallEnter; OCSet e; OCbEnter; OGet]) = [ObsVal e].
Proof. intros. reflexivity. Qed.
Print Assumptions C22_callback_sees_c_errno.
Theorem C22_callback_sets_c_errno : forall s v, in_int v = true ->
  snd (run1 s [OCallEnter; OCbEnter; OSet v; OCbExit; OCRead]) = [ObsVal v].
Proof. intros s v H. cbn. rewrite H. reflexivity. Qed.
Theorem C22_callback_preserves : forall s e,
  snd (run1 s [OCallEnter; OCSet e; OCbEnter; OCbExit; OCRead]) = [ObsVal e].
Proof. intros. reflexivity. Qed.
Print Assumptions C22_callback_preserves.
Print Assumptions C22_callback_sets_c_errno.

(* out-of-range assignments are refused and change nothing *)
Theorem C22_set_overflow : forall s v, in_int v = false -> run1 s [OSet v] = (s, [ObsOverflow]).
Proof. intros s v H. cbn. rewrite H. reflexivity. Qed.
Print Assumptions C22_set_overflow.

(* the laws compose with any prefix (run1 is a fold) *)
Theorem C22_run_app : forall a b s,
  run1 s (a ++ b) = (fst (run1 (fst (run1 s a)) b), snd (run1 s a) ++ snd (run1 (fst (run1 s a)) b)).
Proof. exact run1_app. Qed.
Print Assumptions C22_run_app.

(* ---- regenerated facts (C22/Gen.v is rewritten from the sources on every run, fail closed):
   the statement order around every foreign call, the bodies of b_get_errno / b_set_errno and of the
   two helpers, the export slots used by API-mode modules, the storage class of cffi_saved_errno.
   Dropping or moving one save/restore changes Gen.v and breaks these. *)
Theorem C22_gen_call_paths :
  gen_b_call = call_bracket /\ gen_api_wrapper = call_bracket /\ gen_glob_fetch = call_bracket /\
  gen_invoke_callback = cb_bracket /\ gen_call_python = cb_bracket /\
  gen_api_export_slots_ok = true /\ gen_posix_aliases = true /\
  gen_save_errno_only_copies_errno_to_saved = true /\ gen_restore_errno_only_copies_saved_to_errno = true.
Proof. repeat split; reflexivity. Qed.
Print Assumptions C22_gen_call_paths.

(* each real path, executed statement by statement around any foreign activity `body`, is exactly the
   abstract pair of operations the other theorems speak about *)
Theorem C22_gen_paths_are_the_model : forall body s,
  exec_path gen_b_call body s = run1 s (OCallEnter :: body ++ [OCallExit]) /\
  exec_path gen_api_wrapper body s = run1 s (OCallEnter :: body ++ [OCallExit]) /\
  exec_path gen_glob_fetch body s = run1 s (OCallEnter :: body ++ [OCallExit]) /\
  exec_path gen_invoke_callback body s = run1 s (OCbEnter :: body ++ [OCbExit]) /\
  exec_path gen_call_python body s = run1 s (OCbEnter :: body ++ [OCbExit]).
Proof.
  intros. destruct C22_gen_call_paths as (-> & -> & -> & -> & -> & _).
  repeat split; first [apply exec_call_bracket | apply exec_cb_bracket].
Qed.
Print Assumptions C22_gen_paths_are_the_model.

Theorem C22_gen_get_errno_is_OGet : forall s,
  exec_e gen_get_errno 0 s None = (fst (step1 s OGet), Some (saved s)) /\
  snd (step1 s OGet) = Some (ObsVal (saved s)).
Proof. intros. split; reflexivity. Qed.
Print Assumptions C22_gen_get_errno_is_OGet.

Theorem C22_gen_set_errno_is_OSet : forall s v, in_int v = true ->
  exec_e gen_set_errno v s None = (fst (step1 s (OSet v)), None) /\
  (fst gen_set_errno_range <=? v) && (v <=? snd gen_set_errno_range) = true.
Proof.
  intros s v H. split.
  - cbn. rewrite H. reflexivity.
  - exact H.
Qed.
Print Assumptions C22_gen_set_errno_is_OSet.

Theorem C22_gen_set_errno_range_is_int : gen_set_errno_range = (int_min, int_max).
Proof. reflexivity. Qed.
Print Assumptions C22_gen_set_errno_range_is_int.

(* non-interference for the storage class the source declares for cffi_saved_errno
   (gen_saved_thread_local = false, i.e. no __thread, makes this the refuted `crun true`) *)
Theorem C22_noninterference_gen : forall sch t,
  obs_of t (snd (crun (negb gen_saved_thread_local) cs0 sch)) = snd (run1 ts0 (ops_of t sch)).
Proof. exact C22_noninterference. Qed.
Print Assumptions C22_noninterference_gen.

(* the value 0 is an errno value like any other: it travels in both directions *)
Theorem C22_zero_is_first_class : forall s,
  snd (run1 s [OSet 0; OCallEnter; OCRead]) = [ObsVal 0] /\
  snd (run1 s [OCallEnter; OCSet 0; OCallExit; OGet]) = [ObsVal 0] /\
  snd (run1 s [OCallEnter; OCbEnter; OSet 0; OCbExit; OCRead]) = [ObsVal 0] /\
  snd (run1 s [OCallEnter; OCSet 0; OCbEnter; OGet]) = [ObsVal 0].
Proof. intros; repeat split; reflexivity. Qed.
Print Assumptions C22_zero_is_first_class.

(* ---- the callback brackets, path by path.  gen_call_python_cfg / gen_invoke_callback_cfg are the
   bodies of cffi_call_python (call_python.c) and invoke_callback (_cffi_backend.c) translated
   statement by statement on every run (the translator refuses any statement or callee it does not
   know, any goto/loop/label/preprocessor line); cb_paths are ALL their syntactic paths (every
   outcome of every `if`).  Moving save_errno() into a branch, dropping it, adding a `return`, or
   putting error reporting outside the bracket changes Gen.v and breaks these. *)

(* on every path save_errno() is the first errno-relevant statement, restore_errno() the last; the
   Python code of the callback, the error report on stderr, the GIL operations, the cache update and
   the memset all lie strictly between them; the Python code runs at most once; no early return *)
Theorem C22_gen_cb_paths_shape : forall p, In p cb_paths ->
  exists mid, p = VSave :: mid ++ [VRestore] /\ forallb is_touch mid = true /\ (count_invoke mid <= 1)%nat.
Proof. intros. apply cb_path_ok_shape. apply cb_paths_ok. assumption. Qed.
Print Assumptions C22_gen_cb_paths_shape.
Theorem C22_gen_cb_no_early_return :
  existsb snd (bpaths gen_call_python_cfg) = false /\ existsb snd (bpaths gen_invoke_callback_cfg) = false.
Proof. split; vm_compute; reflexivity. Qed.
Print Assumptions C22_gen_cb_no_early_return.

(* on every path, for every Python-side activity `body` of the callback (any well-bracketed sequence of
   ffi.errno reads/writes, interpreter noise and nested C calls with their own callbacks — this includes
   what an onerror handler does) and whatever the noise statements leave in errno: the C-level errno
   after the function returns is the logical errno at the end of the Python code, started from the C
   errno before the call; on the paths that run no Python code (un-attached extern "Python", failed
   cache update) it is the C errno before the call; the Python code observes the caller's errno *)
Theorem C22_gen_cb_paths_semantics : forall p, In p cb_paths -> forall nz body s, end_mode Py body = Some Py ->
  cerr (fst (exec_evs p nz body s)) = (if has_invoke p then spec_final (cerr s) body else cerr s) /\
  saved (fst (exec_evs p nz body s)) = cerr (fst (exec_evs p nz body s)) /\
  snd (exec_evs p nz body s) = (if has_invoke p then spec_run (cerr s) body else []).
Proof. intros. apply cb_path_semantics; [apply cb_paths_ok|]; assumption. Qed.
Print Assumptions C22_gen_cb_paths_semantics.

(* refinement: every path, executed statement by statement, is the abstract pair OCbEnter / OCbExit around
   the Python-side activity (noise included as OClobber) that the thread theorems speak about *)
Theorem C22_gen_cb_paths_are_the_model : forall p, In p cb_paths -> forall nz body s,
  exists mid, p = VSave :: mid ++ [VRestore] /\
    exec_evs p nz body s = run1 s (OCbEnter :: inner_ops mid nz body ++ [OCbExit]).
Proof. intros. apply cb_path_is_the_model. apply cb_paths_ok. assumption. Qed.
Print Assumptions C22_gen_cb_paths_are_the_model.

(* what runs inside CInvoke: general_invoke_callback (with its error: path — traceback / onerror) contains
   no save_errno/restore_errno/errno of its own and is called from nowhere else *)
Theorem C22_gen_general_invoke_callback :
  gen_general_invoke_callback_leaves_bracket_alone = true /\
  gen_general_invoke_callback_only_called_inside_brackets = true.
Proof. split; reflexivity. Qed.
Print Assumptions C22_gen_general_invoke_callback.

(* non-vacuity: there are paths with and without Python code, e.g. the un-attached one *)
Example C22_cb_paths_nonvacuous :
  existsb has_invoke cb_paths = true /\ existsb (fun p => negb (has_invoke p)) cb_paths = true /\
  In [VSave; VNoise NReport; VNoise NMemset; VRestore] cb_paths /\
  fst (exec_evs [VSave; VNoise NReport; VNoise NMemset; VRestore] [25; 0] [] (mkTs 11 5)) = mkTs 11 11.
Proof. repeat split; vm_compute; auto 10. Qed.

(* observations and final logical errno of any well-bracketed activity are those of the one-cell spec *)
Theorem C22_refines_final : forall ops m s z m',
  end_mode m ops = Some m' ->
  (m = Py -> saved s = z) -> (m = InC -> cerr s = z) ->
  snd (run1 s ops) = spec_run z ops /\
  (m' = Py -> saved (fst (run1 s ops)) = spec_final z ops) /\
  (m' = InC -> cerr (fst (run1 s ops)) = spec_final z ops).
Proof.
  intros ops m s z m' E Hp Hc. assert (Z : cell m s = z) by (destruct m; auto). subst z.
  destruct (refines_final_any_mode ops m s m' E) as [A B]. split; [exact A|]. split; intros ->; exact B.
Qed.
Print Assumptions C22_refines_final.

(* threads created by C code (pthread_create inside a C function called through cffi: they never held the
   GIL and start their life in C with errno = 0) that call back into Python: same statement *)
Theorem C22_c_threads_refine_spec : forall (sch : list (nat * op)) (t : nat),
  wf InC (ops_of t sch) = true ->
  obs_of t (snd (crun false cs0 sch)) = spec_run 0 (ops_of t sch).
Proof. intros sch t. exact (threads_refine_spec_from InC cs0 sch t). Qed.
Print Assumptions C22_c_threads_refine_spec.

(* ---- statement-level refinement (C22/Micro.v).  The four call paths of the property are NOT collapsed
   here: a thread's program names, operation by operation, the code path taken — ffi.errno get/set
   (bodies of b_get_errno / b_set_errno), C call through b_call (PAbi), through a generated API-mode
   wrapper (PApi), fetch of a global through its accessor (PGlob), callback through any syntactic path
   of cffi_call_python / invoke_callback split at the Python code, or a whole path without Python code
   (un-attached extern "Python") — and `micro` expands it into the REGENERATED statements of that
   path.  For ANY number of threads (thread ids are `nat`), ANY interleaving `msch` of the threads'
   statements (between any two statements: finer than the GIL allows), every thread t whose statements
   are those of a program `prog t` made of existing path pieces (kvalid) and well-bracketed observes
   exactly the one-cell specification of C22/Spec.v on the abstract reading of its program.
   Hypothesis as before: errno and cffi_saved_errno are per-thread cells. *)
Theorem C22_statement_level_threads_refine_spec :
  forall (msch : list (nat * mstep)) (prog : nat -> list kop) (t : nat),
  gops_of t msch = flat_map micro (prog t) ->
  forallb kvalid (prog t) = true ->
  wf Py (flat_map abs (prog t)) = true ->
  obs_of t (snd (gcrun mstep1 cs0 msch)) = spec_run 0 (flat_map abs (prog t)).
Proof. intros msch prog t. exact (statement_level_refine_spec_from Py cs0 msch prog t). Qed.
Print Assumptions C22_statement_level_threads_refine_spec.

(* the same for threads that C code creates (they start in C) *)
Theorem C22_statement_level_c_threads_refine_spec :
  forall (msch : list (nat * mstep)) (prog : nat -> list kop) (t : nat),
  gops_of t msch = flat_map micro (prog t) ->
  forallb kvalid (prog t) = true ->
  wf InC (flat_map abs (prog t)) = true ->
  obs_of t (snd (gcrun mstep1 cs0 msch)) = spec_run 0 (flat_map abs (prog t)).
Proof. intros msch prog t. exact (statement_level_refine_spec_from InC cs0 msch prog t). Qed.
Print Assumptions C22_statement_level_c_threads_refine_spec.

(* thread-locality holds for ANY per-thread step function, any number of threads, any schedule *)
Theorem C22_noninterference_generic : forall (A : Type) (step : ts -> A -> ts * option obs) sch st t,
  obs_of t (snd (gcrun step st sch)) = snd (grun1 step (view false st t) (gops_of t sch)).
Proof. exact @g_noninterference_from. Qed.
Print Assumptions C22_noninterference_generic.

(* each operation expanded into the regenerated statements of its path IS the abstract operation *)
Theorem C22_statements_are_the_model : forall k s, kvalid k = true ->
  grun1 mstep1 s (micro k) = run1 s (abs k).
Proof. exact micro_is_abs. Qed.
Print Assumptions C22_statements_are_the_model.

(* non-vacuity: a program through each of the three outgoing paths with an attached and an un-attached
   callback is valid, well-bracketed, and observes what the property says *)
Example C22_statement_level_nonvacuous : forall c,
  forallb kvalid (demo_prog c) = true /\ wf Py (flat_map abs (demo_prog c)) = true /\
  snd (grun1 mstep1 ts0 (flat_map micro (demo_prog c))) = [ObsVal 5; ObsVal 11; ObsVal 12; ObsVal 21; ObsVal 21].
Proof. intros []; repeat split; vm_compute; reflexivity. Qed.

(* the hypothesis is needed: the same code with one process-wide saved cell is not isolated *)
Theorem C22_shared_saved_refuted :
  obs_of 0 (snd (crun true cs0 witness_sched)) <> snd (run1 ts0 (ops_of 0 witness_sched)).
Proof. vm_compute. discriminate. Qed.
Print Assumptions C22_shared_saved_refuted.

(* non-vacuity: a noisy two-thread schedule with a callback *)
Example C22_example :
  run_sched false 2
    [(0%nat, (0, 5)); (1%nat, (0, 7)); (0%nat, (2, 99)); (0%nat, (3, 0)); (0%nat, (5, 0)); (1%nat, (1, 0));
     (0%nat, (4, 11)); (0%nat, (7, 0)); (0%nat, (1, 0)); (1%nat, (0, 8)); (0%nat, (0, 12)); (0%nat, (8, 0));
     (0%nat, (5, 0)); (0%nat, (6, 0)); (0%nat, (1, 0)); (1%nat, (1, 0))]
  = [[5; 11; 12; 12]; [7; 8]].
Proof. vm_compute. reflexivity. Qed.
