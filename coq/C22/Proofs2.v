(* C22 — proofs, part 2: the control flow of the callback brackets (regenerated) and
   what one path of a bracket does to errno; threads that start their life in C. *)
From Coq Require Import ZArith List Bool Arith Lia.
Import ListNotations.
From Cffi Require Import C22.Model C22.Spec C22.Gen C22.Proofs.
Open Scope Z_scope.

Lemma end_mode_wf : forall ops m m', end_mode m ops = Some m' -> wf m ops = true.
Proof.
  induction ops as [|o ops IH]; intros m m' H; [reflexivity|].
  destruct m, o; cbn [end_mode wf] in *; try discriminate; eauto.
Qed.

Lemma end_mode_app : forall a b m m1, end_mode m a = Some m1 -> end_mode m (a ++ b) = end_mode m1 b.
Proof.
  induction a as [|o a IH]; intros b m m1 H.
  - cbn in H. inversion H. reflexivity.
  - destruct m, o; cbn [end_mode app] in *; try discriminate; eauto.
Qed.

(* a thread created by C code starts in C: it also observes one logical errno, the C errno it starts with *)
Lemma refines_spec_inC : forall ops s, wf InC ops = true -> snd (run1 s ops) = spec_run (cerr s) ops.
Proof. intros ops s. exact (refines_spec_any_mode ops InC s). Qed.

Lemma cb_path_ok_shape : forall p, cb_path_ok p = true ->
  exists mid, p = VSave :: mid ++ [VRestore] /\ forallb is_touch mid = true /\ (count_invoke mid <= 1)%nat.
Proof.
  intros p H. destruct p as [|[| | |k] rest]; cbn [cb_path_ok] in H; try discriminate.
  destruct (rev rest) as [|[| | |k] rmid] eqn:E; try discriminate.
  apply andb_true_iff in H. destruct H as [H1 H2].
  exists (rev rmid). split; [|split].
  - f_equal. rewrite <- (rev_involutive rest). rewrite E. reflexivity.
  - rewrite forallb_forall in *. intros x Hx. apply H1. apply in_rev. assumption.
  - apply Nat.leb_le in H2. unfold count_invoke in *.
    assert (L : forall l, length (filter is_invoke (rev l)) = length (filter is_invoke l)).
    { induction l as [|a l IHl]; [reflexivity|]. cbn [rev]. rewrite filter_app, app_length, IHl. cbn [filter].
      destruct (is_invoke a); cbn [length]; lia. }
    rewrite L. assumption.
Qed.

Lemma exec_mid_restore : forall mid nz body s, forallb is_touch mid = true ->
  exec_evs (mid ++ [VRestore]) nz body s = run1 s (inner_ops mid nz body ++ [OCbExit]).
Proof.
  induction mid as [|e mid IH]; intros nz body s H.
  - cbn. reflexivity.
  - cbn [forallb] in H. apply andb_true_iff in H. destruct H as [He H].
    destruct e; cbn [is_touch] in He; try discriminate; cbn [app exec_evs inner_ops].
    + (* VInvoke *) rewrite <- app_assoc. rewrite (run1_app body).
      destruct (run1 s body) as [s1 o1]. cbn [fst snd]. rewrite IH by assumption.
      destruct (run1 s1 (inner_ops mid nz body ++ [OCbExit])); reflexivity.
    + (* VNoise *) rewrite IH by assumption. rewrite run1_cons. cbn [step1 fst snd].
      destruct (run1 _ _); reflexivity.
Qed.

(* each path with the right shape IS the abstract callback: OCbEnter, Python-side activity, OCbExit *)
Lemma exec_bracket : forall mid nz body s, forallb is_touch mid = true ->
  exec_evs (VSave :: mid ++ [VRestore]) nz body s = run1 s (OCbEnter :: inner_ops mid nz body ++ [OCbExit]).
Proof.
  intros mid nz body s Ht.
  cbn [exec_evs]. rewrite exec_mid_restore by assumption. rewrite run1_cons. cbn [step1 fst snd].
  unfold save_fn. destruct (run1 _ _); reflexivity.
Qed.

Lemma cb_path_is_the_model : forall p nz body s, cb_path_ok p = true ->
  exists mid, p = VSave :: mid ++ [VRestore] /\
    exec_evs p nz body s = run1 s (OCbEnter :: inner_ops mid nz body ++ [OCbExit]).
Proof.
  intros p nz body s H. destruct (cb_path_ok_shape p H) as (mid & -> & Ht & _).
  exists mid. split; [reflexivity | apply exec_bracket, Ht].
Qed.

Lemma inner_ops_end : forall mid nz body, forallb is_touch mid = true ->
  end_mode Py body = Some Py -> end_mode Py (inner_ops mid nz body) = Some Py.
Proof.
  induction mid as [|e mid IH]; intros nz body H Hb; [reflexivity|].
  cbn [forallb] in H. apply andb_true_iff in H. destruct H as [He H].
  destruct e; cbn [is_touch] in He; try discriminate; cbn [inner_ops].
  - rewrite (end_mode_app body _ Py Py) by assumption. apply IH; assumption.
  - cbn [end_mode]. apply IH; assumption.
Qed.

Lemma has_invoke_count : forall mid, has_invoke mid = negb (count_invoke mid =? 0)%nat.
Proof.
  induction mid as [|e mid IH]; [reflexivity|].
  unfold has_invoke, count_invoke in *. cbn [existsb filter]. destruct (is_invoke e); cbn [orb length]; [reflexivity|exact IH].
Qed.

Lemma spec_final_app : forall a b z, spec_final z (a ++ b) = spec_final (spec_final z a) b.
Proof. induction a as [|o a IH]; intros; [reflexivity|]. cbn [app spec_final]. apply IH. Qed.
Lemma spec_run_app : forall a b z, spec_run z (a ++ b) = spec_run z a ++ spec_run (spec_final z a) b.
Proof.
  induction a as [|o a IH]; intros; [reflexivity|]. cbn [app spec_run spec_final].
  destruct (spec_step z o) as [z1 [x|]]; cbn [fst]; rewrite IH; reflexivity.
Qed.

Lemma inner_ops_spec : forall mid nz body z, forallb is_touch mid = true -> (count_invoke mid <= 1)%nat ->
  spec_final z (inner_ops mid nz body) = (if has_invoke mid then spec_final z body else z) /\
  spec_run z (inner_ops mid nz body) = (if has_invoke mid then spec_run z body else []).
Proof.
  induction mid as [|e mid IH]; intros nz body z H Hc; [split; reflexivity|].
  cbn [forallb] in H. apply andb_true_iff in H. destruct H as [He H].
  destruct e; cbn [is_touch] in He; try discriminate.
  - (* VInvoke: no further invoke in mid *)
    unfold count_invoke in Hc. cbn [filter is_invoke length] in Hc.
    assert (Hz : count_invoke mid = 0%nat) by (unfold count_invoke; lia).
    assert (Hn : has_invoke mid = false) by (rewrite has_invoke_count, Hz; reflexivity).
    cbn [inner_ops]. unfold has_invoke. cbn [existsb is_invoke orb].
    rewrite spec_final_app, spec_run_app.
    destruct (IH nz body (spec_final z body) H) as [A B]; [lia|]. rewrite Hn in A, B. rewrite A, B, app_nil_r. split; reflexivity.
  - (* VNoise *)
    cbn [inner_ops spec_final spec_run spec_step fst]. unfold has_invoke. cbn [existsb is_invoke orb]. fold (has_invoke mid).
    apply IH; [assumption|]. unfold count_invoke in *. cbn [filter is_invoke] in Hc. assumption.
Qed.

Lemma has_invoke_bracket : forall mid, has_invoke (VSave :: mid ++ [VRestore]) = has_invoke mid.
Proof.
  intros. unfold has_invoke. cbn [existsb is_invoke orb]. rewrite existsb_app. cbn. rewrite orb_false_r. reflexivity.
Qed.

(* THE statement about one path: whatever the noise statements leave in errno, the C-level errno after
   the function equals the logical errno at the end of the callback's Python code started from the C
   errno before the call — and on a path that runs no Python code, the C errno before the call; the
   Python code observes exactly the one-cell specification started from the caller's errno *)
Lemma cb_path_semantics : forall p nz body s, cb_path_ok p = true -> end_mode Py body = Some Py ->
  cerr (fst (exec_evs p nz body s)) = (if has_invoke p then spec_final (cerr s) body else cerr s) /\
  saved (fst (exec_evs p nz body s)) = cerr (fst (exec_evs p nz body s)) /\
  snd (exec_evs p nz body s) = (if has_invoke p then spec_run (cerr s) body else []).
Proof.
  intros p nz body s H Hb.
  destruct (cb_path_ok_shape p H) as (mid & -> & Ht & Hc).
  rewrite (exec_bracket mid nz body s Ht), has_invoke_bracket.
  set (ops := OCbEnter :: inner_ops mid nz body ++ [OCbExit]).
  assert (Hend : end_mode InC ops = Some InC).
  { unfold ops. cbn [end_mode]. rewrite (end_mode_app _ _ Py Py) by (apply inner_ops_end; assumption). reflexivity. }
  destruct (refines_final_any_mode ops InC s InC Hend) as (A & C). cbn [cell] in A, C.
  destruct (inner_ops_spec mid nz body (cerr s) Ht Hc) as [F G].
  assert (SF : spec_final (cerr s) ops = spec_final (cerr s) (inner_ops mid nz body)).
  { unfold ops. cbn [spec_final spec_step fst]. rewrite spec_final_app. reflexivity. }
  assert (SR : spec_run (cerr s) ops = spec_run (cerr s) (inner_ops mid nz body)).
  { unfold ops. cbn [spec_run spec_step]. rewrite spec_run_app. cbn. apply app_nil_r. }
  split; [|split].
  - rewrite C, SF, F. reflexivity.
  - unfold ops. rewrite app_comm_cons. rewrite run1_snoc. cbn [step1 fst]. reflexivity.
  - rewrite A, SR, G. reflexivity.
Qed.

Lemma gen_call_python_paths_ok : forallb cb_path_ok (cfg_paths gen_call_python_cfg) = true.
Proof. vm_compute. reflexivity. Qed.
Lemma gen_invoke_callback_paths_ok : forallb cb_path_ok (cfg_paths gen_invoke_callback_cfg) = true.
Proof. vm_compute. reflexivity. Qed.
Definition cb_paths : list (list ev) := cfg_paths gen_call_python_cfg ++ cfg_paths gen_invoke_callback_cfg.

Lemma cb_paths_ok : forall p, In p cb_paths -> cb_path_ok p = true.
Proof.
  intros p H. unfold cb_paths in H. apply in_app_or in H. destruct H as [H|H].
  - exact (proj1 (forallb_forall _ _) gen_call_python_paths_ok p H).
  - exact (proj1 (forallb_forall _ _) gen_invoke_callback_paths_ok p H).
Qed.

