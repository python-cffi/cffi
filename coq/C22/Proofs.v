(* C22 — proofs, part 1: frame lemmas of the per-thread cells, invisibility of the interpreter's
   clobbering, refinement of the one-cell specification from either mode, the two brackets of Model.v as operations. *)
From Coq Require Import ZArith List Bool Arith Lia.
Import ListNotations.
From Cffi Require Import C22.Model C22.Spec C22.Gen.
Open Scope Z_scope.

Lemma upd_same f t v : upd f t v t = v.
Proof. unfold upd. rewrite Nat.eqb_refl. reflexivity. Qed.
Lemma upd_other f t v t' : t' <> t -> upd f t v t' = f t'.
Proof. intros H. unfold upd. destruct (Nat.eqb_spec t' t); congruence. Qed.

Lemma view_put_same st t s : view false (put false st t s) t = s.
Proof. unfold view, put; cbn. rewrite !upd_same. destruct s; reflexivity. Qed.
Lemma view_put_other st t s t' : t' <> t -> view false (put false st t s) t' = view false st t'.
Proof. intros H. unfold view, put; cbn. rewrite !upd_other by assumption. reflexivity. Qed.

Lemma run1_cons s o rest :
  run1 s (o :: rest) =
  (fst (run1 (fst (step1 s o)) rest),
   match snd (step1 s o) with Some x => x :: snd (run1 (fst (step1 s o)) rest) | None => snd (run1 (fst (step1 s o)) rest) end).
Proof. cbn [run1]. destruct (step1 s o) as [s1 ob]. cbn [fst snd]. destruct (run1 s1 rest) as [s2 obl]. reflexivity. Qed.

(* the cell that carries the thread's logical errno in mode m: cffi's saved copy while the thread runs
   Python, the C errno while it runs C *)
Definition cell (m : mode) (s : ts) : Z := match m with Py => saved s | InC => cerr s end.

(* while the thread runs Python the C errno is dead: every crossing into C overwrites it from the saved copy *)
Lemma noise_irrelevant_any_mode : forall ops m s s',
  wf m ops = true ->
  saved s = saved s' -> cell m s = cell m s' ->
  snd (run1 s ops) = snd (run1 s' (erase ops)).
Proof.
  induction ops as [|o ops IH]; intros m s s' Hwf Hs Hc; [reflexivity|].
  destruct s as [e sv], s' as [e' sv']. cbn in Hs. subst sv'.
  destruct m, o; cbn [wf] in Hwf; try discriminate; unfold erase; cbn [filter is_clobber negb]; fold (erase ops);
    cbn [cell saved cerr] in Hc; try subst e';
    rewrite !run1_cons; cbn [step1 saved cerr]; try destruct (in_int v); cbn [fst snd];
    try apply (f_equal (cons _)); eapply IH; eauto.
Qed.

Lemma wf_end_mode : forall ops m, wf m ops = true -> exists m', end_mode m ops = Some m'.
Proof.
  induction ops as [|o ops IH]; intros m H; [exists m; reflexivity|].
  destruct m, o; cbn [end_mode wf] in *; try discriminate; eauto.
Qed.

(* the two-cell implementation refines the one-cell specification started from that cell: observations
   and, where the operations end, the cell of the mode they end in *)
Lemma refines_final_any_mode : forall ops m s m',
  end_mode m ops = Some m' ->
  snd (run1 s ops) = spec_run (cell m s) ops /\ cell m' (fst (run1 s ops)) = spec_final (cell m s) ops.
Proof.
  induction ops as [|o ops IH]; intros m s m' Hend.
  - cbn in Hend. injection Hend as <-. cbn. auto.
  - destruct s as [e sv].
    destruct m, o; cbn [end_mode] in Hend; try discriminate;
      rewrite run1_cons; cbn [step1 spec_run spec_final spec_step cell saved cerr fst snd];
      try destruct (in_int v); cbn [fst snd];
      (edestruct IH as (A & B); [exact Hend|]); rewrite A; cbn [cell saved cerr] in *; auto.
Qed.

Lemma refines_spec_any_mode : forall ops m s,
  wf m ops = true -> snd (run1 s ops) = spec_run (cell m s) ops.
Proof.
  intros ops m s W. destruct (wf_end_mode ops m W) as [m' E].
  exact (proj1 (refines_final_any_mode ops m s m' E)).
Qed.

Lemma refines_spec : forall ops s, wf Py ops = true -> snd (run1 s ops) = spec_run (saved s) ops.
Proof. intros ops s. exact (refines_spec_any_mode ops Py s). Qed.

Lemma law_get_twice : forall s, snd (run1 s [OGet; OGet]) = [ObsVal (saved s); ObsVal (saved s)].
Proof. intros. reflexivity. Qed.

Lemma run1_app : forall a b s,
  run1 s (a ++ b) = (fst (run1 (fst (run1 s a)) b), snd (run1 s a) ++ snd (run1 (fst (run1 s a)) b)).
Proof.
  induction a as [|o a IH]; intros b s.
  - cbn. destruct (run1 s b); reflexivity.
  - rewrite <- app_comm_cons. rewrite !run1_cons. rewrite IH. cbn [fst snd].
    destruct (snd (step1 s o)); reflexivity.
Qed.

Lemma run1_snoc : forall body s o,
  run1 s (body ++ [o]) =
  (fst (step1 (fst (run1 s body)) o),
   snd (run1 s body) ++ match snd (step1 (fst (run1 s body)) o) with Some x => [x] | None => [] end).
Proof.
  intros. rewrite run1_app. cbn [run1]. destruct (step1 (fst (run1 s body)) o) as [s1 [x|]]; reflexivity.
Qed.

Lemma exec_call_bracket : forall body s,
  exec_path call_bracket body s = run1 s (OCallEnter :: body ++ [OCallExit]).
Proof.
  intros. unfold call_bracket. cbn [exec_path]. rewrite run1_cons. cbn [step1 fst snd]. fold (restore_fn s).
  rewrite run1_snoc. cbn [step1 fst snd]. destruct (run1 (restore_fn s) body) as [s1 o1]. cbn [fst snd].
  unfold save_fn. reflexivity.
Qed.

Lemma exec_cb_bracket : forall body s,
  exec_path cb_bracket body s = run1 s (OCbEnter :: body ++ [OCbExit]).
Proof.
  intros. unfold cb_bracket. cbn [exec_path]. rewrite run1_cons. cbn [step1 fst snd]. fold (save_fn s).
  rewrite run1_snoc. cbn [step1 fst snd]. destruct (run1 (save_fn s) body) as [s1 o1]. cbn [fst snd].
  unfold restore_fn. reflexivity.
Qed.

(* the schedule of C22_shared_saved_refuted: thread 1 sets errno between thread 0's set and its C call *)
Definition witness_sched : list (nat * op) :=
  [(0%nat, OSet 5); (1%nat, OSet 7); (0%nat, OCallEnter); (0%nat, OCRead); (0%nat, OCallExit)].
