(* C22 — proofs, part 3: the statement-level N-thread system refines the one-cell specification *)
From Coq Require Import ZArith List Bool Arith Lia.
Import ListNotations.
From Cffi Require Import C22.Model C22.Spec C22.Gen C22.Proofs C22.Proofs2 C22.Micro.
Open Scope Z_scope.

Section Generic.
  Context {A : Type} (step : ts -> A -> ts * option obs).

  Lemma grun1_cons s a rest :
    grun1 step s (a :: rest) =
    (fst (grun1 step (fst (step s a)) rest),
     match snd (step s a) with
     | Some x => x :: snd (grun1 step (fst (step s a)) rest)
     | None => snd (grun1 step (fst (step s a)) rest) end).
  Proof. cbn [grun1]. destruct (step s a) as [s1 ob]. cbn [fst snd]. destruct (grun1 step s1 rest). reflexivity. Qed.

  Lemma grun1_app : forall a b s,
    grun1 step s (a ++ b) =
    (fst (grun1 step (fst (grun1 step s a)) b), snd (grun1 step s a) ++ snd (grun1 step (fst (grun1 step s a)) b)).
  Proof.
    induction a as [|o a IH]; intros b s.
    - cbn. destruct (grun1 step s b); reflexivity.
    - rewrite <- app_comm_cons. rewrite !grun1_cons. rewrite IH. cbn [fst snd].
      destruct (snd (step s o)); reflexivity.
  Qed.

  (* thread-locality for ANY step function on the per-thread cells, any number of threads, any schedule *)
  Lemma g_noninterference_from : forall sch st t,
    obs_of t (snd (gcrun step st sch)) = snd (grun1 step (view false st t) (gops_of t sch)).
  Proof.
    induction sch as [|[t' o] sch IH]; intros st t.
    - reflexivity.
    - cbn [gcrun]. destruct (step (view false st t') o) as [s' ob] eqn:E.
      specialize (IH (put false st t' s') t).
      destruct (gcrun step (put false st t' s') sch) as [st2 obl] eqn:E2. cbn [snd] in *.
      unfold gops_of in *. cbn [filter fst]. destruct (Nat.eqb_spec t' t) as [->|Hne].
      + cbn [map snd]. rewrite grun1_cons. rewrite E. cbn [fst snd].
        rewrite view_put_same in IH.
        destruct ob; unfold obs_of in *; cbn [filter fst snd map]; rewrite ?Nat.eqb_refl; cbn [map snd]; rewrite IH; reflexivity.
      + rewrite view_put_other in IH by congruence.
        destruct ob; unfold obs_of in *; cbn [filter fst snd map];
          rewrite ?(proj2 (Nat.eqb_neq t' t)) by assumption; exact IH.
  Qed.
End Generic.

Lemma crun_gcrun : forall sch st, crun false st sch = gcrun step1 st sch.
Proof.
  induction sch as [|[t o] sch IH]; intros st; [reflexivity|].
  cbn [crun gcrun]. unfold cstep. destruct (step1 (view false st t) o) as [s' ob]. rewrite IH. reflexivity.
Qed.

(* non-interference for the abstract operations: under ANY schedule over ANY number of threads,
   thread t observes exactly what its own operations produce when run alone from its own cells
   ([run1] and [ops_of] are [grun1 step1] and [gops_of] up to conversion) *)
Lemma noninterference_from : forall sch st t,
  obs_of t (snd (crun false st sch)) = snd (run1 (view false st t) (ops_of t sch)).
Proof. intros. rewrite crun_gcrun. apply (g_noninterference_from step1). Qed.

(* one logical errno per thread, from any state: a thread whose operations are well-bracketed from mode m observes
   the one-cell specification started from what its cell of that mode holds *)
Lemma threads_refine_spec_from m st sch t : wf m (ops_of t sch) = true ->
  obs_of t (snd (crun false st sch)) = spec_run (cell m (view false st t)) (ops_of t sch).
Proof. intros W. rewrite noninterference_from. apply refines_spec_any_mode, W. Qed.

Lemma gen_pres_ok : forallb pre_ok cb_pres = true.
Proof. vm_compute. reflexivity. Qed.
Lemma gen_posts_ok : forallb post_ok cb_posts = true.
Proof. vm_compute. reflexivity. Qed.
Lemma gen_nopy_ok : forallb nopy_ok cb_nopy = true.
Proof. vm_compute. reflexivity. Qed.

Lemma ev_eqb_eq : forall a b, ev_eqb a b = true -> a = b.
Proof. intros [| | |[]] [| | |[]] H; cbn in H; try discriminate; reflexivity. Qed.
Lemma evs_eqb_eq : forall a b, evs_eqb a b = true -> a = b.
Proof.
  induction a as [|x a IH]; intros [|y b] H; cbn in H; try discriminate; [reflexivity|].
  apply andb_true_iff in H. destruct H as [H1 H2]. f_equal; [apply ev_eqb_eq|apply IH]; assumption.
Qed.
Lemma existsb_eqb_in : forall p l, existsb (evs_eqb p) l = true -> In p l.
Proof.
  intros p l H. apply existsb_exists in H. destruct H as (q & Hq & E). apply evs_eqb_eq in E. subst. assumption.
Qed.
(* a path that the table lists has what was checked of every path of the table *)
Lemma listed_path_ok : forall f l p, forallb f l = true -> existsb (evs_eqb p) l = true -> f p = true.
Proof. intros f l p F H. exact (proj1 (forallb_forall _ _) F p (existsb_eqb_in p l H)). Qed.

Lemma noise_run : forall ns nz s, forallb is_noise ns = true ->
  grun1 mstep1 s (m_of_evs ns nz) = run1 s (clob ns nz).
Proof.
  induction ns as [|e ns IH]; intros nz s H; [reflexivity|].
  cbn [forallb] in H. apply andb_true_iff in H. destruct H as [He H].
  destruct e; cbn [is_noise] in He; try discriminate.
  cbn [m_of_evs clob]. rewrite grun1_cons, run1_cons. cbn [mstep1 step1 fst snd]. rewrite IH by assumption. reflexivity.
Qed.

Lemma m_of_evs_app_restore : forall ns nz, forallb is_noise ns = true ->
  m_of_evs (ns ++ [VRestore]) nz = m_of_evs ns nz ++ [MRestore] /\ clob (ns ++ [VRestore]) nz = clob ns nz.
Proof.
  induction ns as [|e ns IH]; intros nz H; [split; reflexivity|].
  cbn [forallb] in H. apply andb_true_iff in H. destruct H as [He H].
  destruct e; cbn [is_noise] in He; try discriminate.
  cbn [app m_of_evs clob]. destruct (IH (tl nz) H) as [A B]. rewrite A, B. split; reflexivity.
Qed.

Lemma post_ok_shape : forall p, post_ok p = true -> exists ns, p = ns ++ [VRestore] /\ forallb is_noise ns = true.
Proof.
  intros p H. unfold post_ok in H. destruct (rev p) as [|[| | |k] r] eqn:E; try discriminate.
  exists (rev r). split.
  - rewrite <- (rev_involutive p), E. reflexivity.
  - rewrite forallb_forall in *. intros x Hx. apply H. apply in_rev. assumption.
Qed.

Lemma post_run : forall p nz s, post_ok p = true ->
  grun1 mstep1 s (m_of_evs p nz) = run1 s (clob p nz ++ [OCbExit]).
Proof.
  intros p nz s H. destruct (post_ok_shape p H) as (ns & -> & Hn).
  destruct (m_of_evs_app_restore ns nz Hn) as [A B]. rewrite A, B.
  rewrite grun1_app, run1_app. rewrite noise_run by assumption.
  cbn [grun1 run1 mstep1 step1 fst snd]. rewrite app_nil_r.
  destruct (run1 s (clob ns nz)) as [s1 o1]. cbn [fst snd]. unfold restore_fn. reflexivity.
Qed.

Lemma pre_run : forall p nz s, pre_ok p = true ->
  grun1 mstep1 s (m_of_evs p nz) = run1 s (OCbEnter :: clob p nz).
Proof.
  intros p nz s H. destruct p as [|[| | |k] r]; cbn [pre_ok] in H; try discriminate.
  cbn [m_of_evs clob]. rewrite grun1_cons, run1_cons. cbn [mstep1 step1 fst snd]. rewrite noise_run by assumption.
  unfold save_fn. reflexivity.
Qed.

Lemma nopy_run : forall p nz s, nopy_ok p = true ->
  grun1 mstep1 s (m_of_evs p nz) = run1 s (OCbEnter :: clob p nz ++ [OCbExit]).
Proof.
  intros p nz s H. destruct p as [|[| | |k] r]; cbn [nopy_ok] in H; try discriminate.
  cbn [m_of_evs clob]. rewrite grun1_cons, run1_cons. cbn [mstep1 step1 fst snd]. rewrite post_run by assumption.
  unfold save_fn. reflexivity.
Qed.

Lemma micro_is_abs : forall k s, kvalid k = true -> grun1 mstep1 s (micro k) = run1 s (abs k).
Proof.
  intros k s Hv. destruct k; cbn [micro abs].
  - (* KSet *) change ((fst gen_set_errno_range <=? v) && (v <=? snd gen_set_errno_range)) with (in_int v).
    cbn [run1 step1]. destruct (in_int v); reflexivity.
  - reflexivity.
  - reflexivity.
  - reflexivity.
  - reflexivity.
  - destruct c; reflexivity.
  - destruct c; reflexivity.
  - apply pre_run. cbn [kvalid] in Hv. exact (listed_path_ok pre_ok cb_pres _ gen_pres_ok Hv).
  - apply post_run. cbn [kvalid] in Hv. exact (listed_path_ok post_ok cb_posts _ gen_posts_ok Hv).
  - apply nopy_run. cbn [kvalid] in Hv. exact (listed_path_ok nopy_ok cb_nopy _ gen_nopy_ok Hv).
Qed.

Lemma micro_prog_is_abs : forall ks s, forallb kvalid ks = true ->
  grun1 mstep1 s (flat_map micro ks) = run1 s (flat_map abs ks).
Proof.
  induction ks as [|k ks IH]; intros s H; [reflexivity|].
  cbn [forallb] in H. apply andb_true_iff in H. destruct H as [Hk H].
  cbn [flat_map]. rewrite grun1_app, run1_app. rewrite micro_is_abs by assumption. rewrite IH by assumption. reflexivity.
Qed.

(* the same at the level of statements: any interleaving of the statements of programs made of existing path pieces *)
Lemma statement_level_refine_spec_from m st (msch : list (nat * mstep)) (prog : nat -> list kop) t :
  gops_of t msch = flat_map micro (prog t) -> forallb kvalid (prog t) = true ->
  wf m (flat_map abs (prog t)) = true ->
  obs_of t (snd (gcrun mstep1 st msch)) = spec_run (cell m (view false st t)) (flat_map abs (prog t)).
Proof.
  intros Hops Hv W. rewrite g_noninterference_from, Hops, micro_prog_is_abs by assumption.
  apply refines_spec_any_mode, W.
Qed.

(* a program that takes every kind of statement-level step, with call path c
   (C22_statement_level_nonvacuous) *)
Definition demo_prog (c : callpath) : list kop :=
  [KSet 5; KClobber 99; KCallEnter c; KCRead; KCSet 11;
   KCbEnter [VSave; VNoise NGilEnsure] [7]; KGet; KSet 12; KCbExit [VNoise NGilRelease; VRestore] [8];
   KCRead; KCSet 21; KCbNoPy [VSave; VNoise NReport; VNoise NMemset; VRestore] [25; 0]; KCRead;
   KCallExit c; KClobber 3; KGet].
