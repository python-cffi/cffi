(* C04 — ffi.cast to integer and character types follows C conversion rules.

   T: target ctype of cast_to_integer_or_char (signed / unsigned / _Bool / char-like, 1..8 bytes;
   a signed wchar_t is 4 bytes).  s: any source — a Python int of any magnitude (bool = 0/1), any
   finite float m*2^e, a 1-byte bytes, a one-character str, the address of a pointer/array/function
   cdata.  `reduce sg bits z` (C04/Spec.v) is C's conversion result: the unique value of the
   target's range congruent to z modulo 2^bits (C04_reduce_canonical). *)
From Coq Require Import ZArith List Bool Lia.
From Cffi Require Import C03.Mem C03.Store C03.StoreProofs.
From Cffi Require Import C04.Spec C04.IR C04.Gen C04.Model C04.Interp C04.Proofs C04.GenProofs C04.Proofs2.
Import ListNotations.
Open Scope Z_scope.

(* int(ffi.cast(T, x)) = x truncated toward zero (code point / address), reduced modulo
   2^(8 sizeof T) into T's signed or unsigned range.  Reading for the character types: cffi's
   `char`, char16_t, char32_t are unsigned code units (int(ffi.cast("char", -1)) == 255, as
   cffi documents and its own tests assert); wchar_t has the platform's signedness. *)
Theorem C04_cast_exact : forall T s, valid_src s -> wf_cty T -> ckind T <> KBool ->
  int_of_cast T s = COk (reduce (tsigned T) (8 * Z.of_nat (csize T)) (src_value s)).
Proof.
  intros T s Hv Hwf Hk. destruct (cast_value_mod T s Hv Hwf Hk) as [z [Ez Er]].
  rewrite <- Er. destruct Hwf as [Hs [Hw _]].
  unfold int_of_cast, cast_bytes, cdata_int, tsigned. rewrite Ez.
  destruct (ckind T) eqn:K; try congruence; f_equal.
  - apply read_signed_write_any; assumption.
  - apply read_unsigned_write_any; lia.
  - destruct signed_wchar.
    + rewrite (Hw eq_refl). cbn [andb Nat.eqb]. apply read_signed_write_any; lia.
    + cbn [andb]. apply read_unsigned_write_any; lia.
Qed.
Print Assumptions C04_cast_exact.

(* _Bool: 0/1 by non-zeroness of x itself (0.5 gives 1 although it truncates to 0) *)
Theorem C04_cast_bool : forall T s, valid_src s -> (1 <= csize T <= 8)%nat -> ckind T = KBool ->
  int_of_cast T s = COk (if src_nonzero s then 1 else 0).
Proof.
  intros T s Hv Hs K. destruct (bool_value_nonzero T s Hv K) as [z [Ez En]].
  unfold int_of_cast, cast_bytes, cdata_int. rewrite Ez, K, En. f_equal.
  rewrite read_unsigned_write_any by lia.
  assert (1 < 2 ^ (8 * Z.of_nat (csize T))).
  { apply Z.lt_le_trans with (2 ^ 8); [reflexivity|apply Z.pow_le_mono_r; lia]. }
  destruct (src_nonzero s); apply Z.mod_small; lia.
Qed.
Print Assumptions C04_cast_bool.

(* "ffi.cast(T, x) succeeds": for every source kind the property lists (valid_src) and every
   target, the result is COk — the model has explicit error outcomes (CErr) for everything else *)
Theorem C04_cast_succeeds : forall T s, valid_src s -> wf_cty T -> exists z, int_of_cast T s = COk z.
Proof.
  intros T s Hv Hwf. destruct (ckind T) eqn:K.
  1,2,4: eexists; apply C04_cast_exact; try assumption; congruence.
  eexists. apply C04_cast_bool; try assumption. destruct Hwf; assumption.
Qed.
Print Assumptions C04_cast_succeeds.

(* the sources outside the property's list: str/bytes of another length and objects that are not
   numbers raise TypeError; infinities OverflowError and NaN ValueError (except into _Bool) *)
Theorem C04_cast_unlisted : forall T,
  int_of_cast T SOther = CErr CTypeError /\
  (forall n, int_of_cast T (SBytesLen n) = CErr CTypeError) /\
  (forall n, int_of_cast T (SStrLen n) = CErr CTypeError) /\
  (ckind T <> KBool -> int_of_cast T SFloatInf = CErr COverflowError /\ int_of_cast T SFloatNan = CErr CValueError).
Proof.
  intros T.
  unfold int_of_cast, cast_bytes, cast_value. repeat split; try reflexivity;
    destruct (ckind T); try reflexivity; congruence.
Qed.
Print Assumptions C04_cast_unlisted.

(* the specification is canonical: in range, congruent, and unique with these two properties *)
Theorem C04_reduce_canonical : forall sg bits z, 0 < bits ->
  in_range_bits sg bits (reduce sg bits z) /\
  (exists k, reduce sg bits z = z + k * 2 ^ bits) /\
  (forall r, in_range_bits sg bits r -> (exists k, r = z + k * 2 ^ bits) -> r = reduce sg bits z).
Proof.
  intros sg bits z Hb. split; [apply reduce_in_range; assumption|].
  split; [apply reduce_congruent|]. intros r. apply reduce_unique. assumption.
Qed.
Print Assumptions C04_reduce_canonical.

(* values already in T's range are unchanged *)
Theorem C04_cast_in_range_id : forall T s, valid_src s -> wf_cty T -> ckind T <> KBool ->
  in_range_bits (tsigned T) (8 * Z.of_nat (csize T)) (src_value s) ->
  int_of_cast T s = COk (src_value s).
Proof.
  intros T s Hv Hwf Hk Hr. rewrite C04_cast_exact by assumption. f_equal.
  apply reduce_id; [destruct Hwf as [? _]; lia|assumption].
Qed.
Print Assumptions C04_cast_in_range_id.

(* pointer -> intptr_t / uintptr_t -> pointer yields the same address, for pointers of any size
   psize (8 here) converted through the signed or unsigned integer type of that size *)
Theorem C04_ptr_roundtrip : forall (sg : bool) (psize : nat) a,
  (1 <= psize <= 8)%nat -> 0 <= a < 2 ^ (8 * Z.of_nat psize) ->
  exists z, int_of_cast (mk_cty (if sg then KSigned else KUnsigned) psize) (SPtr a) = COk z /\
            cast_int_to_ptr psize z = a.
Proof.
  intros sg psize a Hp Ha.
  assert (2 ^ (8 * Z.of_nat psize) <= 2 ^ 64) by (apply Z.pow_le_mono_r; lia).
  assert (wf_cty (mk_cty (if sg then KSigned else KUnsigned) psize)) as W.
  { unfold wf_cty; cbn [csize ckind]. repeat split; try lia; destruct sg; try discriminate; intros; discriminate. }
  eexists. split.
  - apply C04_cast_exact; [cbn; lia|exact W|destruct sg; discriminate].
  - cbn [src_value csize]. unfold cast_int_to_ptr, to_u64.
    rewrite mod64_mod, reduce_mod by lia. apply Z.mod_small. exact Ha.
Qed.
Print Assumptions C04_ptr_roundtrip.

(* the decisive structure of cast_to_integer_or_char as it stands in the source (regenerated into
   C04/Gen.v: order of the source-kind tests, strict flag of the final integer conversion, the
   statement sequence after got_value: — in particular `value = !!value` BEFORE the truncating
   store), run inside the hand-written branch bodies, is exactly the model the theorems above are
   about *)
Theorem C04_gen_cast_refines : forall T s, gen_cast_bytes T s = cast_bytes T s.
Proof.
  intros T s.
  unfold gen_cast_bytes, cast_bytes. rewrite gen_cast_value_refines.
  destruct (cast_value T s) as [value|e]; [|reflexivity].
  unfold cast_tail. cbn [exec_tail]. unfold is_bool.
  destruct (ckind T); reflexivity.
Qed.
Print Assumptions C04_gen_cast_refines.

Theorem C04_gen_cast_not_strict : cast_number_strict = false.
Proof. reflexivity. Qed.
Print Assumptions C04_gen_cast_not_strict.

(* link with the C03 store model (C03/Store.v, convert_from_object integer branches).
   ity_of T is the C03 integer ctype of the same size / signedness / _Bool-ness; encode_int is the
   byte content C03_store_exact speaks about.  For any Python int v the cast holds the bytes that
   the store writes for v reduced into T's range (C04/Spec.v reduce), a value the store accepts. *)
Theorem C04_cast_is_store_of_reduced : forall T v data, wf_cty T -> ckind T = KSigned \/ ckind T = KUnsigned ->
  let r := reduce (isigned (ity_of T)) (tbits (ity_of T)) v in
  cast_bytes T (SInt v) = COk (encode_int (ity_of T) r) /\
  convert_from_object_int (ity_of T) r data = (Ok tt, encode_int (ity_of T) r).
Proof.
  intros T v data W K r.
  assert (0 < tbits (ity_of T)) as Hb by (unfold tbits; cbn [ity_of isize]; destruct W as [? _]; lia).
  split.
  - unfold cast_bytes, cast_value, encode_int, to_u64. cbn [ity_of isize].
    assert (forall x, match ckind T with KBool => nonzero x | _ => x end = x) as E
      by (intros x; destruct K as [K | K]; rewrite K; reflexivity).
    assert (match ckind T with KBool => COk (nonzero v) | _ => COk (v mod 2 ^ 64) end = @COk Z (v mod 2 ^ 64)) as ->
      by (destruct K as [K | K]; rewrite K; reflexivity).
    rewrite E. f_equal. apply write_raw_congr; [destruct W as [? _]; lia|].
    rewrite mod64_mod by (destruct W as [? _]; lia).
    unfold r. symmetry. apply reduce_mod.
  - rewrite store_exact by (apply wf_ity_of; exact W).
    rewrite (proj2 (in_range_iff_bits T r K)); [reflexivity|]. apply reduce_in_range. exact Hb.
Qed.
Print Assumptions C04_cast_is_store_of_reduced.

(* in particular, for an integer or _Bool target and a Python int in T's range, ffi.cast(T, v)
   holds exactly the bytes that `p[0] = v` stores (and that store succeeds, whatever the target
   held before) *)
Theorem C04_cast_agrees_with_store : forall T v data, wf_cty T -> int_target T ->
  in_range (ity_of T) v = true ->
  cast_bytes T (SInt v) = COk (encode_int (ity_of T) v) /\
  convert_from_object_int (ity_of T) v data = (Ok tt, encode_int (ity_of T) v).
Proof.
  intros T v data W K R. split.
  2:{ rewrite store_exact by (apply wf_ity_of; exact W). rewrite R. reflexivity. }
  assert (ckind T = KBool \/ (ckind T = KSigned \/ ckind T = KUnsigned)) as [K' | K']
    by (unfold int_target in K; tauto); clear K.
  2: destruct (C04_cast_is_store_of_reduced T v data W K') as [-> _]; rewrite reduce_id;
       [reflexivity|unfold tbits; cbn [ity_of isize]; destruct W as [? _]; lia|apply in_range_iff_bits; assumption].
  unfold in_range in R. cbn [ity_of ibool] in R. rewrite K' in R.
  unfold cast_bytes, cast_value, encode_int. cbn [ity_of isize]. rewrite K'.
  assert (v = 0 \/ v = 1) as [-> | ->] by lia; reflexivity.
Qed.
Print Assumptions C04_cast_agrees_with_store.

(* do_cast, pointer branch, over the strict flag regenerated from the source
   (C04.Gen.cast_ptr_strict; Interp.gen_cast_int_to_ptr consumes it): the conversion is the masking
   one of the hand model (never fails), so any Python int can be cast to a pointer, and
   pointer -> intptr_t / uintptr_t -> pointer gives the address back.  With the flag set to 1 in the
   source, gen_cast_int_to_ptr raises OverflowError on negative ints: these three proofs fail. *)
Theorem C04_gen_ptr_refines : forall psize v, gen_cast_int_to_ptr psize v = COk (cast_int_to_ptr psize v).
Proof. intros psize v. reflexivity. Qed.
Print Assumptions C04_gen_ptr_refines.

Theorem C04_gen_int_to_ptr_total : forall psize v, (1 <= psize <= 8)%nat ->
  gen_cast_int_to_ptr psize v = COk (v mod 2 ^ (8 * Z.of_nat psize)).
Proof. intros psize v Hp. rewrite C04_gen_ptr_refines. unfold cast_int_to_ptr, to_u64. rewrite mod64_mod by lia. reflexivity. Qed.
Print Assumptions C04_gen_int_to_ptr_total.

Theorem C04_gen_ptr_roundtrip : forall (sg : bool) (psize : nat) a,
  (1 <= psize <= 8)%nat -> 0 <= a < 2 ^ (8 * Z.of_nat psize) ->
  exists z, int_of_cast (mk_cty (if sg then KSigned else KUnsigned) psize) (SPtr a) = COk z /\
            gen_cast_int_to_ptr psize z = COk a.
Proof.
  intros sg psize a Hp Ha. destruct (C04_ptr_roundtrip sg psize a Hp Ha) as [z [H1 H2]].
  exists z. split; [exact H1|]. rewrite C04_gen_ptr_refines, H2. reflexivity.
Qed.
Print Assumptions C04_gen_ptr_roundtrip.

(* non-vacuity and a few readings of the statement *)
Example C04_ex_wf : wf_cty (mk_cty KSigned 2) /\ wf_cty (mk_cty (KChar true) 4) /\ wf_cty (mk_cty (KChar false) 1).
Proof. unfold wf_cty; cbn; repeat split; try lia; try discriminate; intros; try lia;
       match goal with H : _ = _ |- _ => try (inversion H; fail); try lia end. Qed.
Example C04_ex_wrap : int_of_cast (mk_cty KSigned 2) (SInt 40000) = COk (-25536) /\
                      int_of_cast (mk_cty KUnsigned 1) (SInt (-1)) = COk 255 /\
                      int_of_cast (mk_cty KUnsigned 8) (SInt (2 ^ 100 + 5)) = COk 5.
Proof. vm_compute. repeat split. Qed.
Example C04_ex_float : int_of_cast (mk_cty KSigned 4) (SFloat (-7) (-1)) = COk (-3) /\      (* -3.5 -> -3 *)
                       int_of_cast (mk_cty KUnsigned 4) (SFloat (-3) (-1)) = COk 4294967295 /\  (* -1.5 -> -1 -> 2^32-1 *)
                       int_of_cast (mk_cty KBool 1) (SFloat 1 (-1)) = COk 1.             (* 0.5 -> true *)
Proof. vm_compute. repeat split. Qed.
Example C04_ex_ptr : int_of_cast (mk_cty KSigned 8) (SPtr (2 ^ 64 - 16)) = COk (-16) /\
                     cast_int_to_ptr 8 (-16) = 2 ^ 64 - 16.
Proof. vm_compute. split; reflexivity. Qed.
Example C04_ex_errors : int_of_cast (mk_cty KSigned 4) (SStrLen 2) = CErr CTypeError /\
                        int_of_cast (mk_cty KBool 1) SFloatNan = COk 1.
Proof. vm_compute. split; reflexivity. Qed.
Example C04_ex_gen : gen_cast_bytes (mk_cty KBool 1) (SPtr 256) = COk [1] /\
                     gen_cast_bytes (mk_cty KSigned 2) (SInt (-2)) = COk [254; 255].
Proof. vm_compute. split; reflexivity. Qed.
Example C04_ex_store_hyps :
  wf_cty (mk_cty KSigned 2) /\ int_target (mk_cty KSigned 2) /\ in_range (ity_of (mk_cty KSigned 2)) (-2) = true /\
  wf_cty (mk_cty KBool 1) /\ int_target (mk_cty KBool 1) /\ in_range (ity_of (mk_cty KBool 1)) 1 = true /\
  in_range (ity_of (mk_cty KBool 1)) 2 = false.
Proof. unfold wf_cty, int_target; cbn; repeat split; try lia; try discriminate; auto; intros; try discriminate; lia. Qed.
Example C04_ex_store : cast_bytes (mk_cty KSigned 2) (SInt (-2)) = COk [254; 255] /\
                       convert_from_object_int (ity_of (mk_cty KSigned 2)) (-2) [7; 7] = (Ok tt, [254; 255]) /\
                       cast_bytes (mk_cty KUnsigned 1) (SInt 257) = COk (encode_int (ity_of (mk_cty KUnsigned 1)) 1) /\
                       convert_from_object_int (ity_of (mk_cty KUnsigned 1)) 257 [7] = (Err OverflowError, [7]).
Proof. vm_compute. repeat split. Qed.
Example C04_ex_gen_ptr : gen_cast_int_to_ptr 8 (-16) = COk (2 ^ 64 - 16) /\ gen_cast_int_to_ptr 8 (2 ^ 64 + 3) = COk 3.
Proof. vm_compute. split; reflexivity. Qed.
