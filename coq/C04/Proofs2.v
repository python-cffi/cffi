(* C04 — the C03 integer ctype of a cast target, through which C04/Props.v links the cast
   (C04/Model.v) with the store (C03/Store.v); and the regenerated strict flag of do_cast's
   int -> pointer conversion. *)
From Coq Require Import ZArith Znumtheory List Bool Lia.
From Cffi Require Import C03.Mem C03.MemProofs C03.Store C03.StoreProofs.
From Cffi Require Import C04.Spec C04.IR C04.Gen C04.Model C04.Interp C04.Proofs.
Import ListNotations.
Open Scope Z_scope.

(* the C03 integer ctype of a C04 integer / _Bool target (same size; CT_PRIMITIVE_SIGNED; CT_IS_BOOL) *)
Definition ity_of (T : cty) : ity :=
  mk_ity (csize T)
         (match ckind T with KSigned => true | _ => false end)
         (match ckind T with KBool => true | _ => false end).

(* the targets the C03 store model covers *)
Definition int_target (T : cty) : Prop := ckind T = KSigned \/ ckind T = KUnsigned \/ ckind T = KBool.

Lemma wf_ity_of T : wf_cty T -> wf_ity (ity_of T).
Proof.
  intros [Hs _]. split; cbn [ity_of isize ibool isigned]; [exact Hs|].
  destruct (ckind T); intros; try discriminate; reflexivity.
Qed.

Lemma encode_le_mod n z : encode_le n (z mod 2 ^ (8 * Z.of_nat n)) = encode_le n z.
Proof. apply encode_le_congr, Z.mod_mod, Z.pow_nonzero; lia. Qed.

Lemma in_range_iff_bits T v : ckind T = KSigned \/ ckind T = KUnsigned ->
  in_range (ity_of T) v = true <-> in_range_bits (isigned (ity_of T)) (tbits (ity_of T)) v.
Proof.
  intros K. unfold in_range, in_range_bits, tbits. cbn [ity_of isize ibool isigned].
  destruct K as [K | K]; rewrite K; rewrite andb_true_iff, !Z.leb_le; lia.
Qed.

Lemma gen_ptr_not_strict : cast_ptr_strict = false.
Proof. reflexivity. Qed.

