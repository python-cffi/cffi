(* C04 — the regenerated structure of cast_to_integer_or_char gives exactly the hand model. *)
From Coq Require Import ZArith List Bool Lia.
From Cffi Require Import C03.Mem C04.IR C04.Gen C04.Model C04.Interp.
Import ListNotations.
Open Scope Z_scope.

Lemma nonzero_idem z : nonzero (nonzero z) = nonzero z.
Proof. unfold nonzero. destruct (z =? 0); reflexivity. Qed.

Theorem gen_cast_value_refines T s : gen_cast_value T s = cast_value T s.
Proof.
  unfold gen_cast_value, cast_branches, cast_value.
  destruct s; cbn [first_branch branch_applies branch_value as_ull]; unfold cast_number_strict;
    destruct (ckind T) as [| | |[|]]; reflexivity.
Qed.

