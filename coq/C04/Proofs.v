(* C04 — Spec.reduce through Base.Wrap; the vocabulary of the statements of C04/Props.v (src_value, src_nonzero,
   valid_src, tsigned, wf_cty); and what Model.cast_value computes for a listed source: a number that reduces into the
   target type as src_value does (cast_value_mod), for _Bool one whose non-zeroness is src_nonzero (bool_value_nonzero). *)
From Coq Require Import ZArith Znumtheory List Bool Lia ZifyBool.
From Cffi Require Import Base.Wrap C03.Mem C03.MemProofs C04.Spec C04.Model.
Import ListNotations.
Open Scope Z_scope.

(* Spec.reduce and Spec.in_range_bits are Base.Wrap's wrap and in_bits, written again: the lemmas of
   Base.Wrap apply to them as they stand *)
Lemma reduce_in_range sg bits z : 0 < bits -> in_range_bits sg bits (reduce sg bits z).
Proof. exact (wrap_range sg bits z). Qed.

Lemma reduce_congruent sg bits z : exists k, reduce sg bits z = z + k * 2 ^ bits.
Proof. apply eqm_ex, wrap_eqm. Qed.

Lemma reduce_unique sg bits z r : 0 < bits -> in_range_bits sg bits r ->
  (exists k, r = z + k * 2 ^ bits) -> r = reduce sg bits z.
Proof. intros Hb Hr [k ->]. symmetry. apply wrap_unique; [exact Hb | exact Hr | apply Z_mod_plus_full]. Qed.

Lemma reduce_id sg bits z : 0 < bits -> in_range_bits sg bits z -> reduce sg bits z = z.
Proof. exact (wrap_id sg bits z). Qed.

Lemma reduce_mod sg bits z : reduce sg bits z mod 2 ^ bits = z mod 2 ^ bits.
Proof. apply wrap_eqm. Qed.

Lemma read_unsigned_write_any s z : (s <= 8)%nat ->
  read_raw_unsigned (write_raw s z) = reduce false (8 * Z.of_nat s) z.
Proof. exact (read_unsigned_write s z). Qed.

Lemma read_signed_write_any s z : (1 <= s <= 8)%nat ->
  read_raw_signed (write_raw s z) = reduce true (8 * Z.of_nat s) z.
Proof. exact (read_signed_write s z). Qed.

Lemma reduce_mod64 sg s z : (1 <= s <= 8)%nat ->
  reduce sg (8 * Z.of_nat s) (z mod 2 ^ 64) = reduce sg (8 * Z.of_nat s) z.
Proof. intros Hs. apply wrap_mod. lia. Qed.

(* the integer a listed source stands for: the int, the float truncated toward zero, the ordinal, the address *)
Definition src_value (s : src) : Z :=
  match s with
  | SInt v => v
  | SFloat m e => trunc_float m e
  | SBytes b => b
  | SStr cp => cp
  | SPtr a => a
  | _ => 0
  end.

(* C truth value of a listed source, what a cast to _Bool keeps *)
Definition src_nonzero (s : src) : bool :=
  match s with
  | SInt v => negb (v =? 0)
  | SFloat m e => negb (m =? 0)          (* the float itself, not its truncation *)
  | SBytes b => negb (b =? 0)
  | SStr cp => negb (cp =? 0)
  | SPtr a => negb (a =? 0)
  | _ => false
  end.

(* the source kinds the property lists *)
Definition valid_src (s : src) : Prop :=
  match s with
  | SInt _ | SFloat _ _ => True
  | SBytes b => 0 <= b < 256
  | SStr cp => 0 <= cp <= 1114111
  | SPtr a => 0 <= a < 2 ^ 64
  | _ => False
  end.

(* signedness of the integer that int() returns *)
Definition tsigned (T : cty) : bool :=
  match ckind T with
  | KSigned => true
  | KChar sw => sw
  | _ => false
  end.

(* the targets of cast_to_integer_or_char: 1..8 bytes; wchar_t is the 4-byte signed character type, the
   other character types have at most 4 bytes *)
Definition wf_cty (T : cty) : Prop :=
  (1 <= csize T <= 8)%nat /\
  (ckind T = KChar true -> csize T = 4%nat) /\
  (forall sw, ckind T = KChar sw -> (csize T <= 4)%nat).

Lemma cast_value_mod T s : valid_src s -> wf_cty T -> ckind T <> KBool ->
  exists z, cast_value T s = COk z /\
  reduce (tsigned T) (8 * Z.of_nat (csize T)) z =
  reduce (tsigned T) (8 * Z.of_nat (csize T)) (src_value s).
Proof.
  intros Hv [Hs [Hw _]] Hk. unfold cast_value, to_u64.
  destruct s; cbn [src_value valid_src] in *; try contradiction.
  - destruct (ckind T) eqn:K; try congruence; eexists; (split; [reflexivity|]); apply reduce_mod64; assumption.
  - unfold trunc_float, float_to_int.
    destruct (ckind T) eqn:K; try congruence; eexists; (split; [reflexivity|]); apply reduce_mod64; assumption.
  - eexists; split; [reflexivity|]. rewrite Z.mod_small by lia. reflexivity.
  - destruct (ckind T) eqn:K; try (eexists; split; reflexivity).
    destruct signed_wchar; try (eexists; split; reflexivity).
    eexists; split; [reflexivity|].
    rewrite reduce_mod64 by assumption. f_equal.
    rewrite Z.mod_small by lia. lia.
  - eexists; split; [reflexivity|]. apply reduce_mod64; assumption.
Qed.

Lemma bool_value_nonzero T s : valid_src s -> ckind T = KBool ->
  exists z, cast_value T s = COk z /\ nonzero z = if src_nonzero s then 1 else 0.
Proof.
  intros Hv K. unfold cast_value, to_u64, nonzero. rewrite K.
  destruct s; cbn [src_nonzero valid_src] in *; try contradiction; eexists; (split; [reflexivity|]).
  - destruct (v =? 0); reflexivity.
  - destruct (m =? 0); reflexivity.
  - rewrite Z.mod_small by lia. destruct (b =? 0); reflexivity.
  - destruct (cp =? 0); reflexivity.
  - rewrite Z.mod_small by lia. destruct (addr =? 0); reflexivity.
Qed.
