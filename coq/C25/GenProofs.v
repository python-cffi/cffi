(* C25 — the regenerated search_sorted / MAKE_SEARCH_FUNC (C25/Gen.v) IS the hand model (C25/Model.v):
   every proof here is by computation on the regenerated terms, so an edit of the C source that changes a
   translated hole (a comparison operator, `middle + 1`, the order of the branches, the early return) makes
   one of these lemmas fail; the theorems of C25/Proofs.v are then transported to the regenerated function. *)
From Coq Require Import List Arith NArith Lia Bool String.
Import ListNotations.
From Cffi Require Import C25.Model C25.Gen C25.Proofs.

Definition step_of (p : probe) (left right middle : nat) : gstep :=
  match p with
  | Found => GReturn middle
  | GoLeft => GNext left middle
  | GoRight => GNext (middle + 1) right
  end.

(* the three-way decision: for every sign of diff and every value of `src[search_len] == 0` *)
Lemma gen_body_is_probe : forall diff src_ends left right middle,
  gen_body diff src_ends left right middle =
  step_of (match diff with
           | Eq => if src_ends then Found else GoLeft
           | Gt => GoLeft
           | Lt => GoRight
           end) left right middle.
Proof. intros [] [] left right middle; reflexivity. Qed.

Lemma gen_body_is_model : forall src key left right middle,
  gen_body (strncmp src key (List.length key)) (N.eqb (char_at src (List.length key)) 0) left right middle
  = step_of (probe_at src key) left right middle.
Proof. intros. rewrite gen_body_is_probe. unfold probe_at. reflexivity. Qed.

Lemma gen_search_is_model : forall fuel t key left right,
  gen_search fuel t key left right = search fuel t key left right.
Proof.
  induction fuel as [|f IH]; intros; [reflexivity|].
  cbn [gen_search search]. unfold gen_loop_cond, gen_middle.
  destruct (left <? right); [|reflexivity].
  rewrite gen_body_is_model.
  destruct (probe_at (nth ((left + right) / 2) t []) key); cbn [step_of]; try reflexivity; apply IH.
Qed.

Lemma gen_search_sorted_is_model : forall t key, gen_search_sorted t key = search_sorted t key.
Proof. intros. unfold gen_search_sorted, search_sorted, gen_left0, gen_right0. apply gen_search_is_model. Qed.

(* the early return of MAKE_SEARCH_FUNC agrees with the loop on the empty table *)
Lemma gen_search_in_is_model : forall t key, gen_search_in t key = search_sorted t key.
Proof.
  intros t key. unfold gen_search_in. rewrite gen_search_sorted_is_model.
  destruct t; reflexivity.
Qed.

