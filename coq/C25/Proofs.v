(* C25 — the binary search with the strncmp-prefix comparator finds exactly the entries of a table strictly
   sorted in byte order, and Python's sort of distinct names yields such a table. *)
From Coq Require Import List Arith NArith Lia Bool Sorted Permutation.
Import ListNotations.
From Cffi Require Import C25.Model.

(* the one idea: on NUL-free strings, strncmp over the key's length followed by the test of the next byte of
   the entry decides like the full byte-wise comparison *)
Definition probe_of (c : comparison) := match c with Eq => Found | Gt => GoLeft | Lt => GoRight end.

Lemma probe_at_lex : forall key src, nulfree src -> nulfree key ->
  probe_at src key = probe_of (lex src key).
Proof.
  induction key as [|k key IH]; intros src Hs Hk.
  - unfold probe_at; simpl. destruct src as [|s src']; simpl; auto.
    inversion Hs; subst. unfold char_at; simpl.
    destruct (N.eqb_spec s 0); [contradiction|reflexivity].
  - inversion Hk as [|? ? Hk0 Hk']; subst.
    destruct src as [|s src'].
    + unfold probe_at; simpl. destruct k; [contradiction|reflexivity].
    + inversion Hs as [|? ? Hs0 Hs']; subst.
      specialize (IH src' Hs' Hk').
      unfold probe_at in *. simpl. unfold char_at in *. simpl.
      destruct (N.compare s k) eqn:E; simpl; auto.
Qed.

Lemma lex_eq : forall a b, lex a b = Eq <-> a = b.
Proof.
  induction a as [|x a IH]; destruct b as [|y b]; simpl; split; intros H; try congruence; auto.
  - destruct (N.compare x y) eqn:E; try discriminate. apply N.compare_eq in E. subst.
    f_equal. apply IH; auto.
  - inversion H; subst. rewrite N.compare_refl. apply IH; auto.
Qed.

Lemma lex_refl a : lex a a = Eq.
Proof. apply lex_eq; reflexivity. Qed.

Lemma lex_antisym : forall a b, lex a b = CompOpp (lex b a).
Proof.
  induction a as [|x a IH]; destruct b as [|y b]; simpl; auto.
  rewrite (N.compare_antisym y x). destruct (N.compare y x); simpl; auto.
Qed.

Lemma lex_trans : forall a b c, lex a b = Lt -> lex b c = Lt -> lex a c = Lt.
Proof.
  induction a as [|x a IH]; destruct b as [|y b]; destruct c as [|z c]; simpl; intros H1 H2; try congruence; auto.
  destruct (N.compare x y) eqn:E1; try discriminate;
  destruct (N.compare y z) eqn:E2; try discriminate.
  - apply N.compare_eq in E1; apply N.compare_eq in E2; subst. rewrite N.compare_refl. eauto.
  - apply N.compare_eq in E1; subst. rewrite E2; auto.
  - apply N.compare_eq in E2; subst. rewrite E1; auto.
  - rewrite N.compare_lt_iff in *. assert (Hxz : (x < z)%N) by lia.
    rewrite <- N.compare_lt_iff in Hxz. rewrite Hxz; auto.
Qed.

Definition sorted (t : list cstr) :=
  forall i j, i < j < length t -> lex (nth i t []) (nth j t []) = Lt.

Lemma sorted_below : forall t key i m, sorted t -> i <= m < length t ->
  lex (nth m t []) key = Lt -> lex (nth i t []) key = Lt.
Proof.
  intros t key i m Hs Him E. destruct (Nat.eq_dec i m) as [->|Hne]; [exact E|].
  apply lex_trans with (nth m t []); [apply Hs; lia|exact E].
Qed.

Lemma sorted_above : forall t key i m, sorted t -> m <= i < length t ->
  lex (nth m t []) key = Gt -> lex (nth i t []) key = Gt.
Proof.
  intros t key i m Hs Hmi E. destruct (Nat.eq_dec i m) as [->|Hne]; [exact E|].
  rewrite lex_antisym in E |- *. destruct (lex key (nth m t [])) eqn:E'; try discriminate E.
  rewrite (lex_trans key (nth m t []) (nth i t []) E'); [reflexivity|apply Hs; lia].
Qed.

(* the loop invariant: everything left of [left] is smaller than the key, everything from [right] on greater *)
Lemma search_inv : forall fuel t key left right,
  Forall nulfree t -> nulfree key -> sorted t ->
  left <= right <= length t -> right - left < fuel ->
  (forall i, i < left -> lex (nth i t []) key = Lt) ->
  (forall i, right <= i < length t -> lex (nth i t []) key = Gt) ->
  match search fuel t key left right with
  | Some m => m < length t /\ nth m t [] = key
  | None => forall i, i < length t -> nth i t [] <> key
  end.
Proof.
  induction fuel as [|f IH]; intros t key left right Ht Hk Hs Hb Hf HL HR; [lia|].
  cbn [search]. destruct (Nat.ltb_spec left right) as [Hlt|Hge].
  - set (m := (left + right) / 2).
    assert (Hm : left <= m < right).
    { unfold m. split; [apply Nat.div_le_lower_bound|apply Nat.div_lt_upper_bound]; lia. }
    clearbody m.
    assert (Hmn : nulfree (nth m t [])) by (apply (proj1 (Forall_forall _ _) Ht), nth_In; lia).
    rewrite (probe_at_lex key (nth m t []) Hmn Hk).
    destruct (lex (nth m t []) key) eqn:E; cbn [probe_of].
    + split; [lia|]. now apply lex_eq.
    + apply IH; auto; [lia..|]. intros i Hi. apply (sorted_below t key i m); auto; lia.
    + apply IH; auto; [lia..|]. intros i Hi. apply (sorted_above t key i m); auto; lia.
  - intros i Hi Heq. destruct (Nat.lt_ge_cases i left) as [Hil|Hil].
    + specialize (HL i Hil). rewrite Heq, lex_refl in HL. discriminate.
    + specialize (HR i ltac:(lia)). rewrite Heq, lex_refl in HR. discriminate.
Qed.

Lemma search_sorted_correct : forall t key,
  Forall nulfree t -> nulfree key -> sorted t ->
  match search_sorted t key with
  | Some m => m < length t /\ nth m t [] = key
  | None => forall i, i < length t -> nth i t [] <> key
  end.
Proof.
  intros. unfold search_sorted. apply search_inv; auto; try lia.
Qed.

Lemma sorted_nth_inj : forall t i j, sorted t -> i < length t -> j < length t ->
  nth i t [] = nth j t [] -> i = j.
Proof.
  intros t i j Hs Hi Hj Heq.
  destruct (Nat.lt_trichotomy i j) as [Hlt|[->|Hlt]]; [|reflexivity|];
    [pose proof (Hs i j) as Hc|pose proof (Hs j i) as Hc]; rewrite Heq, lex_refl in Hc; discriminate Hc; lia.
Qed.

Lemma sorted_NoDup t : sorted t -> NoDup t.
Proof. intros Hs. apply (NoDup_nth t []). intros i j Hi Hj. now apply sorted_nth_inj. Qed.

Theorem search_sorted_iff : forall t key i, Forall nulfree t -> nulfree key -> sorted t ->
  search_sorted t key = Some i <-> i < length t /\ nth i t [] = key.
Proof.
  intros t key i Ht Hk Hs. pose proof (search_sorted_correct t key Ht Hk Hs) as H. split.
  - intros E. rewrite E in H. exact H.
  - intros [Hi E]. destruct (search_sorted t key) as [m|]; [|elim (H i Hi E)].
    destruct H as [Hm Em]. f_equal. apply (sorted_nth_inj t); auto; congruence.
Qed.

Theorem search_sorted_none : forall t key, Forall nulfree t -> nulfree key -> sorted t ->
  search_sorted t key = None <-> ~ In key t.
Proof.
  intros t key Ht Hk Hs. pose proof (search_sorted_correct t key Ht Hk Hs) as H. split.
  - intros E Hin. rewrite E in H. destruct (In_nth _ _ [] Hin) as (i & Hi & Ei). exact (H i Hi Ei).
  - intros Hn. destruct (search_sorted t key); [|reflexivity]. destruct H as [Hm <-]. elim Hn. apply nth_In, Hm.
Qed.

Lemma search_finds_member : forall t i,
  Forall nulfree t -> sorted t -> i < length t ->
  search_sorted t (nth i t []) = Some i.
Proof.
  intros t i Ht Hs Hi. apply search_sorted_iff; auto. apply (proj1 (Forall_forall _ _) Ht), nth_In, Hi.
Qed.

Lemma insert_perm x l : Permutation (insert_sorted x l) (x :: l).
Proof.
  induction l as [|y l IH]; simpl; auto.
  destruct (leb_lex x y); auto.
  eapply perm_trans; [apply perm_skip, IH|apply perm_swap].
Qed.

Lemma py_sorted_perm l : Permutation (py_sorted l) l.
Proof.
  induction l as [|x l IH]; simpl; auto.
  eapply perm_trans; [apply insert_perm|]. apply perm_skip, IH.
Qed.

Definition lt_lex a b := lex a b = Lt.

Lemma lex_total_strict a b : a <> b -> lex a b = Lt \/ lex b a = Lt.
Proof.
  intros Hne. destruct (lex a b) eqn:E; auto.
  - apply lex_eq in E. contradiction.
  - right. rewrite lex_antisym, E. reflexivity.
Qed.

Lemma insert_sorted_strict x l :
  StronglySorted lt_lex l -> ~ In x l -> StronglySorted lt_lex (insert_sorted x l).
Proof.
  induction l as [|y l IH]; intros Hs Hn; simpl.
  - constructor; constructor.
  - inversion Hs as [|? ? Hs' Hall]; subst.
    unfold leb_lex. destruct (lex x y) eqn:E.
    + apply lex_eq in E. subst. exfalso. apply Hn. left; reflexivity.
    + constructor; auto. constructor; auto.
      rewrite Forall_forall in *. intros z Hz. unfold lt_lex in *.
      eapply lex_trans; [exact E|]. apply Hall, Hz.
    + constructor.
      * apply IH; auto. intros Hin. apply Hn. right; exact Hin.
      * rewrite Forall_forall in *. intros z Hz.
        assert (Hz' : In z (x :: l)) by (eapply Permutation_in; [apply insert_perm|exact Hz]).
        destruct Hz' as [<-|Hz'].
        -- unfold lt_lex. rewrite lex_antisym, E. reflexivity.
        -- apply Hall, Hz'.
Qed.

Lemma py_sorted_strict l : NoDup l -> StronglySorted lt_lex (py_sorted l).
Proof.
  induction l as [|x l IH]; intros Hnd; simpl.
  - constructor.
  - inversion Hnd; subst. apply insert_sorted_strict; auto.
    intros Hin. apply (Permutation_in _ (py_sorted_perm l)) in Hin. contradiction.
Qed.

Lemma strongly_sorted_index t : StronglySorted lt_lex t -> sorted t.
Proof.
  induction 1 as [|a l Hs IH Hall]; intros i j Hij; simpl in *; [lia|].
  destruct i as [|i], j as [|j]; try lia.
  - rewrite Forall_forall in Hall. apply Hall, nth_In. lia.
  - apply IH. lia.
Qed.

Lemma python_sort_gives_table : forall names, NoDup names ->
  Permutation (py_sorted names) names /\ sorted (py_sorted names).
Proof.
  intros names Hnd. split; [apply py_sorted_perm|].
  apply strongly_sorted_index, py_sorted_strict, Hnd.
Qed.

