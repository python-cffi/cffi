(* List facts that several properties need, and `nlist_eqb`, the element-wise equality test on `list N` that eight
   models define under their own names with this text (so `nlist_eqb_eq` is, by conversion, a lemma about each). *)
From Coq Require Import List NArith Bool Arith Lia.
Import ListNotations.

Fixpoint nlist_eqb (a b : list N) : bool :=
  match a, b with
  | [], [] => true
  | x :: a', y :: b' => N.eqb x y && nlist_eqb a' b'
  | _, _ => false
  end.

Lemma nlist_eqb_eq a : forall b, nlist_eqb a b = true <-> a = b.
Proof.
  induction a as [|x a IH]; destruct b as [|y b]; cbn; split; try discriminate; auto.
  - rewrite andb_true_iff, N.eqb_eq, IH. intros [-> ->]; reflexivity.
  - intros [= -> ->]. rewrite N.eqb_refl. apply IH. reflexivity.
Qed.

Lemma nlist_eqb_refl a : nlist_eqb a a = true.
Proof. apply nlist_eqb_eq. reflexivity. Qed.

Lemma nlist_eqb_neq a b : a <> b -> nlist_eqb a b = false.
Proof. intros H. destruct (nlist_eqb a b) eqn:E; [apply nlist_eqb_eq in E; contradiction | reflexivity]. Qed.

Section Lists.
Context {A : Type}.
Implicit Types l a b : list A.

Lemma skipn_add i j l : skipn (i + j) l = skipn j (skipn i l).
Proof. revert l. induction i as [|i IH]; intros [|x l]; cbn [skipn Nat.add]; auto. now rewrite skipn_nil. Qed.

Lemma nth_error_skipn k l j : nth_error (skipn k l) j = nth_error l (k + j).
Proof. revert l. induction k as [|k IH]; intros [|x l]; cbn [skipn Nat.add nth_error]; auto. now destruct j. Qed.

Lemma firstn_app_le n a b : n <= length a -> firstn n (a ++ b) = firstn n a.
Proof. intros H. rewrite firstn_app. replace (n - length a) with 0 by lia. apply app_nil_r. Qed.

Lemma skipn_app_le n a b : n <= length a -> skipn n (a ++ b) = skipn n a ++ b.
Proof. intros H. rewrite skipn_app. now replace (n - length a) with 0 by lia. Qed.

Lemma firstn_length_app a b : firstn (length a) (a ++ b) = a.
Proof. rewrite firstn_app_le, firstn_all; auto. Qed.

Lemma skipn_length_app a b : skipn (length a) (a ++ b) = b.
Proof. rewrite skipn_app_le, skipn_all; auto. Qed.

Lemma forallb_impl (p q : A -> bool) l : (forall x, p x = true -> q x = true) ->
  forallb p l = true -> forallb q l = true.
Proof. intros H. rewrite !forallb_forall. auto. Qed.

Lemma NoDup_snoc l x : NoDup l -> ~ In x l -> NoDup (l ++ [x]).
Proof. intros Hl Hx. apply (NoDup_Add (Add_app x l [])). rewrite app_nil_r. auto. Qed.

(* induction for functions that consume one or two elements at a time *)
Lemma list_ind2 (P : list A -> Prop) :
  P [] -> (forall x, P [x]) -> (forall x y l, P l -> P (y :: l) -> P (x :: y :: l)) -> forall l, P l.
Proof.
  intros H0 H1 H2 l. enough (P l /\ forall x, P (x :: l)) by tauto.
  induction l as [|y l [IH1 IH2]]; auto.
Qed.
End Lists.
