(* Numbers below a power of two: they are the numbers with no bit set from position n up ([small_of_high_bits],
   [high_bits_of_small]); the ranges of &, | and >> on n-bit numbers; (a << n) | b = a * 2^n + b for an n-bit b, and
   the bits of such a sum ([testbit_cat]).  Needed by the bit-field (C02), type-table (C11), UTF-16 (C15) and
   pointer-hash (C17) proofs. *)
From Coq Require Import ZArith Lia.
Local Open Scope Z_scope.

Lemma small_of_high_bits a n : 0 <= a -> 0 <= n ->
  (forall i, n <= i -> Z.testbit a i = false) -> 0 <= a < 2 ^ n.
Proof.
  intros Ha Hn H. assert (a mod 2 ^ n = a) as E.
  { apply Z.bits_inj'. intros i Hi. destruct (Z.ltb_spec i n).
    - apply Z.mod_pow2_bits_low. lia.
    - rewrite Z.mod_pow2_bits_high by lia. symmetry. apply H. lia. }
  rewrite <- E. apply Z.mod_pos_bound, Z.pow_pos_nonneg; lia.
Qed.

Lemma high_bits_of_small a n i : 0 <= a < 2 ^ n -> 0 <= n <= i -> Z.testbit a i = false.
Proof.
  intros Ha Hi. rewrite <- (Z.mod_small a (2 ^ n)) by lia. apply Z.mod_pow2_bits_high. lia.
Qed.

Lemma land_lt_pow2 a b n : 0 <= n -> 0 <= a < 2 ^ n -> 0 <= Z.land a b < 2 ^ n.
Proof.
  intros Hn Ha. apply small_of_high_bits; [apply Z.land_nonneg; lia | exact Hn |].
  intros i Hi. rewrite Z.land_spec, (high_bits_of_small a n i) by lia. reflexivity.
Qed.

Lemma lor_lt_pow2 a b n : 0 <= n -> 0 <= a < 2 ^ n -> 0 <= b < 2 ^ n -> 0 <= Z.lor a b < 2 ^ n.
Proof.
  intros Hn Ha Hb. apply small_of_high_bits; [apply Z.lor_nonneg; lia | exact Hn |].
  intros i Hi. rewrite Z.lor_spec, (high_bits_of_small a n i), (high_bits_of_small b n i) by lia. reflexivity.
Qed.

Lemma shiftr_lt_pow2 a k n : 0 <= a < 2 ^ n -> 0 <= k -> 0 <= Z.shiftr a k < 2 ^ n.
Proof.
  intros Ha Hk. rewrite Z.shiftr_div_pow2 by lia. assert (0 < 2 ^ k) by (apply Z.pow_pos_nonneg; lia). split.
  - apply Z.div_pos; lia.
  - apply Z.le_lt_trans with a; [|lia]. apply Z.div_le_upper_bound; nia.
Qed.

Lemma land_shiftl_small a b n : 0 <= n -> 0 <= b < 2 ^ n -> Z.land (Z.shiftl a n) b = 0.
Proof.
  intros Hn Hb. apply Z.bits_inj'. intros i Hi. rewrite Z.land_spec, Z.bits_0.
  destruct (Z.lt_ge_cases i n) as [Hlt|Hge].
  - rewrite Z.shiftl_spec_low by lia. reflexivity.
  - rewrite (high_bits_of_small b n i) by lia. apply Bool.andb_false_r.
Qed.

Lemma lor_shiftl_add a b n : 0 <= n -> 0 <= b < 2 ^ n -> Z.lor (Z.shiftl a n) b = a * 2 ^ n + b.
Proof.
  intros Hn Hb. pose proof (land_shiftl_small a b n Hn Hb) as H.
  rewrite <- Z.lxor_lor, <- Z.add_nocarry_lxor by exact H.
  rewrite Z.shiftl_mul_pow2 by lia. reflexivity.
Qed.

Lemma testbit_cat lo hi n j : 0 <= lo < 2 ^ n -> 0 <= n -> 0 <= j ->
  Z.testbit (lo + 2 ^ n * hi) j = if j <? n then Z.testbit lo j else Z.testbit hi (j - n).
Proof.
  intros Hlo Hn Hj. rewrite Z.add_comm, Z.mul_comm, <- lor_shiftl_add by assumption.
  rewrite Z.lor_spec, Z.shiftl_spec by exact Hj. destruct (Z.ltb_spec j n).
  - rewrite Z.testbit_neg_r by lia. reflexivity.
  - rewrite (high_bits_of_small lo n j) by lia. apply Bool.orb_false_r.
Qed.
