(* Conversion to the n-bit C integer type of signedness sg: the one value of the type's range congruent
   to the source modulo 2^n.  Every property that models such a conversion states it with a function of
   its own; the facts are here once, for every width, and a directory that needs them has a bridge lemma
   from its function to [wrap]. *)
From Coq Require Import ZArith Bool Lia.
Local Open Scope Z_scope.

Definition wrap (sg : bool) (n z : Z) : Z :=
  if sg then (z + 2 ^ (n - 1)) mod 2 ^ n - 2 ^ (n - 1) else z mod 2 ^ n.

Definition in_bits (sg : bool) (n z : Z) : Prop :=
  if sg then - 2 ^ (n - 1) <= z < 2 ^ (n - 1) else 0 <= z < 2 ^ n.

Lemma pow2_half n : 0 < n -> 2 ^ n = 2 * 2 ^ (n - 1) /\ 0 < 2 ^ (n - 1).
Proof.
  intros H. split; [|apply Z.pow_pos_nonneg; lia].
  rewrite <- Z.pow_succ_r by lia. f_equal. lia.
Qed.

Lemma pow2_mono a b : 0 <= a <= b -> 0 < 2 ^ a <= 2 ^ b.
Proof. split; [apply Z.pow_pos_nonneg | apply Z.pow_le_mono_r]; lia. Qed.

Lemma pow2_dvd a b : 0 <= a <= b -> (2 ^ a | 2 ^ b).
Proof. intros H. exists (2 ^ (b - a)). rewrite <- Z.pow_add_r by lia. f_equal. lia. Qed.

Lemma eqm_narrow a b x y : 0 <= a <= b -> x mod 2 ^ b = y mod 2 ^ b -> x mod 2 ^ a = y mod 2 ^ a.
Proof.
  intros H E. pose proof (pow2_mono 0 a ltac:(lia)). pose proof (pow2_mono a b H).
  rewrite (Znumtheory.Zmod_div_mod _ (2 ^ b) x), (Znumtheory.Zmod_div_mod _ (2 ^ b) y), E
    by (try apply pow2_dvd; lia).
  reflexivity.
Qed.

Lemma mod_mod_pow2 z a b : 0 <= a <= b -> (z mod 2 ^ b) mod 2 ^ a = z mod 2 ^ a.
Proof. intros H. apply (eqm_narrow a b _ _ H), Zmod_mod. Qed.

Lemma eqm_divide m x y : (m | x - y) -> x mod m = y mod m.
Proof. intros [k E]. replace x with (y + k * m) by lia. apply Z_mod_plus_full. Qed.

Lemma eqm_ex m x y : x mod m = y mod m -> exists k, x = y + k * m.
Proof.
  intros E. exists (x / m - y / m).
  pose proof (Z_div_mod_eq_full x m). pose proof (Z_div_mod_eq_full y m). lia.
Qed.

Lemma wrap_range sg n z : 0 < n -> in_bits sg n (wrap sg n z).
Proof.
  intros H. destruct (pow2_half n H) as [E P]. unfold in_bits, wrap. destruct sg.
  - pose proof (Z.mod_pos_bound (z + 2 ^ (n - 1)) (2 ^ n)). lia.
  - apply Z.mod_pos_bound. lia.
Qed.

Lemma wrap_eqm sg n z : wrap sg n z mod 2 ^ n = z mod 2 ^ n.
Proof.
  unfold wrap. destruct sg; [|apply Zmod_mod].
  rewrite Zminus_mod_idemp_l. f_equal. lia.
Qed.

Lemma wrap_congr sg n x y : x mod 2 ^ n = y mod 2 ^ n -> wrap sg n x = wrap sg n y.
Proof.
  intros E. unfold wrap. destruct sg; [|exact E].
  rewrite <- (Zplus_mod_idemp_l x), <- (Zplus_mod_idemp_l y), E. reflexivity.
Qed.

Lemma wrap_id sg n z : 0 < n -> in_bits sg n z -> wrap sg n z = z.
Proof.
  intros H R. destruct (pow2_half n H) as [E P]. unfold in_bits, wrap in *. destruct sg.
  - rewrite Z.mod_small; lia.
  - apply Z.mod_small, R.
Qed.

Lemma wrap_unique sg n z r : 0 < n -> in_bits sg n r -> r mod 2 ^ n = z mod 2 ^ n -> wrap sg n z = r.
Proof. intros H R E. rewrite <- (wrap_congr sg n r z E). apply wrap_id; assumption. Qed.

Lemma wrap_mod sg n m z : 0 <= n <= m -> wrap sg n (z mod 2 ^ m) = wrap sg n z.
Proof. intros H. apply wrap_congr, mod_mod_pow2, H. Qed.

Lemma wrap_wrap sg n sg' m z : 0 <= n <= m -> wrap sg n (wrap sg' m z) = wrap sg n z.
Proof. intros H. apply wrap_congr, (eqm_narrow n m); [exact H|]. apply wrap_eqm. Qed.

(* the signed case as most models write it: reduce, then move the upper half of the residues down *)
Lemma wrap_signed_ltb n z : 0 < n ->
  wrap true n z = let u := z mod 2 ^ n in if u <? 2 ^ (n - 1) then u else u - 2 ^ n.
Proof.
  intros H. destruct (pow2_half n H) as [E P]. cbv zeta.
  pose proof (Z.mod_pos_bound z (2 ^ n)).
  apply wrap_unique; [exact H | | ].
  - unfold in_bits. destruct (Z.ltb_spec (z mod 2 ^ n) (2 ^ (n - 1))); lia.
  - destruct (_ <? _); [apply Zmod_mod|].
    rewrite Zminus_mod_idemp_l. apply eqm_divide. exists (-1). lia.
Qed.

Lemma wrap_signed_leb n z : 0 < n ->
  wrap true n z = let u := z mod 2 ^ n in if 2 ^ (n - 1) <=? u then u - 2 ^ n else u.
Proof.
  intros H. rewrite wrap_signed_ltb by exact H. cbv zeta. rewrite Z.leb_antisym.
  destruct (_ <? _); reflexivity.
Qed.

Lemma wrap_fix sg n z : 0 < n -> wrap sg n z = z <-> in_bits sg n z.
Proof. intros H. split; [intros <-; apply wrap_range, H | apply wrap_id, H]. Qed.

(* [wrap_fix] on booleans: the models test that v fits by comparing it with its truncation read back *)
Lemma fits_iff sg n v : 0 < n ->
  (v =? wrap sg n v) =
  if sg then (- 2 ^ (n - 1) <=? v) && (v <=? 2 ^ (n - 1) - 1) else (0 <=? v) && (v <=? 2 ^ n - 1).
Proof.
  intros Hn. pose proof (wrap_fix sg n v Hn) as F. apply eq_iff_eq_true.
  destruct sg; cbn [in_bits] in F; rewrite andb_true_iff, Z.eqb_eq, !Z.leb_le; lia.
Qed.

Lemma in_bits_wider sg n m z : 0 < n <= m -> in_bits sg n z -> in_bits sg m z.
Proof.
  intros H. unfold in_bits. pose proof (pow2_mono (n - 1) (m - 1) ltac:(lia)). pose proof (pow2_mono n m ltac:(lia)).
  destruct sg; lia.
Qed.

Lemma in_bits_unsigned_signed n m z : 0 <= n < m -> in_bits false n z -> in_bits true m z.
Proof. intros H. unfold in_bits. pose proof (pow2_mono n (m - 1) ltac:(lia)). lia. Qed.
