(* Rounding up to a multiple of an alignment.  Every property that models it states it with a function of
   its own (with a division, or, for a power of two, with the mask ~(a-1)); the facts are here once, and
   each directory has a bridge lemma to [roundup] where its function is not [roundup] written again. *)
From Coq Require Import ZArith Lia.
Local Open Scope Z_scope.

Definition is_pow2 (a : Z) : Prop := exists k, 0 <= k /\ a = 2 ^ k.

Definition roundup (x a : Z) : Z := (x + a - 1) / a * a.

Lemma is_pow2_pos a : is_pow2 a -> 0 < a.
Proof. intros (k & Hk & ->). apply Z.pow_pos_nonneg; lia. Qed.

Lemma is_pow2_max x y : is_pow2 x -> is_pow2 y -> is_pow2 (Z.max x y).
Proof. intros. destruct (Z.max_spec x y) as [[_ ->]|[_ ->]]; auto. Qed.

Lemma is_pow2_divide a b : is_pow2 a -> is_pow2 b -> a <= b -> (a | b).
Proof.
  intros (k & Hk & ->) (j & Hj & ->) Hle.
  assert (k <= j) by (apply (Z.pow_le_mono_r_iff 2); lia).
  exists (2 ^ (j - k)). rewrite <- Z.pow_add_r by lia. f_equal. lia.
Qed.

Lemma mask_floor x a : is_pow2 a -> Z.land x (Z.lnot (a - 1)) = x / a * a.
Proof.
  intros (k & Hk & ->). replace (2 ^ k - 1) with (Z.ones k) by (rewrite Z.ones_equiv; lia).
  rewrite <- Z.ldiff_land, Z.ldiff_ones_r, Z.shiftl_mul_pow2, Z.shiftr_div_pow2 by lia. reflexivity.
Qed.

Lemma roundup_bounds x a : 0 < a -> x <= roundup x a < x + a.
Proof.
  intros Ha. unfold roundup.
  pose proof (Z.mul_div_le (x + a - 1) a Ha). pose proof (Z.mul_succ_div_gt (x + a - 1) a Ha). lia.
Qed.

Lemma roundup_divide x a : (a | roundup x a).
Proof. apply Z.divide_factor_r. Qed.

Lemma roundup_fix x a : 0 < a -> (a | x) -> roundup x a = x.
Proof.
  intros Ha [q ->]. unfold roundup. replace (q * a + a - 1) with (a - 1 + q * a) by lia.
  rewrite Z.div_add, Z.div_small by lia. lia.
Qed.
