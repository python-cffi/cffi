(* C36 — progress of the zombie sweep.
   1. a registration (first callback of a thread, run without interruption) always completes: the
      fuel of Model.sweep_all is sufficient in every reachable state (sweep_all_total, for
      C36_registration_total);
   2. fine-grained: whatever the other threads do meanwhile (exits fall between any two sweep steps,
      callbacks of threads that already have a thread state overlap), every canary that is in the zombie
      list when a registration starts has been freed when that registration's sweep loop has ended
      (pending_steps, for C36_sweep_frees_initial_zombies).  Zombies appended DURING the sweep after the loop saw the list empty
      are the residual (they wait for the next registration). *)
From Coq Require Import Arith List Bool Lia.
Import ListNotations.
From Cffi Require Import C36.Model C36.Gen C36.Upd C36.Proofs.

(* steps that sweep_all still has to run: two per queued zombie (pop, clear), then the empty pop and the
   canary; Model.mstep gives it 2 * length + 3 *)
Definition meas (s : state) : nat :=
  match reg s with
  | Some (_, Registering) => 2 * length (zombies s) + 2
  | Some (_, Clearing _ _) => 2 * length (zombies s) + 3
  | Some (_, MakeCanary) => 1
  | None => 1
  end.

Lemma dealloc_len c cf z tl : length (snd (fst (dealloc c cf z tl))) <= length z.
Proof.
  unfold dealloc. destruct (cf c) as [|ts tls zb|]; cbn; auto. destruct zb; auto. apply remove_length_le.
Qed.

Lemma sweep_all_total : forall fuel s, reach s -> meas s <= fuel -> exists s', sweep_all fuel s = Some s'.
Proof.
  induction fuel as [|f IH]; intros s Hr Hm.
  - unfold meas in Hm. destruct (reg s) as [[? [| |]]|]; lia.
  - pose proof (reach_inv s Hr) as HI. cbn [sweep_all]. unfold meas in Hm.
    destruct (reg s) as [[t [|c ts|]]|] eqn:Er.
    + destruct (registering_state _ _ _ HI Er) as (Hf & _).
      assert (exists s1, step_fn s EvSweepPop = Some s1 /\ meas s1 <= f) as (s1 & E1 & M1).
      { unfold step_fn. rewrite Hf, Er.
        destruct (zombies s) as [|c rest] eqn:Ez.
        - eexists; split; [reflexivity|]. unfold meas; cbn [reg zombies]. cbn [length] in Hm. lia.
        - cbn [length] in Hm.
          destruct (cans s c); (eexists; split; [reflexivity|]); unfold meas; cbn [reg zombies]; rewrite ?Er; lia. }
      rewrite E1. apply IH; auto. eapply r_step; eauto.
    + destruct (registering_state _ _ _ HI Er) as (Hf & _).
      assert (exists s1, step_fn s EvSweepClear = Some s1 /\ meas s1 <= f) as (s1 & E1 & M1).
      { unfold step_fn. rewrite Hf, Er.
        destruct (tss s ts) as [|o k d|].
        - eexists; split; [reflexivity|]. unfold meas; cbn [reg zombies]. lia.
        - destruct d as [c'|].
          + pose proof (dealloc_len c' (cans s) (zombies s) (tlsc s)) as Hl.
            destruct (dealloc c' (cans s) (zombies s) (tlsc s)) as [[a b] c0]. cbn [fst snd] in Hl.
            eexists; split; [reflexivity|]. unfold meas; cbn [reg zombies]. lia.
          + eexists; split; [reflexivity|]. unfold meas; cbn [reg zombies]. lia.
        - eexists; split; [reflexivity|]. unfold meas; cbn [reg zombies]. lia. }
      rewrite E1. apply IH; auto. eapply r_step; eauto.
    + destruct (registering_state _ _ _ HI Er) as (Hf & ts & Hg & Hts).
      unfold step_fn. rewrite Hf, Er, Hg, Hts. eexists; reflexivity.
    + eexists; reflexivity.
Qed.

(* canary c is freed, or a sweep loop is running (a registration before its phase MakeCanary) that still
   has it in front of it *)
Definition pending (s : state) (c : nat) : Prop :=
  cans s c = CFreed \/
  ((exists t ph, reg s = Some (t, ph) /\ ph <> MakeCanary) /\
   (In c (zombies s) \/ exists t ts, reg s = Some (t, Clearing c ts))).

(* freed canaries stay freed (ids are never reused); a queued one stays queued until the sweep pops it,
   a popped one is freed by the next sweep step *)
Lemma pending_change s s' x : Inv s -> change s s' -> pending s x -> pending s' x.
Proof.
  intros HI Hc [Hfr|[(t0 & ph & R & Hph) Hq]].
  - (* left over: the constructors that write cans (ch_pop, ch_clear, ch_canary, ch_exit_zombie, ch_finalize, ch_drop) *)
    left. destruct Hc; cbn [cans]; auto.
    + upd_at x c; congruence.
    + upd_at x c; auto.
    + upd_at x (nextc s); [|auto]. rewrite (fresh_canary_free _ _ HI) in Hfr by auto. discriminate.
    + upd_at x c; congruence.
    + rewrite Hfr. reflexivity.
    + upd_at x c; auto.
  - (* the ten constructors of change, in the order of their declaration *)
    destruct Hc; unfold pending; cbn [cans zombies reg].
    + right. eauto 6.
    + congruence.
    + destruct Hq as [Hin|(t1 & ts1 & R1)]; [|congruence]. rewrite Hz in Hin. destruct Hin.
    + destruct Hq as [Hin|(t1 & ts1 & R1)]; [|congruence]. rewrite Hz in Hin.
      right. split; [exists t, (Clearing c ts); split; [reflexivity|discriminate]|].
      destruct Hin as [->|Hin]; eauto.
    + destruct Hq as [Hin|(t1 & ts1 & R1)].
      * right. split; [exists t, Registering; split; [reflexivity|discriminate]|auto].
      * left. rewrite Hr in R1. injection R1 as _ <- _. apply upd_same.
    + rewrite Hr in R. injection R as _ <-. destruct Hph. reflexivity.
    + right. split; [eauto|]. destruct Hq as [Hin|Hq]; [left; apply in_app_iff|]; auto.
    + right. eauto 6.
    + congruence.
    + congruence.
Qed.

Lemma pending_step s e s' c : Inv s -> step s e s' -> pending s c -> pending s' c.
Proof. intros HI Hs. eapply pending_change, step_change; eauto. Qed.

Lemma pending_steps s es s' : reach s -> steps s es s' -> forall c, pending s c -> pending s' c.
Proof.
  intros Hr Hs c. apply (steps_keep (fun s => pending s c)) with es; auto.
  intros s0 e s1 HI H1. eapply pending_step; eauto.
Qed.

(* executable fine-grained runner, for the Examples of C36/Props.v *)
Fixpoint frun (s : state) (es : list event) : option state :=
  match es with
  | [] => Some s
  | e :: rest => match step_fn s e with Some s1 => frun s1 rest | None => None end
  end.

Lemma frun_steps : forall es s s', frun s es = Some s' -> steps s es s'.
Proof.
  induction es as [|e es IH]; intros s s' H; cbn [frun] in H.
  - inversion H; subst. constructor.
  - destruct (step_fn s e) as [s1|] eqn:E; [|discriminate]. econstructor; [exact E|]. apply IH; auto.
Qed.

Lemma frun_reach : forall es s s', reach s -> frun s es = Some s' -> reach s'.
Proof. intros es s s' Hr H. eapply steps_reach; [exact Hr | apply frun_steps, H]. Qed.
