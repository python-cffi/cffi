(* C36 — the pointer-level zombie ring: the regenerated straight-line code of
   thread_canary_make_zombie / _thread_canary_detach_with_lock implements append / removal on the
   sequence that C36/Model.v uses. *)
From Coq Require Import Arith List Bool Lia.
Import ListNotations.
From Cffi Require Import Base.ListFacts C36.Ptr C36.Gen C36.Upd.

Lemma chain_frame : forall l f g a z,
  (forall x, In x (a :: l) -> g x = f x) -> chain f a l z -> chain g a l z.
Proof.
  induction l as [|x r IH]; intros f g a z Hfg H; cbn in *.
  - rewrite Hfg; auto.
  - destruct H as [H1 H2]. split; [rewrite Hfg; auto|]. apply (IH f); auto.
Qed.

Lemma last_cons (x : nat) r a : last (x :: r) a = last r x.
Proof. revert x. induction r as [|y r IH]; intros x; [reflexivity|]. cbn [last] in *. destruct r; auto. Qed.

Lemma last_in (r : list nat) x : In (last r x) (x :: r).
Proof. revert x. induction r as [|y r IH]; intros x; [left; reflexivity|]. rewrite last_cons. right. apply IH. Qed.

Lemma last_rev_hd (l : list nat) d : last l d = hd d (rev l).
Proof.
  destruct l as [|x l] using rev_ind; [reflexivity|]. rewrite last_last, rev_app_distr. reflexivity.
Qed.

(* writing next[c] = z and next[last] = c appends c *)
Lemma chain_snoc : forall l f a c z,
  NoDup (a :: l) -> ~ In c (a :: l) -> chain f a l z ->
  chain (upd (upd f c (Some z)) (last l a) (Some c)) a (l ++ [c]) z.
Proof.
  induction l as [|x r IH]; intros f a c z Hnd Hc H.
  - cbn. split; [apply upd_same|]. rewrite upd_other, upd_same; auto. intros ->. apply Hc. left; reflexivity.
  - cbn [chain app] in *. destruct H as [H1 H2]. rewrite last_cons. split.
    + rewrite !upd_other; auto.
      * intros ->. apply Hc. left; reflexivity.
      * intros E. apply NoDup_cons_iff in Hnd. destruct Hnd as [Hnin _]. apply Hnin. rewrite E. apply last_in.
    + apply IH; auto.
      * apply NoDup_cons_iff in Hnd. tauto.
      * intros Hin. apply Hc. right. exact Hin.
Qed.

Lemma ring_prev_head h l : ring h l -> hprev h 0 = Some (last l 0).
Proof.
  intros (_ & _ & Hp & _). rewrite last_rev_hd. destruct (rev l); cbn in *; tauto.
Qed.

(* thread_canary_make_zombie appends *)
Lemma make_zombie_appends h l c : ring h l -> ~ In c (0 :: l) ->
  exists e' h', exec_p gen_make_zombie (env0 c) h = Some (e', h') /\ ring h' (l ++ [c]).
Proof.
  intros Hr Hc. pose proof (ring_prev_head h l Hr) as Hp0.
  destruct Hr as (Hnd & Hn & Hp & Hu).
  unfold gen_make_zombie. cbn [exec_p env0 setv pvar_eqb getf]. rewrite Hp0. cbn [exec_p setv pvar_eqb setf hnext hprev].
  eexists; eexists; split; [reflexivity|].
  assert (Hc0 : c <> 0) by (intros ->; apply Hc; left; reflexivity).
  assert (Hlast : In (last l 0) (0 :: l)) by apply last_in.
  split; [|split; [|split]].
  - apply (NoDup_snoc (0 :: l)); assumption.
  - cbn [hnext]. apply chain_snoc; auto.
  - cbn [hprev]. rewrite rev_app_distr. cbn [rev app chain]. split; [apply upd_same|].
    rewrite last_rev_hd in *. destruct (rev l) as [|y r] eqn:Er; cbn [hd chain] in *.
    + rewrite upd_other, upd_same; auto.
    + destruct Hp as [Hp1 Hp2]. split; [rewrite upd_other, upd_same; auto|].
      apply (chain_frame r (hprev h)); auto. intros x Hx.
      assert (In x l) by (apply in_rev; rewrite Er; exact Hx).
      assert (x <> 0) by (intros E0; subst x; apply NoDup_cons_iff in Hnd; destruct Hnd as [Hn0 _]; apply Hn0; assumption).
      assert (x <> c) by (intros Ec; subst x; apply Hc; right; assumption).
      rewrite !upd_other; auto.
  - (* unlinked nodes keep NULL fields *)
    intros x Hx. cbn [hnext hprev].
    assert (x <> c) by (intros ->; apply Hx; right; rewrite in_app_iff; right; left; reflexivity).
    assert (~ In x (0 :: l)) by (intros [H0|H0]; apply Hx; [left; auto|right; rewrite in_app_iff; left; auto]).
    assert (x <> last l 0) by (intros ->; contradiction).
    assert (x <> 0) by (intros ->; apply Hx; left; reflexivity).
    rewrite !upd_other; auto.
Qed.

(* what thread_canary_free_zombies reads under the lock: head.next is the first element, or the
   head itself exactly when the list is empty (the fast-path test) *)
Lemma ring_head h l : ring h l -> hnext h 0 = Some (hd 0 l) /\ (hd 0 l = 0 <-> l = []).
Proof.
  intros (Hnd & Hn & _). split; [destruct l; cbn in *; tauto|]. destruct l as [|x l]; cbn.
  - tauto.
  - split; [|discriminate]. intros ->. inversion Hnd; subst. exfalso. apply H1. left; reflexivity.
Qed.

(* "is a zombie" test of thread_canary_dealloc / make_zombie: zombie_next != NULL iff linked *)
Lemma ring_linked_iff h l c : ring h l -> c <> 0 -> (hnext h c <> None <-> In c l).
Proof.
  intros (Hnd & Hn & Hp & Hu) Hc0. split.
  - intros Hne. destruct (in_dec Nat.eq_dec c l) as [|Hnin]; auto. exfalso. apply Hne.
    apply Hu. intros [H|H]; [congruence|contradiction].
  - intros Hin. clear Hp Hu Hnd. revert Hn. generalize 0 at 1. induction l as [|x r IH]; [destruct Hin|].
    intros a [H1 H2]. destruct Hin as [->|Hin].
    + destruct r; cbn in H2; [rewrite H2|destruct H2 as [H2 _]; rewrite H2]; discriminate.
    + eapply IH; eauto.
Qed.

Lemma chain_app : forall l1 f a c l2 z,
  chain f a (l1 ++ c :: l2) z -> chain f a l1 c /\ chain f c l2 z.
Proof.
  induction l1 as [|x r IH]; intros f a c l2 z H; cbn in *.
  - destruct H; auto.
  - destruct H as [H1 H2]. destruct (IH _ _ _ _ _ H2). auto.
Qed.

Lemma chain_head f a l z : chain f a l z -> f a = Some (hd z l).
Proof. destruct l; cbn; tauto. Qed.

Lemma hd_in (l : list nat) z : In (hd z l) (z :: l).
Proof. destruct l; cbn; auto. Qed.

(* bypass: a ... last(l1) -> c -> l2 ... z  becomes  a ... last(l1) -> l2 ... z *)
Lemma chain_bypass : forall l1 f a c l2 z,
  NoDup (a :: l1 ++ c :: l2) ->
  chain f a l1 c -> chain f c l2 z ->
  chain (upd f (last l1 a) (Some (hd z l2))) a (l1 ++ l2) z.
Proof.
  induction l1 as [|x r IH]; intros f a c l2 z Hnd H1 H2.
  - cbn [last app]. destruct l2 as [|y r2]; cbn [hd chain] in *.
    + apply upd_same.
    + destruct H2 as [H2 H3]. split; [apply upd_same|].
      apply (chain_frame r2 f); auto. intros u Hu. apply upd_other. intros ->.
      apply NoDup_cons_iff in Hnd. destruct Hnd as [Hn _]. apply Hn. cbn. right. exact Hu.
  - cbn [chain app] in *. destruct H1 as [H1 H1']. rewrite last_cons. split.
    + rewrite upd_other; auto. intros E.
      apply NoDup_cons_iff in Hnd. destruct Hnd as [Hn _]. apply Hn.
      pose proof (last_in r x) as Hl. rewrite <- E in Hl.
      destruct Hl as [->|Hl]; [left; reflexivity|right; rewrite in_app_iff; left; exact Hl].
    + apply (IH f x c l2 z); auto. apply NoDup_cons_iff in Hnd. tauto.
Qed.

Lemma remove_split (c : nat) l1 l2 : ~ In c l1 -> ~ In c l2 ->
  remove Nat.eq_dec c (l1 ++ c :: l2) = l1 ++ l2.
Proof.
  intros H1 H2. rewrite remove_app. cbn [remove]. destruct (Nat.eq_dec c c); [|congruence].
  rewrite !notin_remove; auto.
Qed.

(* _thread_canary_detach_with_lock removes *)
Lemma detach_removes h l c : ring h l -> In c l ->
  exists e' h', exec_p gen_detach (env0 (c)) h = Some (e', h') /\ ring h' (remove Nat.eq_dec c l).
Proof.
  intros (Hnd & Hn & Hp & Hu) Hin.
  destruct (in_split _ _ Hin) as (l1 & l2 & ->).
  assert (Hc1 : ~ In c l1 /\ ~ In c l2 /\ c <> 0).
  { apply NoDup_cons_iff in Hnd. destruct Hnd as [H0 Hl]. apply NoDup_remove_2 in Hl.
    rewrite in_app_iff in Hl. repeat split; try tauto. intros ->. apply H0. rewrite in_app_iff. right; left; auto. }
  destruct Hc1 as (Hc1 & Hc2 & Hc0).
  rewrite remove_split by assumption.
  destruct (chain_app _ _ _ _ _ _ Hn) as [Hn1 Hn2].
  rewrite rev_app_distr in Hp. cbn [rev] in Hp. rewrite <- app_assoc in Hp. cbn [app] in Hp.
  destruct (chain_app _ _ _ _ _ _ Hp) as [Hp1 Hp2].
  pose proof (chain_head _ _ _ _ Hn2) as Hnc. pose proof (chain_head _ _ _ _ Hp2) as Hpc.
  unfold gen_detach. cbn [exec_p env0 setv pvar_eqb getf]. rewrite Hpc, Hnc.
  cbn [exec_p setv pvar_eqb setf hnext hprev].
  eexists; eexists; split; [reflexivity|].
  assert (Hnd' : NoDup (0 :: l1 ++ l2)).
  { apply NoDup_cons_iff in Hnd. destruct Hnd as [H0 Hl]. constructor.
    - intros H. apply H0. rewrite in_app_iff in *. destruct H; [left|right; right]; auto.
    - eapply NoDup_remove_1; eauto. }
  assert (Hp_in : In (hd 0 (rev l1)) (0 :: l1)).
  { destruct (hd_in (rev l1) 0) as [E|E]; [left; auto|right; apply in_rev; exact E]. }
  assert (Hn_in : In (hd 0 l2) (0 :: l2)) by apply hd_in.
  assert (Hpc' : hd 0 (rev l1) <> c).
  { intros E. rewrite E in Hp_in. destruct Hp_in; [congruence|contradiction]. }
  assert (Hnc' : hd 0 l2 <> c).
  { intros E. rewrite E in Hn_in. destruct Hn_in; [congruence|contradiction]. }
  split; [exact Hnd'|]. split; [|split].
  - (* next: p = last l1 0 *)
    cbn [hnext]. rewrite <- last_rev_hd.
    apply (chain_frame (l1 ++ l2) (upd (hnext h) (last l1 0) (Some (hd 0 l2)))).
    + intros x Hx. apply upd_other. intros ->. destruct Hx as [E|Hx]; [congruence|].
      rewrite in_app_iff in Hx. tauto.
    + apply (chain_bypass l1 (hnext h) 0 c l2 0); auto.
  - (* prev: the same bypass on the reversed list *)
    cbn [hprev]. rewrite rev_app_distr.
    apply (chain_frame (rev l2 ++ rev l1) (upd (hprev h) (hd 0 l2) (Some (hd 0 (rev l1))))).
    + intros x Hx. apply upd_other. intros ->. destruct Hx as [E|Hx]; [congruence|].
      rewrite in_app_iff, <- !in_rev in Hx. tauto.
    + replace (hd 0 l2) with (last (rev l2) 0) by (rewrite last_rev_hd, rev_involutive; reflexivity).
      apply (chain_bypass (rev l2) (hprev h) 0 c (rev l1) 0); auto.
      apply NoDup_cons_iff in Hnd. destruct Hnd as [H0 Hl]. constructor.
      * intros H. apply H0. rewrite in_app_iff in H |- *. cbn [In] in H |- *. rewrite <- !in_rev in H. clear - H. tauto.
      * replace (rev l2 ++ c :: rev l1) with (rev (l1 ++ c :: l2)).
        -- apply NoDup_rev. exact Hl.
        -- rewrite rev_app_distr. cbn [rev]. rewrite <- app_assoc. reflexivity.
  - intros x Hx. cbn [hnext hprev]. destruct (Nat.eq_dec x c) as [->|Hxc].
    + rewrite !upd_same. auto.
    + assert (Hx' : ~ In x (0 :: l1 ++ c :: l2)).
      { intros [E|E]; apply Hx; [left; auto|]. right. rewrite in_app_iff in *. cbn in E. destruct E as [E|[E|E]]; try tauto; congruence. }
      destruct (Hu x Hx') as [E1 E2].
      assert (x <> hd 0 (rev l1)).
      { intros ->. apply Hx. destruct Hp_in as [E|E]; [left; auto|right; rewrite in_app_iff; left; auto]. }
      assert (x <> hd 0 l2).
      { intros ->. apply Hx. destruct Hn_in as [E|E]; [left; auto|right; rewrite in_app_iff; right; auto]. }
      rewrite !upd_other; auto.
Qed.
