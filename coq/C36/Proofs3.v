(* C36 — the regenerated locked regions (C36/Gen.v: gen_shutdown_locked, gen_dealloc_locked,
   gen_sweep_locked; src/c/misc_thread_common.h 278-283, 109-123, 157-166) implement, on a heap whose
   zombie_next/zombie_prev fields form `ring (rp h) l`, the list operations that C36/Model.v performs on
   `zombies s`:
     cffi_thread_shutdown   ~ Model.do_exit     append the thread's canary, clear its ->tls   (or nothing)
     thread_canary_dealloc  ~ Model.dealloc     remove the canary if linked, clear tls->local_thread_canary
     free_zombies (locked)  ~ step EvSweepPop   pop the first zombie and read its ->tstate    (or see "empty")
   Proved for any ring code with the append/remove behaviour (Section Locked); C36/Props.v instantiates the
   lemmas with the regenerated gen_make_zombie / gen_detach (make_zombie_appends, detach_removes of Proofs2.v). *)
From Coq Require Import Arith List Bool Lia.
Import ListNotations.
From Cffi Require Import C36.Ptr C36.Gen C36.Proofs2.

Lemma ring_unlinked_null h l c : ring h l -> ~ In c (0 :: l) -> hnext h c = None.
Proof. intros (_ & _ & _ & Hu) Hc. apply Hu. exact Hc. Qed.

Lemma ring_in_nonzero h l c : ring h l -> In c l -> c <> 0.
Proof. intros (Hnd & _) Hin ->. inversion Hnd; subst. contradiction. Qed.

Section Locked.
Variables (mz det : list pstmt) (guarded : bool).
Hypothesis Hmz : forall h l c, ring h l -> ~ In c (0 :: l) ->
  exists e' h', exec_p mz (env0 c) h = Some (e', h') /\ ring h' (l ++ [c]).
Hypothesis Hdet : forall h l c, ring h l -> In c l ->
  exists e' h', exec_p det (env0 c) h = Some (e', h') /\ ring h' (remove Nat.eq_dec c l).

(* cffi_thread_shutdown, the thread has a canary that is not linked: it is appended, its ->tls cleared *)
Lemma shutdown_links_S (h : xheap) l u c :
  ring (rp h) l -> tloc h u = Some c -> ~ In c (0 :: l) ->
  exists e' r', exec_x mz det guarded gen_shutdown_locked (xenv_tls u) h
                = Some (e', mkX r' (upd (ctls h) c None) (ctst h) (tloc h)) /\ ring r' (l ++ [c]).
Proof.
  intros Hr Hl Hc.
  pose proof (ring_unlinked_null _ _ _ Hr Hc) as Hn.
  destruct (Hmz (rp h) l c Hr Hc) as (e1 & r1 & He & Hring).
  unfold gen_shutdown_locked. cbn. rewrite Hl. cbn. rewrite Hl. cbn. rewrite Hn, andb_false_r, He.
  eexists; eexists; split; [reflexivity|exact Hring].
Qed.

(* ... the thread has no canary (never called back, or the canary was deallocated): nothing happens *)
Lemma shutdown_nothing_S (h : xheap) u :
  tloc h u = None -> exists e', exec_x mz det guarded gen_shutdown_locked (xenv_tls u) h = Some (e', h).
Proof. intros Hl. unfold gen_shutdown_locked. cbn. rewrite Hl. cbn. eexists; reflexivity. Qed.

(* ... its canary is already linked: the Py_FatalError of thread_canary_make_zombie (needs the guard) *)
Lemma shutdown_twice_fatal_S (h : xheap) l u c :
  guarded = true -> ring (rp h) l -> tloc h u = Some c -> In c l ->
  exec_x mz det guarded gen_shutdown_locked (xenv_tls u) h = None.
Proof.
  intros -> Hr Hl Hin.
  assert (Hn : hnext (rp h) c <> None).
  { apply (ring_linked_iff _ l); auto. eapply ring_in_nonzero; eauto. }
  unfold gen_shutdown_locked. cbn. rewrite Hl. cbn. rewrite Hl. cbn.
  destruct (hnext (rp h) c); [reflexivity|congruence].
Qed.

(* thread_canary_dealloc: unlinked if it was linked; the owning thread's tls no longer points to it *)
Lemma dealloc_S (h : xheap) l c :
  ring (rp h) l -> c <> 0 ->
  exists e' r', exec_x mz det guarded gen_dealloc_locked (xenv_ob c) h
                = Some (e', mkX r' (ctls h) (ctst h)
                                (match ctls h c with Some u => upd (tloc h) u None | None => tloc h end))
                /\ ring r' (remove Nat.eq_dec c l).
Proof.
  intros Hr Hc0. unfold gen_dealloc_locked.
  destruct (in_dec Nat.eq_dec c l) as [Hin|Hnin].
  - assert (Hn : hnext (rp h) c <> None) by (apply (ring_linked_iff _ l); auto).
    destruct (Hdet (rp h) l c Hr Hin) as (e1 & r1 & He & Hring).
    cbn. destruct (hnext (rp h) c) eqn:En; [|congruence]. cbn. rewrite He. cbn.
    destruct (ctls h c) as [u|]; cbn; (eexists; eexists; split; [reflexivity|exact Hring]).
  - assert (Hn : hnext (rp h) c = None).
    { eapply ring_unlinked_null; eauto. intros [E|E]; [congruence|contradiction]. }
    rewrite notin_remove by assumption.
    cbn. rewrite Hn. cbn.
    destruct h as [r a b t]; cbn in *.
    destruct (a c) as [u|]; cbn; (eexists; eexists; split; [reflexivity|exact Hr]).
Qed.

(* the locked region of thread_canary_free_zombies: on an empty list tstate stays NULL (the loop ends) and
   nothing is written; otherwise the FIRST zombie is popped and tstate is its ->tstate *)
Lemma sweep_S (h : xheap) l :
  ring (rp h) l -> (forall c, In c l -> ctst h c <> None) ->
  exists e' h', exec_x mz det guarded gen_sweep_locked xenv_none h = Some (e', h') /\
    ctls h' = ctls h /\ ctst h' = ctst h /\ tloc h' = tloc h /\
    match l with
    | [] => e' XTstate = None /\ rp h' = rp h
    | c :: rest => e' XOb = Some c /\ e' XTstate = ctst h c /\ ring (rp h') rest
    end.
Proof.
  intros Hr Hts. destruct (ring_head _ _ Hr) as [Hh _].
  unfold gen_sweep_locked. cbn. rewrite Hh.
  destruct l as [|c rest]; cbn.
  - eexists; eexists; split; [reflexivity|]. repeat split; reflexivity.
  - assert (Hin : In c (c :: rest)) by (left; reflexivity).
    pose proof (ring_in_nonzero _ _ _ Hr Hin) as Hc0.
    destruct c as [|c']; [congruence|].
    destruct (Hdet (rp h) _ _ Hr Hin) as (e1 & r1 & He & Hring).
    cbn. rewrite He. cbn.
    destruct (ctst h (S c')) eqn:Et; [|exfalso; eapply Hts; eauto].
    cbn. eexists; eexists; split; [reflexivity|]. cbn.
    do 5 (split; [first [reflexivity | symmetry; exact Et | exact Et]|]).
    assert (Hnin : ~ In (S c') rest).
    { destruct Hr as (Hnd & _). inversion Hnd as [|? ? _ Hnd']; subst. inversion Hnd'; subst. assumption. }
    cbn [remove] in Hring. destruct (Nat.eq_dec (S c') (S c')); [|congruence].
    rewrite notin_remove in Hring by exact Hnin. exact Hring.
Qed.
End Locked.

(* the interpreter of the locked regions, with the regenerated ring code and guard: the *_S lemmas apply to
   it by make_zombie_appends / detach_removes (C36/Props.v) *)
Definition run_x := exec_x gen_make_zombie gen_detach gen_make_zombie_guarded.

