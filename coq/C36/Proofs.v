(* C36 — proofs: inductive invariant of the thread-state / canary / zombie-list system, for any number of
   threads and any order of events.

   A thread gets at most one thread state in its life and that thread state at most one canary, so the state
   is a set of bundles (a thread, its thread state, its canary), one per thread.  The invariant
   (`Inv s := exists A, Rep A s`) gives every thread t a phase `A t` of one lifecycle (`life`)

       Fresh -> Reg -> Live -> Dropped
                        Live -> Zombie -> Popped -> Gone      (Py_Finalize: every phase with a thread state -> Gone)

   and says, by one table (`rep`: ts_val, can_val, tls_val, side), what the cells of t's bundle hold in that
   phase; the clauses of `Rep` tie the bundles to the shared cells: the id counters, the zombie list, the
   registration in progress.  Under the invariant a step is one of ten kinds of `change` (step_change).  Each
   kind is one arrow of the lifecycle on one bundle: the cells it writes are checked against the table's row
   of the new phase, and every other bundle keeps its phase by the one frame lemma `rep_frame`, because the
   cells written are not its own (ts_owner, c_owner, other_ts, other_c, fresh_ts, fresh_c) (change_inv).
   What comes after change_inv uses the invariant only through reading lemmas (live_state .. zombie_facts,
   ndel_le_1, exited_not_leaked): each finds the phase of the bundle concerned and reads its row.
   The end of the file is about the macro runner of the correspondence (Model.sweep_all, Model.mstep): it runs
   executions of the fine-grained system (mstep_steps), so it visits reachable states only (mstep_reach) and keeps
   what every step keeps (steps_keep), and a registration run to its end leaves the zombie list empty
   (registration_empties, swept_means_destroyed). *)
From Coq Require Import Arith List Bool Lia.
Import ListNotations.
From Cffi Require Import Base.ListFacts C36.Model C36.Gen C36.Upd.

Definition b2n (b : bool) : nat := if b then 1 else 0.
(* how many unreturned gil_ensure / PyGILState_Ensure calls the thread has on its thread state *)
Definition load (s : state) (t : nat) : nat := b2n (incb s t) + nest s t + b2n (ownb s t).

(* Where a thread stands between its first callback and the deletion of its thread state, in the terms of
   misc_thread_common.h: gil_ensure's slow path makes the thread state (PyGILState_Ensure) and
   thread_canary_register the canary; cffi_thread_shutdown queues the canary (thread_canary_make_zombie); the
   thread_canary_free_zombies of a later registration pops it, then clears and deletes the thread state. *)
Inductive life :=
| Fresh                  (* no thread state yet (the thread may exit in this phase) *)
| Reg (ts : nat)         (* inside thread_canary_register, GIL held: thread state ts, counter 1, no canary *)
| Live (ts c : nat)      (* registered: canary c in ts's dict and in tls->local_thread_canary, c->tls set *)
| Dropped (ts : nat)     (* the canary was deallocated under cffi's feet (EvDictDrop); the keep-alive reference
                            on gilstate_counter stays, so ts outlives the thread, until Py_Finalize *)
| Zombie (ts c : nat)    (* the thread has exited: c->tls is NULL and c is linked in the zombie list *)
| Popped (ts c : nat)    (* the sweep of a registering thread has unlinked c and is about to Clear + Delete ts *)
| Gone (ts : nat).       (* ts deleted (by the sweep or by Py_Finalize) *)

Definition ts_of (l : life) : option nat :=
  match l with
  | Fresh => None
  | Reg ts | Live ts _ | Dropped ts | Zombie ts _ | Popped ts _ | Gone ts => Some ts
  end.
Definition c_of (l : life) : option nat :=
  match l with Live _ c | Zombie _ c | Popped _ c => Some c | _ => None end.

Definition ts_val (t : nat) (l : life) (k : nat) : tsst :=
  match l with
  | Fresh => TsFree
  | Reg _ => TsLive t 1 None
  | Live _ c | Zombie _ c | Popped _ c => TsLive t k (Some c)
  | Dropped _ => TsLive t k None
  | Gone _ => TsDeleted
  end.
Definition can_val (t : nat) (l : life) : cast :=
  match l with
  | Live ts _ => CAlive ts (Some t) false
  | Zombie ts _ => CAlive ts None true
  | Popped ts _ => CAlive ts None false
  | _ => CFree
  end.
Definition tls_val (l : life) (x : option (option nat)) : Prop :=
  match l with Live _ c => x = Some (Some c) | _ => forall c, x <> Some (Some c) end.

(* the rest: the thread's own flags, the counter, and where the rest of the state knows the bundle *)
Definition side (s : state) (t : nat) (l : life) (k : nat) : Prop :=
  match l with
  | Fresh => nest s t = 0 /\ ownb s t = false
  | Reg ts => dropped s ts = false /\ thr s t = Alive /\ load s t = 0 /\ exists ph, reg s = Some (t, ph)
  | Live _ _ => thr s t = Alive /\ load s t + 1 <= k
  | Dropped ts => dropped s ts = true /\ 1 <= k /\ (thr s t = Alive -> load s t + 1 <= k)
  | Zombie _ c => thr s t = Exited /\ 1 <= k /\ In c (zombies s)
  | Popped ts c => thr s t = Exited /\ 1 <= k /\ exists u, reg s = Some (u, Clearing c ts)
  | Gone _ => thr s t = Exited \/ finalized s = true
  end.

(* the row of phase l.  The counter k is existential: the table fixes it in phase Reg only, elsewhere `side`
   bounds it from below; the thread's tls slot points to a canary in phase Live only *)
Definition rep (s : state) (t : nat) (l : life) : Prop :=
  gts s t = ts_of l /\ tls_val l (tlsc s t) /\
  exists k, (forall ts, ts_of l = Some ts -> tss s ts = ts_val t l k) /\
            (forall c, c_of l = Some c -> cans s c = can_val t l) /\ side s t l k.

(* ids are handed out in order; a thread state is deleted once *)
Definition ids (s : state) : Prop :=
  (forall ts, match tss s ts with
              | TsFree => nextts s <= ts /\ ndel s ts = 0 /\ dropped s ts = false
              | TsLive _ _ _ => ts < nextts s /\ ndel s ts = 0 /\ finalized s = false
              | TsDeleted => ts < nextts s /\ ndel s ts = 1
              end) /\
  (forall c, match cans s c with CFree => nextc s <= c | _ => c < nextc s end).

Record Rep (A : nat -> life) (s : state) : Prop := mkRep {
  rA : fatal s = false;
  rI : ids s;
  rT : forall t, rep s t (A t);
  (* every live thread state is in its owner's bundle; the zombie list links
     bundles in phase Zombie; a registration is its thread's phase Reg and, in Clearing, some bundle's Popped.
     That every allocated canary is in some bundle is not said: nothing needs it *)
  rTs : forall ts o k d, tss s ts = TsLive o k d -> ts_of (A o) = Some ts;
  rB : NoDup (zombies s);
  rZ : forall c, In c (zombies s) -> exists o ts, A o = Zombie ts c;
  rR : forall t ph, reg s = Some (t, ph) ->
         finalized s = false /\ (exists ts, A t = Reg ts) /\
         forall c ts, ph = Clearing c ts -> exists o, A o = Popped ts c
}.

Definition Inv (s : state) : Prop := exists A, Rep A s.

Lemma busy_false s t : busy s t = false -> forall ph, reg s <> Some (t, ph).
Proof. unfold busy. intros H ph E. rewrite E in H. rewrite Nat.eqb_refl in H. discriminate. Qed.

(* The ways a step changes a state that satisfies the invariant.  The branches of step_fn that set
   `fatal`, and the destruction of a thread state by gil_release, do not occur there (step_change). *)
Inductive change (s : state) : state -> Prop :=
(* EvCb on an existing thread state, EvCbEnd, EvCbNested, EvCbNestedEnd, EvOwnEnsure, EvOwnRelease: the
   counter of the thread's own state moves with its incb / nest / ownb, and still covers them *)
| ch_counter t ts k d k' ib ne ow
    (Hf : finalized s = false) (Ha : thr s t = Alive) (Hts : tss s ts = TsLive t k d)
    (Hnr : forall ph, reg s <> Some (t, ph))
    (Hfr : forall u, u <> t -> ib u = incb s u /\ ne u = nest s u /\ ow u = ownb s u)
    (Hk : b2n (ib t) + ne t + b2n (ow t) + 1 <= k') :
    change s (mkSt (thr s) (gts s) (tlsc s) ib (upd (tss s) ts (TsLive t k' d)) (cans s) (zombies s) (reg s)
                   (nextts s) (nextc s) (ndel s) false (fatal s) (dropped s) ne ow)
(* EvCb of a thread without thread state: gil_ensure's slow path makes one and the registration starts *)
| ch_alloc t
    (Hf : finalized s = false) (Ha : thr s t = Alive) (Hi : incb s t = false) (Hg : gts s t = None)
    (Hr : reg s = None) :
    change s (mkSt (thr s) (upd (gts s) t (Some (nextts s))) (tlsc s) (incb s)
                   (upd (tss s) (nextts s) (TsLive t 1 None)) (cans s) (zombies s) (Some (t, Registering))
                   (S (nextts s)) (nextc s) (ndel s) false (fatal s) (dropped s) (nest s) (ownb s))
(* EvSweepPop on an empty list: the sweep loop of the registration ends *)
| ch_pop_empty t
    (Hf : finalized s = false) (Hr : reg s = Some (t, Registering)) (Hz : zombies s = []) :
    change s (mkSt (thr s) (gts s) (tlsc s) (incb s) (tss s) (cans s) [] (Some (t, MakeCanary))
                   (nextts s) (nextc s) (ndel s) false (fatal s) (dropped s) (nest s) (ownb s))
(* EvSweepPop: the first zombie is unlinked *)
| ch_pop t c rest ts
    (Hf : finalized s = false) (Hr : reg s = Some (t, Registering)) (Hz : zombies s = c :: rest)
    (Hc : cans s c = CAlive ts None true) :
    change s (mkSt (thr s) (gts s) (tlsc s) (incb s) (tss s) (upd (cans s) c (CAlive ts None false)) rest
                   (Some (t, Clearing c ts)) (nextts s) (nextc s) (ndel s) false (fatal s) (dropped s)
                   (nest s) (ownb s))
(* EvSweepClear: the popped canary is unlinked and its ->tls is NULL, so dealloc only frees it *)
| ch_clear t c ts o k
    (Hf : finalized s = false) (Hr : reg s = Some (t, Clearing c ts)) (Hc : cans s c = CAlive ts None false)
    (Hts : tss s ts = TsLive o k (Some c)) :
    change s (mkSt (thr s) (gts s) (tlsc s) (incb s) (upd (tss s) ts TsDeleted) (upd (cans s) c CFreed)
                   (zombies s) (Some (t, Registering)) (nextts s) (nextc s)
                   (upd (ndel s) ts (S (ndel s ts))) false (fatal s) (dropped s) (nest s) (ownb s))
(* EvMakeCanary: the registration ends; the new canary is in the dict and the tls slot, the callback is entered *)
| ch_canary t ts
    (Hf : finalized s = false) (Hr : reg s = Some (t, MakeCanary)) (Hg : gts s t = Some ts)
    (Hts : tss s ts = TsLive t 1 None) :
    change s (mkSt (thr s) (gts s) (upd (tlsc s) t (Some (Some (nextc s)))) (upd (incb s) t true)
                   (upd (tss s) ts (TsLive t 2 (Some (nextc s))))
                   (upd (cans s) (nextc s) (CAlive ts (Some t) false)) (zombies s) None
                   (nextts s) (S (nextc s)) (ndel s) false (fatal s) (dropped s) (nest s) (ownb s))
(* EvExit of a thread whose tls slot holds a canary: cffi_thread_shutdown queues it *)
| ch_exit_zombie t c ts
    (Hnr : forall ph, reg s <> Some (t, ph)) (Hl : tlsc s t = Some (Some c))
    (Hc : cans s c = CAlive ts (Some t) false) :
    change s (mkSt (upd (thr s) t Exited) (gts s) (upd (tlsc s) t None) (incb s) (tss s)
                   (upd (cans s) c (CAlive ts None true)) (zombies s ++ [c]) (reg s)
                   (nextts s) (nextc s) (ndel s) (finalized s) (fatal s) (dropped s) (nest s) (ownb s))
(* EvExit of a thread whose tls slot holds no canary: only the thread and its slot change *)
| ch_exit_plain t
    (Hnr : forall ph, reg s <> Some (t, ph)) (Hl : forall c, tlsc s t <> Some (Some c)) :
    change s (mkSt (upd (thr s) t Exited) (gts s) (upd (tlsc s) t None) (incb s) (tss s)
                   (cans s) (zombies s) (reg s)
                   (nextts s) (nextc s) (ndel s) (finalized s) (fatal s) (dropped s) (nest s) (ownb s))
(* EvFinalize (Py_Finalize): every live thread state is deleted, every allocated canary freed *)
| ch_finalize
    (Hf : finalized s = false) (Hr : reg s = None) :
    change s (mkSt (thr s) (gts s)
                   (fun t => match tlsc s t with Some _ => Some None | None => None end)
                   (incb s)
                   (fun ts => match tss s ts with TsLive _ _ _ => TsDeleted | x => x end)
                   (fun c => match cans s c with CAlive _ _ _ => CFreed | x => x end)
                   [] None (nextts s) (nextc s)
                   (fun ts => match tss s ts with TsLive _ _ _ => S (ndel s ts) | _ => ndel s ts end)
                   true (fatal s) (dropped s) (nest s) (ownb s))
(* EvDictDrop: the canary is the live thread's own, unlinked; dealloc clears the tls back-pointer *)
| ch_drop t ts k c
    (Hf : finalized s = false) (Ha : thr s t = Alive) (Hr : reg s = None) (Hg : gts s t = Some ts)
    (Hts : tss s ts = TsLive t k (Some c)) (Hc : cans s c = CAlive ts (Some t) false) :
    change s (mkSt (thr s) (gts s) (upd (tlsc s) t (Some None)) (incb s) (upd (tss s) ts (TsLive t k None))
                   (upd (cans s) c CFreed) (zombies s) (reg s) (nextts s) (nextc s) (ndel s) false (fatal s)
                   (upd (dropped s) ts true) (nest s) (ownb s)).

Ltac fields := cbn [thr gts tlsc incb tss cans zombies reg nextts nextc ndel finalized fatal dropped nest ownb] in *.

(* the two cases of a lookup `upd f b v a`, in the goal (and in the hypotheses named) *)
Tactic Notation "upd_at" constr(a) constr(b) :=
  destruct (Nat.eq_dec a b) as [->|]; [rewrite ?upd_same | rewrite ?upd_other by assumption].
Tactic Notation "upd_at" constr(a) constr(b) "in" ne_hyp_list(Hs) :=
  revert Hs; upd_at a b; intros Hs.

Lemma inv_init : Inv init.
Proof.
  exists (fun _ => Fresh). constructor; try (cbn; discriminate).
  - reflexivity.
  - split; intros; cbn; auto with arith.
  - intros t. split; [reflexivity|]. split; [cbn; discriminate|]. exists 0. cbn. repeat split; discriminate.
  - constructor.
  - intros c [].
Qed.

(* ownership: a live thread state, and a canary, are cells of one bundle only; the next ids of none *)
Lemma ts_owner s t l ts o k d : rep s t l -> ts_of l = Some ts -> tss s ts = TsLive o k d -> o = t.
Proof.
  intros (_ & _ & k0 & Hts & _) E Hv. rewrite (Hts _ E) in Hv. destruct l; cbn in Hv; congruence.
Qed.

Lemma c_owner s t l c ts tl z : rep s t l -> c_of l = Some c -> cans s c = CAlive ts tl z -> ts_of l = Some ts.
Proof.
  intros (_ & _ & k0 & _ & Hc & _) E Hv. rewrite (Hc _ E) in Hv. destruct l; cbn in *; congruence.
Qed.

Lemma other_ts A s t o ts k d : Rep A s -> tss s ts = TsLive o k d -> t <> o -> ts_of (A t) <> Some ts.
Proof. intros R Hts Hne E. apply Hne. symmetry. eapply ts_owner; eauto using rT. Qed.

Lemma other_c A s t o ts k d c tl z : Rep A s -> tss s ts = TsLive o k d -> cans s c = CAlive ts tl z ->
  t <> o -> c_of (A t) <> Some c.
Proof. intros R Hts Hc Hne E. eapply other_ts; eauto. eapply c_owner; eauto using rT. Qed.

Lemma fresh_ts A s t : Rep A s -> ts_of (A t) <> Some (nextts s).
Proof.
  intros R E. destruct (rT _ _ R t) as (_ & _ & k & V & _). specialize (V _ E).
  pose proof (proj1 (rI _ _ R) (nextts s)) as I. rewrite V in I. destruct (A t); cbn in *; try discriminate; lia.
Qed.

Lemma fresh_c A s t : Rep A s -> c_of (A t) <> Some (nextc s).
Proof.
  intros R E. destruct (rT _ _ R t) as (_ & _ & k & _ & V & _). specialize (V _ E).
  pose proof (proj2 (rI _ _ R) (nextc s)) as I. rewrite V in I. destruct (A t); cbn in *; try discriminate; lia.
Qed.

(* frame: a bundle stays in its phase when its cells are not written (ts0, c0: the thread state and the
   canary that are; nextts s / nextc s, which no bundle owns (fresh_ts, fresh_c), when none is) and the rest of
   the state keeps knowing it *)
Definition same_thread (s s' : state) (t : nat) : Prop :=
  thr s' t = thr s t /\ gts s' t = gts s t /\ tlsc s' t = tlsc s t /\
  incb s' t = incb s t /\ nest s' t = nest s t /\ ownb s' t = ownb s t.

Lemma rep_frame ts0 c0 s s' t l :
  same_thread s s' t ->
  (forall ts, ts <> ts0 -> tss s' ts = tss s ts /\ dropped s' ts = dropped s ts) ->
  (forall c, c <> c0 -> cans s' c = cans s c /\ (In c (zombies s) -> In c (zombies s'))) ->
  (forall ph, reg s = Some (t, ph) -> exists ph', reg s' = Some (t, ph')) ->
  (forall u c ts, c <> c0 -> reg s = Some (u, Clearing c ts) -> exists u', reg s' = Some (u', Clearing c ts)) ->
  (finalized s = true -> finalized s' = true) ->
  ts_of l <> Some ts0 -> c_of l <> Some c0 -> rep s t l -> rep s' t l.
Proof.
  intros (Ea & Eg & El & Ei & En & Eo) HTs HC HR HR' HF Hts Hc (G & L & k & Vts & Vc & S).
  split; [congruence|]. split; [congruence|]. exists k. split; [|split].
  - intros ts E. destruct (HTs ts) as [-> _]; [congruence|auto].
  - intros c E. destruct (HC c) as [-> _]; [congruence|auto].
  - assert (Eld : load s' t = load s t) by (unfold load; congruence).
    destruct l; cbn in *; rewrite ?Ea, ?Eld, ?En, ?Eo; auto.
    + destruct (HTs ts) as [_ ->]; [congruence|]. destruct S as (? & ? & ? & ph & R). eauto.
    + destruct (HTs ts) as [_ ->]; [congruence|]. auto.
    + destruct S as (? & ? & ?). destruct (HC c) as [_ ?]; [congruence|]. auto.
    + destruct S as (? & ? & u & R). destruct (HR' u c ts) as [u' R']; [congruence|auto|]. eauto.
    + destruct S; auto.
Qed.

(* the phase of a bundle, read off the cells that a step inspects *)
Lemma registering_life A s t ph : Rep A s -> reg s = Some (t, ph) ->
  exists ts, A t = Reg ts /\ gts s t = Some ts /\ tss s ts = TsLive t 1 None /\ load s t = 0.
Proof.
  intros R Hr. destruct (rR _ _ R _ _ Hr) as (_ & [ts At] & _). exists ts. split; [exact At|].
  pose proof (rT _ _ R t) as Rt. rewrite At in Rt. destruct Rt as (G & _ & k & V & _ & _ & _ & Hl & _).
  split; [exact G|]. split; [exact (V _ eq_refl)|exact Hl].
Qed.

(* outside a registration the counter of a live thread covers the keep-alive reference and every unreturned
   entry; its state holds its canary, or has lost it (EvDictDrop) *)
Lemma settled_life A s t ts k d : Rep A s -> thr s t = Alive -> tss s ts = TsLive t k d ->
  (forall ph, reg s <> Some (t, ph)) ->
  load s t + 1 <= k /\ match d with Some c => A t = Live ts c | None => A t = Dropped ts end.
Proof.
  intros R Ha Hts Hnr. pose proof (rTs _ _ R _ _ _ _ Hts) as E.
  destruct (rT _ _ R t) as (_ & _ & k0 & V & _ & S). rewrite (V _ E) in Hts.
  destruct (A t); cbn in *; try discriminate; injection E as ->; injection Hts as <- <-.
  - destruct S as (_ & _ & _ & ph & Hr). destruct (Hnr _ Hr).
  - tauto.
  - split; [apply S, Ha|reflexivity].
  - destruct S; congruence.
  - destruct S; congruence.
Qed.

Lemma tls_life A s t c : Rep A s -> tlsc s t = Some (Some c) ->
  exists ts, A t = Live ts c /\ cans s c = CAlive ts (Some t) false.
Proof.
  intros R Hl. destruct (rT _ _ R t) as (_ & L & k & _ & Vc & _).
  destruct (A t) as [| |ts c'| | | |]; try (destruct (L _ Hl)).
  cbn in L. rewrite Hl in L. injection L as <-. exists ts. split; [reflexivity|]. apply Vc. reflexivity.
Qed.

(* Each case names the bundle that moves and its new phase; the goals are the clauses of Rep in order:
   ids, the bundles (the moved one, then the others by rep_frame), rTs, rB, rZ, rR; those that read
   only unchanged components are closed by `try apply R`. *)
Lemma change_inv s s' : Inv s -> change s s' -> Inv s'.
Proof.
  intros [A R] Hc. destruct (rI _ _ R) as [Its Ic]. destruct Hc.
  - (* ch_counter: the bundle stays Live or Dropped *)
    destruct (settled_life _ _ _ _ _ _ R Ha Hts Hnr) as [_ At].
    exists A. constructor; fields; try apply R.
    + split; fields; [|exact Ic]. intros ts1. specialize (Its ts1).
      upd_at ts1 ts; [rewrite Hts in Its|]; rewrite Hf in Its; exact Its.
    + intros t1. destruct (Nat.eq_dec t1 t) as [->|n].
      * destruct (rT _ _ R t) as (G & L & k0 & _ & Vc & _). split; [exact G|]. split; [exact L|]. exists k'.
        destruct d; rewrite At in *; cbn in *; (split; [intros ? [= <-]; apply upd_same|]); split; auto;
          unfold load; fields; auto.
        destruct (rT _ _ R t) as (_ & _ & k1 & _ & _ & S). rewrite At in S. cbn in S. split; [tauto|]. split; [lia|auto].
      * apply (rep_frame ts (nextc s) s); unfold same_thread; fields; eauto using rT, fresh_c, other_ts.
        -- intros ts1 Hne. rewrite upd_other; auto.
    + intros ts1 o1 k1 d1 E. upd_at ts1 ts in E; [injection E as <- _ _|]; eapply rTs; eauto.
    + intros t1 ph E. destruct (rR _ _ R _ _ E) as (_ & ?). auto.
  - (* ch_alloc: Fresh -> Reg *)
    pose proof (rT _ _ R t) as Rt. assert (At : A t = Fresh) by (destruct Rt as [G _]; rewrite Hg in G; destruct (A t); [reflexivity|discriminate..]).
    rewrite At in Rt. destruct Rt as (_ & L & _ & _ & _ & Hn & Ho).
    pose proof (Its (nextts s)) as I0. destruct (tss s (nextts s)) eqn:Hfree; try lia.
    exists (upd A t (Reg (nextts s))). constructor; fields; try apply R.
    + split; fields; [|exact Ic]. intros ts1. specialize (Its ts1).
      upd_at ts1 (nextts s); [repeat split; [lia|apply I0]|].
      destruct (tss s ts1); [destruct Its as (? & ? & ?)|destruct Its as (? & ? & _)|destruct Its]; repeat split; auto; lia.
    + intros t1. upd_at t1 t.
      * split; [apply upd_same|]. split; [exact L|]. exists 1. cbn.
        split; [intros ? [= <-]; apply upd_same|]. split; [discriminate|].
        unfold load; fields. rewrite Hi, Hn, Ho. repeat split; [apply I0|exact Ha|eexists; reflexivity].
      * apply (rep_frame (nextts s) (nextc s) s); unfold same_thread; fields; auto using rT, fresh_c, fresh_ts.
        -- rewrite upd_other by assumption. repeat split; reflexivity.
        -- intros ts1 Hne. rewrite upd_other; auto.
        -- rewrite Hr. discriminate.
        -- rewrite Hr. discriminate.
        -- congruence.
    + intros ts1 o1 k1 d1 E. upd_at ts1 (nextts s) in E.
      * injection E as <- _ _. rewrite upd_same. reflexivity.
      * apply (rTs _ _ R) in E. upd_at o1 t; [rewrite At in E; discriminate|exact E].
    + intros c1 Hin. destruct (rZ _ _ R _ Hin) as (o1 & ts1 & E). exists o1, ts1. upd_at o1 t; congruence.
    + intros t1 ph [= <- <-]. rewrite upd_same. split; [reflexivity|]. split; [eauto|discriminate].
  - (* ch_pop_empty: only the phase of the registration moves *)
    exists A. constructor; fields; try apply R.
    + split; fields; [|exact Ic]. intros ts1. specialize (Its ts1). rewrite Hf in Its. exact Its.
    + intros t1. apply (rep_frame (nextts s) (nextc s) s); unfold same_thread; fields;
        eauto 7 using rT, fresh_c, fresh_ts.
      * rewrite Hz. auto.
      * rewrite Hr. intros ph [= <- _]. eauto.
      * rewrite Hr. discriminate.
    + constructor.
    + intros c [].
    + intros t1 ph [= <- <-]. destruct (rR _ _ R _ _ Hr) as (_ & ? & _). split; [reflexivity|]. split; [auto|discriminate].
  - (* ch_pop: Zombie -> Popped *)
    destruct (rZ _ _ R c) as (o & ts' & Ao); [rewrite Hz; left; reflexivity|].
    pose proof (rT _ _ R o) as Ro. rewrite Ao in Ro. destruct Ro as (G & L & k & V & Vc & Hx & Hk & _).
    rewrite (Vc _ eq_refl) in Hc. injection Hc as <-. specialize (V _ eq_refl). specialize (Vc _ eq_refl). cbn in V, Vc.
    destruct (rR _ _ R _ _ Hr) as (_ & [tsr At] & _). assert (Hto : t <> o) by congruence.
    pose proof (rB _ _ R) as B. rewrite Hz in B. apply NoDup_cons_iff in B as [Hnin B].
    exists (upd A o (Popped ts' c)). constructor; fields; try apply R.
    + split; fields.
      * intros ts1. specialize (Its ts1). rewrite Hf in Its. exact Its.
      * intros c1. specialize (Ic c1). upd_at c1 c; [rewrite Vc in Ic|]; exact Ic.
    + intros t1. upd_at t1 o.
      * split; [exact G|]. split; [exact L|]. exists k. cbn.
        split; [intros ? [= <-]; exact V|]. split; [intros ? [= <-]; apply upd_same|eauto].
      * apply (rep_frame (nextts s) c s); unfold same_thread; fields; eauto 7 using rT, fresh_ts, other_c.
        -- intros c1 Hne. rewrite upd_other by assumption. rewrite Hz. split; [reflexivity|]. intros [?|?]; congruence.
        -- rewrite Hr. intros ph [= <- _]. eauto.
        -- rewrite Hr. discriminate.
    + intros ts1 o1 k1 d1 E. apply (rTs _ _ R) in E. upd_at o1 o; [rewrite Ao in E|]; exact E.
    + exact B.
    + intros c1 Hin. destruct (rZ _ _ R c1) as (o1 & ts1 & E); [rewrite Hz; right; exact Hin|]. exists o1, ts1.
      upd_at o1 o; [|exact E]. rewrite Ao in E. injection E as _ <-. contradiction.
    + intros t1 ph [= <- <-]. split; [reflexivity|]. split.
      * exists tsr. rewrite upd_other; auto.
      * intros ? ? [= <- <-]. exists o. apply upd_same.
  - (* ch_clear: Popped -> Gone *)
    destruct (rR _ _ R _ _ Hr) as (_ & [tsr At] & P). destruct (P _ _ eq_refl) as [o' Ao].
    assert (o = o') by (eapply ts_owner; [apply (rT _ _ R o')|rewrite Ao; reflexivity|exact Hts]). subst o'.
    pose proof (rT _ _ R o) as Ro. rewrite Ao in Ro. destruct Ro as (G & L & _ & _ & _ & Hx & _).
    assert (Hto : t <> o) by congruence.
    exists (upd A o (Gone ts)). constructor; fields; try apply R.
    + split; fields.
      * intros ts1. specialize (Its ts1). upd_at ts1 ts; [rewrite Hts in Its; lia|]. rewrite Hf in Its. exact Its.
      * intros c1. specialize (Ic c1). upd_at c1 c; [rewrite Hc in Ic|]; exact Ic.
    + intros t1. upd_at t1 o.
      * split; [exact G|]. split; [exact L|]. exists 0. cbn.
        split; [intros ? [= <-]; apply upd_same|]. split; [discriminate|auto].
      * apply (rep_frame ts c s); unfold same_thread; fields; eauto 7 using rT, other_ts, other_c.
        -- intros ts1 Hne. rewrite upd_other; auto.
        -- intros c1 Hne. rewrite upd_other; auto.
        -- rewrite Hr. intros ph [= <- _]. eauto.
        -- rewrite Hr. intros u c1 ts1 Hne [= _ <- _]. congruence.
    + intros ts1 o1 k1 d1 E. upd_at ts1 ts in E; [discriminate|]. apply (rTs _ _ R) in E.
      upd_at o1 o; [rewrite Ao in E|]; exact E.
    + intros c1 Hin. destruct (rZ _ _ R _ Hin) as (o1 & ts1 & E). exists o1, ts1. upd_at o1 o; congruence.
    + intros t1 ph [= <- <-]. split; [reflexivity|]. split; [|discriminate]. exists tsr. rewrite upd_other; auto.
  - (* ch_canary: Reg -> Live *)
    destruct (registering_life _ _ _ _ R Hr) as (ts' & At & G & _ & Hl). rewrite Hg in G. injection G as <-.
    destruct (rT _ _ R t) as (_ & _ & k0 & _ & _ & S). rewrite At in S. destruct S as (_ & Ha & _).
    exists (upd A t (Live ts (nextc s))). constructor; fields; try apply R.
    + split; fields.
      * intros ts1. specialize (Its ts1). upd_at ts1 ts; [rewrite Hts in Its|]; rewrite Hf in Its; exact Its.
      * intros c1. specialize (Ic c1). upd_at c1 (nextc s); [lia|]. destruct (cans s c1); lia.
    + intros t1. upd_at t1 t.
      * split; [exact Hg|]. split; [apply upd_same|]. exists 2. cbn.
        split; [intros ? [= <-]; apply upd_same|]. split; [intros ? [= <-]; apply upd_same|].
        unfold load in *; fields. rewrite upd_same. cbn [b2n] in *. split; [auto|lia].
      * apply (rep_frame ts (nextc s) s); unfold same_thread; fields; eauto 7 using rT, other_ts, fresh_c.
        -- rewrite !upd_other by assumption. repeat split; reflexivity.
        -- intros ts1 Hne. rewrite upd_other; auto.
        -- intros c1 Hne. rewrite upd_other; auto.
        -- rewrite Hr. intros ph [= <- _]. contradiction.
        -- rewrite Hr. discriminate.
    + intros ts1 o1 k1 d1 E. upd_at ts1 ts in E.
      * injection E as <- _ _. rewrite upd_same. reflexivity.
      * apply (rTs _ _ R) in E. upd_at o1 t; [rewrite At in E|]; exact E.
    + intros c1 Hin. destruct (rZ _ _ R _ Hin) as (o1 & ts1 & E). exists o1, ts1. upd_at o1 t; congruence.
    + discriminate.
  - (* ch_exit_zombie: Live -> Zombie *)
    destruct (tls_life _ _ _ _ R Hl) as (ts' & At & Hc'). rewrite Hc in Hc'. injection Hc' as <-.
    pose proof (rT _ _ R t) as Rt.
    rewrite At in Rt. destruct Rt as (G & _ & k & V & _ & Ha & Hk). specialize (V _ eq_refl). cbn in V.
    exists (upd A t (Zombie ts c)). constructor; fields; try apply R.
    + split; fields; [exact Its|]. intros c1. specialize (Ic c1). upd_at c1 c; [rewrite Hc in Ic|]; exact Ic.
    + intros t1. upd_at t1 t.
      * split; [exact G|]. split; [cbn; rewrite upd_same; discriminate|]. exists k. cbn.
        split; [intros ? [= <-]; exact V|]. split; [intros ? [= <-]; apply upd_same|].
        rewrite upd_same, in_app_iff. unfold load in Hk. cbn. repeat split; auto; lia.
      * apply (rep_frame (nextts s) c s); unfold same_thread; fields; eauto 7 using rT, fresh_ts, other_c.
        -- rewrite !upd_other by assumption. repeat split; reflexivity.
        -- intros c1 Hne. rewrite upd_other, in_app_iff; auto.
    + intros ts1 o1 k1 d1 E. apply (rTs _ _ R) in E. upd_at o1 t; [rewrite At in E|]; exact E.
    + apply NoDup_snoc; [apply R|]. intros Hin. destruct (rZ _ _ R _ Hin) as (o1 & ts1 & E).
      pose proof (rT _ _ R o1) as (_ & _ & _ & _ & Vc & _). rewrite E in Vc. rewrite (Vc _ eq_refl) in Hc. discriminate.
    + intros c1 Hin. apply in_app_iff in Hin as [Hin|[<-|[]]].
      * destruct (rZ _ _ R _ Hin) as (o1 & ts1 & E). exists o1, ts1. upd_at o1 t; congruence.
      * exists t, ts. apply upd_same.
    + intros t1 ph E. destruct (rR _ _ R _ _ E) as (Hf & [tsr At1] & P). split; [exact Hf|]. split.
      * exists tsr. upd_at t1 t; [destruct (Hnr _ E)|exact At1].
      * intros c1 ts1 E1. destruct (P _ _ E1) as [o1 Ao]. exists o1. upd_at o1 t; congruence.
  - (* ch_exit_plain: the thread is in no phase that an exit moves *)
    exists A. constructor; fields; try apply R.
    + intros t1. destruct (Nat.eq_dec t1 t) as [->|n].
      * destruct (rT _ _ R t) as (G & L & k & V & Vc & S). split; [exact G|].
        split; [destruct (A t); cbn in *; rewrite upd_same; try discriminate; destruct (Hl _ L)|].
        exists k. split; [exact V|]. split; [exact Vc|].
        destruct (A t); cbn in *; rewrite ?upd_same; try tauto.
        -- destruct S as (_ & _ & _ & ph & Hr). destruct (Hnr _ Hr).
        -- destruct (Hl _ L).
        -- destruct S as (? & ? & _). repeat split; auto. discriminate.
      * apply (rep_frame (nextts s) (nextc s) s); unfold same_thread; fields; eauto 7 using rT, fresh_ts, fresh_c.
        rewrite !upd_other by assumption. repeat split; reflexivity.
  - (* ch_finalize: every bundle with a thread state -> Gone *)
    exists (fun t => match ts_of (A t) with Some ts => Gone ts | None => Fresh end).
    constructor; fields; try apply R; try discriminate.
    + split; fields.
      * intros ts1. specialize (Its ts1). destruct (tss s ts1); intuition lia.
      * intros c1. specialize (Ic c1). destruct (cans s c1); exact Ic.
    + intros t1. destruct (rT _ _ R t1) as (G & L & k & V & _ & Sd). unfold rep; fields.
      split; [rewrite G; destruct (A t1); reflexivity|].
      split; [destruct (A t1), (tlsc s t1); cbn; discriminate|]. exists 0.
      destruct (A t1); cbn in *; (split; [intros ? [= <-]; rewrite ?(V _ eq_refl); reflexivity|]);
        (split; [discriminate|auto]).
    + intros ts1 o1 k1 d1 E. destruct (tss s ts1); discriminate.
    + constructor.
    + intros c [].
  - (* ch_drop: Live -> Dropped *)
    destruct (settled_life _ _ _ _ _ _ R Ha Hts) as [Hk At]; [rewrite Hr; discriminate|].
    exists (upd A t (Dropped ts)). constructor; fields; try apply R.
    + split; fields.
      * intros ts1. specialize (Its ts1). upd_at ts1 ts; [rewrite Hts in Its|]; rewrite Hf in Its; exact Its.
      * intros c1. specialize (Ic c1). upd_at c1 c; [rewrite Hc in Ic|]; exact Ic.
    + intros t1. upd_at t1 t.
      * split; [exact Hg|]. split; [cbn; rewrite upd_same; discriminate|]. exists k. cbn.
        split; [intros ? [= <-]; apply upd_same|]. split; [discriminate|]. rewrite upd_same.
        unfold load in *; fields. repeat split; auto; lia.
      * apply (rep_frame ts c s); unfold same_thread; fields; eauto 7 using rT, other_ts, other_c.
        -- rewrite !upd_other by assumption. repeat split; reflexivity.
        -- intros ts1 Hne. rewrite !upd_other; auto.
        -- intros c1 Hne. rewrite upd_other; auto.
    + intros ts1 o1 k1 d1 E. upd_at ts1 ts in E.
      * injection E as <- _ _. rewrite upd_same. reflexivity.
      * apply (rTs _ _ R) in E. upd_at o1 t; [rewrite At in E|]; exact E.
    + intros c1 Hin. destruct (rZ _ _ R _ Hin) as (o1 & ts1 & E). exists o1, ts1. upd_at o1 t; congruence.
    + rewrite Hr. discriminate.
Qed.

(* what the invariant says in the terms a step (and C36/Props.v) reads: each is one look at the phase of
   the bundle concerned *)
Lemma live_state s t ts : Inv s -> gts s t = Some ts -> thr s t = Alive -> finalized s = false ->
  exists k d, tss s ts = TsLive t k d.
Proof.
  intros [A R] G Ha Hf. destruct (rT _ _ R t) as (G' & _ & k & V & _ & S). rewrite G in G'. symmetry in G'.
  specialize (V _ G'). destruct (A t); cbn in *; try discriminate; eauto; destruct S; congruence.
Qed.

Lemma gts_owner s t ts o k d : Inv s -> gts s t = Some ts -> tss s ts = TsLive o k d -> o = t.
Proof.
  intros [A R] G Hts. pose proof (rT _ _ R t) as Rt. eapply ts_owner; eauto. destruct Rt as [G' _]. congruence.
Qed.

Lemma owner_gts s ts o k d : Inv s -> tss s ts = TsLive o k d -> gts s o = Some ts.
Proof. intros [A R] Hts. destruct (rT _ _ R o) as [G _]. rewrite G. eapply rTs; eauto. Qed.

Lemma no_state_idle s t : Inv s -> gts s t = None -> nest s t = 0 /\ ownb s t = false.
Proof.
  intros [A R] G. destruct (rT _ _ R t) as (G' & _ & k & _ & _ & S). rewrite G in G'.
  destruct (A t); try discriminate. exact S.
Qed.

Lemma registering_state s t ph : Inv s -> reg s = Some (t, ph) ->
  finalized s = false /\ exists ts, gts s t = Some ts /\ tss s ts = TsLive t 1 None.
Proof.
  intros [A R] Hr. split; [apply (rR _ _ R _ _ Hr)|].
  destruct (registering_life _ _ _ _ R Hr) as (ts & _ & G & Hts & _). eauto.
Qed.

Lemma entered_not_registering s t : Inv s -> load s t <> 0 -> forall ph, reg s <> Some (t, ph).
Proof. intros [A R] Hl ph Hr. destruct (registering_life _ _ _ _ R Hr) as (_ & _ & _ & _ & E). auto. Qed.

Lemma counter_bound s t ts k d : Inv s -> thr s t = Alive -> tss s ts = TsLive t k d ->
  (forall ph, reg s <> Some (t, ph)) -> load s t + 1 <= k.
Proof. intros [A R] Ha Hts Hnr. eapply settled_life; eauto. Qed.

Lemma tls_canary s t c : Inv s -> tlsc s t = Some (Some c) ->
  exists ts, cans s c = CAlive ts (Some t) false /\ thr s t = Alive.
Proof.
  intros [A R] Hl. destruct (tls_life _ _ _ _ R Hl) as (ts & At & Hc). exists ts. split; [exact Hc|].
  destruct (rT _ _ R t) as (_ & _ & k & _ & _ & S). rewrite At in S. apply S.
Qed.

Lemma dict_canary s ts o k c : Inv s -> tss s ts = TsLive o k (Some c) -> exists tl z, cans s c = CAlive ts tl z.
Proof.
  intros [A R] Hts. pose proof (rTs _ _ R _ _ _ _ Hts) as E.
  destruct (rT _ _ R o) as (_ & _ & k0 & V & Vc & _). rewrite (V _ E) in Hts.
  destruct (A o); cbn in *; try discriminate; injection E as ->; injection Hts as _ <-;
    rewrite (Vc _ eq_refl); eauto.
Qed.

Lemma own_canary s t ts k c : Inv s -> thr s t = Alive -> tss s ts = TsLive t k (Some c) ->
  cans s c = CAlive ts (Some t) false.
Proof.
  intros [A R] Ha Hts.
  pose proof (rTs _ _ R _ _ _ _ Hts) as E. destruct (rT _ _ R t) as (_ & _ & k0 & V & Vc & S).
  rewrite (V _ E) in Hts. destruct (A t); cbn in *; try discriminate; injection E as ->; injection Hts as _ <-.
  - apply Vc. reflexivity.
  - destruct S; congruence.
  - destruct S; congruence.
Qed.

Lemma popped_state s t c ts : Inv s -> reg s = Some (t, Clearing c ts) ->
  cans s c = CAlive ts None false /\ exists o k, tss s ts = TsLive o k (Some c).
Proof.
  intros [A R] Hr. destruct (rR _ _ R _ _ Hr) as (_ & _ & P). destruct (P _ _ eq_refl) as [o Ao].
  pose proof (rT _ _ R o) as Ro. rewrite Ao in Ro. destruct Ro as (_ & _ & k & V & Vc & _).
  split; [apply Vc; reflexivity|]. exists o, k. apply V. reflexivity.
Qed.

Lemma zombie_facts s : Inv s ->
  NoDup (zombies s) /\ forall c, In c (zombies s) -> exists ts o k, cans s c = CAlive ts None true /\ tss s ts = TsLive o k (Some c) /\ thr s o = Exited.
Proof.
  intros [A R]. split; [apply (rB _ _ R)|]. intros c Hin. destruct (rZ _ _ R _ Hin) as (o & ts & Ao).
  pose proof (rT _ _ R o) as Ro. rewrite Ao in Ro. destruct Ro as (_ & _ & k & V & Vc & Hx & _).
  exists ts, o, k. repeat split; [apply Vc|apply V|exact Hx]; reflexivity.
Qed.

(* a live thread that is not registering (it is not busy, or it is inside some entry) runs on its own live
   thread state, whose counter covers the keep-alive reference and every unreturned entry: what the six events
   that move the counter read *)
Lemma own_state s t ts : Inv s -> finalized s = false -> thr s t = Alive -> gts s t = Some ts ->
  busy s t = false \/ load s t <> 0 ->
  (forall ph, reg s <> Some (t, ph)) /\ exists k d, tss s ts = TsLive t k d /\ load s t + 1 <= k.
Proof.
  intros HI Hf Ha Hg Hb.
  assert (Hnr : forall ph, reg s <> Some (t, ph))
    by (destruct Hb; [apply busy_false | apply entered_not_registering]; assumption).
  destruct (live_state _ _ _ HI Hg Ha Hf) as (k & d & Hts).
  split; [exact Hnr|]. exists k, d. split; [exact Hts | eapply counter_bound; eauto].
Qed.

(* The step_* lemmas say what each event does to a state of the invariant.  Each evaluates, by the `cbv`
   at its head, the regenerated facts of C36/Gen.v that step_fn consults for that event: the proofs are
   about the model instantiated with the current source's facts, and fail when one of them is false. *)
Lemma step_cb s t s' : Inv s -> step s (EvCb t) s' -> change s s'.
Proof.
  intros HI Hs. unfold step, step_fn in Hs; cbv [bump gen_gil_ensure_incr_unlocked gen_register_sweeps_first] in Hs.
  destruct (finalized s) eqn:Hf; [discriminate|].
  destruct (thr s t) eqn:Ha; [|discriminate]. destruct (incb s t) eqn:Hi; [discriminate|].
  destruct (busy s t) eqn:Hb; [discriminate|]. destruct (ownb s t) eqn:Ho; [discriminate|].
  destruct (gts s t) as [ts|] eqn:Hg.
  - destruct (own_state _ _ _ HI Hf Ha Hg (or_introl Hb)) as (Hnr & k & d & Hts & Hl).
    rewrite Hts in Hs. injection Hs as <-. apply ch_counter with k; auto.
    + intros u Hu. rewrite upd_other; auto.
    + unfold load in Hl. rewrite upd_same. rewrite Hi in Hl. cbn [b2n] in *. lia.
  - destruct (reg s) eqn:Hr; [discriminate|]. injection Hs as <-. apply ch_alloc; auto.
Qed.

Lemma step_cbend s t s' : Inv s -> step s (EvCbEnd t) s' -> change s s'.
Proof.
  intros HI Hs. unfold step, step_fn in Hs; cbv [negb gen_gil_release_plain] in Hs.
  destruct (finalized s) eqn:Hf; [discriminate|].
  destruct (thr s t) eqn:Ha; [|discriminate]. destruct (incb s t) eqn:Hi; [|discriminate].
  destruct (gts s t) as [ts|] eqn:Hg; [|discriminate]. destruct (nest s t) eqn:Hn; [|discriminate].
  destruct (own_state _ _ _ HI Hf Ha Hg) as (Hnr & k & d & Hts & Hl); [right; unfold load; rewrite Hi; discriminate|].
  rewrite Hts in Hs. unfold load in Hl. rewrite Hi in Hl. cbn [b2n] in Hl.
  destruct k as [|[|k]]; [lia..|]. injection Hs as <-.
  apply ch_counter with (S (S k)); auto.
  - intros u Hu. rewrite upd_other; auto.
  - rewrite upd_same. cbn [b2n]. lia.
Qed.

Lemma step_nested s t s' : Inv s -> step s (EvCbNested t) s' -> change s s'.
Proof.
  intros HI Hs. unfold step, step_fn in Hs; cbv [bump gen_gil_ensure_incr_locked] in Hs.
  destruct (finalized s) eqn:Hf; [discriminate|].
  destruct (thr s t) eqn:Ha; [|discriminate]. destruct (busy s t) eqn:Hb; [discriminate|].
  destruct (incb s t || ownb s t); [|discriminate].
  destruct (gts s t) as [ts|] eqn:Hg; [|discriminate].
  destruct (own_state _ _ _ HI Hf Ha Hg (or_introl Hb)) as (Hnr & k & d & Hts & Hl).
  rewrite Hts in Hs. injection Hs as <-. apply ch_counter with k; auto.
  - intros u Hu. rewrite upd_other; auto.
  - unfold load in Hl. rewrite upd_same. lia.
Qed.

Lemma step_nested_end s t s' : Inv s -> step s (EvCbNestedEnd t) s' -> change s s'.
Proof.
  intros HI Hs. unfold step, step_fn in Hs; cbv [negb gen_gil_release_plain] in Hs.
  destruct (finalized s) eqn:Hf; [discriminate|].
  destruct (thr s t) eqn:Ha; [|discriminate]. destruct (nest s t) as [|n] eqn:Hn; [discriminate|].
  destruct (gts s t) as [ts|] eqn:Hg; [|discriminate].
  destruct (own_state _ _ _ HI Hf Ha Hg) as (Hnr & k & d & Hts & Hl); [right; unfold load; rewrite Hn; lia|].
  rewrite Hts in Hs. unfold load in Hl. rewrite Hn in Hl.
  destruct k as [|[|k]]; [lia..|]. injection Hs as <-.
  apply ch_counter with (S (S k)); auto.
  - intros u Hu. rewrite upd_other; auto.
  - rewrite upd_same. lia.
Qed.

Lemma step_own_ensure s t s' : Inv s -> step s (EvOwnEnsure t) s' -> change s s'.
Proof.
  intros HI Hs. unfold step, step_fn in Hs.
  destruct (finalized s) eqn:Hf; [discriminate|].
  destruct (thr s t) eqn:Ha; [|discriminate]. destruct (incb s t) eqn:Hi; [discriminate|].
  destruct (busy s t) eqn:Hb; [discriminate|]. destruct (ownb s t) eqn:Ho; [discriminate|].
  destruct (gts s t) as [ts|] eqn:Hg; [|discriminate].
  destruct (own_state _ _ _ HI Hf Ha Hg (or_introl Hb)) as (Hnr & k & d & Hts & Hl).
  rewrite Hts in Hs. injection Hs as <-. apply ch_counter with k; auto.
  - intros u Hu. rewrite upd_other; auto.
  - unfold load in Hl. rewrite upd_same. rewrite Hi, Ho in *. cbn [b2n] in *. lia.
Qed.

Lemma step_own_release s t s' : Inv s -> step s (EvOwnRelease t) s' -> change s s'.
Proof.
  intros HI Hs. unfold step, step_fn in Hs.
  destruct (finalized s) eqn:Hf; [discriminate|].
  destruct (thr s t) eqn:Ha; [|discriminate]. destruct (ownb s t) eqn:Ho; [|discriminate].
  destruct (nest s t) eqn:Hn; [|discriminate]. destruct (gts s t) as [ts|] eqn:Hg; [|discriminate].
  destruct (own_state _ _ _ HI Hf Ha Hg) as (Hnr & k & d & Hts & Hl); [right; unfold load; rewrite Ho; cbn [b2n]; lia|].
  rewrite Hts in Hs. unfold load in Hl. rewrite Ho in Hl. cbn [b2n] in Hl.
  destruct k as [|[|k]]; [lia..|]. injection Hs as <-.
  apply ch_counter with (S (S k)); auto.
  - intros u Hu. rewrite upd_other; auto.
  - rewrite upd_same. cbn [b2n]. lia.
Qed.

Lemma step_pop s s' : Inv s -> step s EvSweepPop s' -> change s s'.
Proof.
  intros HI Hs. unfold step, step_fn in Hs.
  destruct (finalized s) eqn:Hf; [discriminate|].
  destruct (reg s) as [[t [| |]]|] eqn:Hr; try discriminate.
  destruct (zombies s) as [|c rest] eqn:Hz.
  - injection Hs as <-. apply ch_pop_empty; auto.
  - destruct (proj2 (zombie_facts _ HI) c) as (ts & _ & _ & Hc & _); [rewrite Hz; left; reflexivity|].
    rewrite Hc in Hs. injection Hs as <-. apply ch_pop; auto.
Qed.

Lemma step_clear s s' : Inv s -> step s EvSweepClear s' -> change s s'.
Proof.
  intros HI Hs. unfold step, step_fn in Hs.
  destruct (finalized s) eqn:Hf; [discriminate|].
  destruct (reg s) as [[t [|c ts|]]|] eqn:Hr; try discriminate.
  destruct (popped_state _ _ _ _ HI Hr) as (Hc & o & k & Hts).
  rewrite Hts in Hs. unfold dealloc in Hs. rewrite Hc in Hs. injection Hs as <-.
  eapply ch_clear; eauto.
Qed.

Lemma step_makecanary s s' : Inv s -> step s EvMakeCanary s' -> change s s'.
Proof.
  intros HI Hs. unfold step, step_fn in Hs; cbv [bump gen_register_sets_local gen_register_incr] in Hs.
  destruct (finalized s) eqn:Hf; [discriminate|].
  destruct (reg s) as [[t [| |]]|] eqn:Hr; try discriminate.
  destruct (registering_state _ _ _ HI Hr) as (_ & ts & Hg & Hts).
  rewrite Hg, Hts in Hs. injection Hs as <-. apply ch_canary; auto.
Qed.

Lemma step_exit s t s' : Inv s -> step s (EvExit t) s' -> change s s'.
Proof.
  intros HI Hs. unfold step, step_fn in Hs.
  destruct (thr s t); [|discriminate]. destruct (incb s t); [discriminate|].
  destruct (busy s t) eqn:Hb; [discriminate|]. destruct (nest s t); [|discriminate].
  destruct (ownb s t); [discriminate|]. injection Hs as <-.
  pose proof (busy_false _ _ Hb) as Hnr. unfold do_exit.
  destruct (tlsc s t) as [[c|]|] eqn:Hl.
  - destruct (tls_canary _ _ _ HI Hl) as (ts & Hc & _). rewrite Hc. apply ch_exit_zombie; auto.
  - apply ch_exit_plain; [auto|]. intros c. rewrite Hl. discriminate.
  - apply ch_exit_plain; [auto|]. intros c. rewrite Hl. discriminate.
Qed.

Lemma step_finalize s s' : Inv s -> step s EvFinalize s' -> change s s'.
Proof.
  intros _ Hs. unfold step, step_fn in Hs.
  destruct (finalized s) eqn:Hf; [discriminate|]. destruct (reg s) eqn:Hr; [discriminate|].
  injection Hs as <-. apply ch_finalize; auto.
Qed.

Lemma step_drop s t s' : Inv s -> step s (EvDictDrop t) s' -> change s s'.
Proof.
  intros HI Hs. unfold step, step_fn in Hs.
  destruct (finalized s) eqn:Hf; [discriminate|].
  destruct (thr s t) eqn:Ha; [|discriminate]. destruct (reg s) eqn:Hr; [discriminate|].
  destruct (gts s t) as [ts|] eqn:Hg; [|discriminate].
  destruct (live_state _ _ _ HI Hg Ha Hf) as (k & d & Hts). rewrite Hts in Hs.
  destruct d as [c|]; [|discriminate].
  pose proof (own_canary _ _ _ _ _ HI Ha Hts) as Hc.
  unfold dealloc in Hs. rewrite Hc in Hs. injection Hs as <-. rewrite <- Hr. apply ch_drop; auto.
Qed.

Lemma step_change s e s' : Inv s -> step s e s' -> change s s'.
Proof.
  intros HI Hs.
  destruct e; [eapply step_cb | eapply step_pop | eapply step_clear | eapply step_makecanary | eapply step_cbend
              | eapply step_exit | eapply step_finalize | eapply step_nested | eapply step_nested_end
              | eapply step_own_ensure | eapply step_own_release | eapply step_drop]; eauto.
Qed.

Lemma inv_step s e s' : Inv s -> step s e s' -> Inv s'.
Proof. intros HI Hs. eapply change_inv, step_change; eauto. Qed.

Lemma inv_cb s t s' : Inv s -> step s (EvCb t) s' -> Inv s'.
Proof. apply inv_step. Qed.
Lemma inv_cbend s t s' : Inv s -> step s (EvCbEnd t) s' -> Inv s'.
Proof. apply inv_step. Qed.
Lemma inv_pop s s' : Inv s -> step s EvSweepPop s' -> Inv s'.
Proof. apply inv_step. Qed.
Lemma inv_makecanary s s' : Inv s -> step s EvMakeCanary s' -> Inv s'.
Proof. apply inv_step. Qed.
Lemma inv_exit s t s' : Inv s -> step s (EvExit t) s' -> Inv s'.
Proof. apply inv_step. Qed.
Lemma inv_clear s s' : Inv s -> step s EvSweepClear s' -> Inv s'.
Proof. apply inv_step. Qed.
Lemma inv_finalize s s' : Inv s -> step s EvFinalize s' -> Inv s'.
Proof. apply inv_step. Qed.
Lemma inv_drop s t s' : Inv s -> step s (EvDictDrop t) s' -> Inv s'.
Proof. apply inv_step. Qed.
Lemma inv_nested s t s' : Inv s -> step s (EvCbNested t) s' -> Inv s'.
Proof. apply inv_step. Qed.
Lemma inv_nested_end s t s' : Inv s -> step s (EvCbNestedEnd t) s' -> Inv s'.
Proof. apply inv_step. Qed.
Lemma inv_own_ensure s t s' : Inv s -> step s (EvOwnEnsure t) s' -> Inv s'.
Proof. apply inv_step. Qed.
Lemma inv_own_release s t s' : Inv s -> step s (EvOwnRelease t) s' -> Inv s'.
Proof. apply inv_step. Qed.

Lemma reach_inv s : reach s -> Inv s.
Proof. induction 1; [apply inv_init | eapply inv_step; eauto]. Qed.

Lemma inv_no_fatal s : Inv s -> fatal s = false.
Proof. intros [A R]. apply (rA _ _ R). Qed.

Lemma live_undeleted s ts o k d : Inv s -> tss s ts = TsLive o k d -> ndel s ts = 0.
Proof. intros [A R] Hts. pose proof (proj1 (rI _ _ R) ts) as I. rewrite Hts in I. apply I. Qed.

Lemma fresh_canary_free s c : Inv s -> nextc s <= c -> cans s c = CFree.
Proof. intros [A R] Hle. pose proof (proj2 (rI _ _ R) c) as I. destruct (cans s c); [reflexivity|lia..]. Qed.

Lemma ndel_le_1 s ts : Inv s -> ndel s ts <= 1.
Proof. intros [A R]. pose proof (proj1 (rI _ _ R) ts) as I. destruct (tss s ts); lia. Qed.

Lemma exited_not_leaked s t ts : Inv s -> thr s t = Exited -> gts s t = Some ts ->
  tss s ts = TsDeleted \/
  (exists c, In c (zombies s) /\ cans s c = CAlive ts None true) \/
  (exists t' c, reg s = Some (t', Clearing c ts)) \/
  dropped s ts = true.
Proof.
  intros [A R] Hx Hg. destruct (rT _ _ R t) as (G & _ & k & V & Vc & S). rewrite Hg in G. symmetry in G.
  specialize (V _ G). destruct (A t); cbn in *; try discriminate; injection G as ->.
  - destruct S as (_ & ? & _). congruence.
  - destruct S. congruence.
  - right; right; right. apply S.
  - right; left. exists c. split; [apply S|apply Vc; reflexivity].
  - right; right; left. destruct S as (_ & _ & u & Hr). eauto.
  - left. exact V.
Qed.

(* no step resets a thread's thread state: only ch_alloc writes gts, where it was None *)
Lemma change_gts s s' u x : change s s' -> gts s u = Some x -> gts s' u = Some x.
Proof.
  intros Hc G. destruct Hc; cbn [gts]; auto. upd_at u t; [congruence|auto].
Qed.

Lemma gts_kept s e s' t ts : Inv s -> step s e s' -> gts s t = Some ts -> gts s' t = Some ts.
Proof. intros HI Hs. eapply change_gts, step_change; eauto. Qed.

Lemma gts_stable s e s' t ts : Inv s -> step s e s' ->
  gts s t = Some ts -> thr s' t = Alive -> finalized s' = false -> gts s' t = Some ts.
Proof. intros HI Hs Hg _ _. eapply gts_kept; eauto. Qed.

Lemma change_exited s s' u : change s s' -> thr s u = Exited -> thr s' u = Exited.
Proof. intros Hc Hx. destruct Hc; cbn [thr]; auto; upd_at u t; auto. Qed.

Lemma exited_stable s e s' u ts : Inv s -> step s e s' -> thr s u = Exited -> gts s u = Some ts ->
  thr s' u = Exited /\ gts s' u = Some ts.
Proof.
  intros HI Hs Hx Hg. split; [eapply change_exited; eauto using step_change|eapply gts_kept; eauto].
Qed.

(* what every step keeps from a state of the invariant, an execution keeps from a reachable state *)
Lemma steps_keep (P : state -> Prop) :
  (forall s e s', Inv s -> step s e s' -> P s -> P s') ->
  forall s es s', reach s -> steps s es s' -> P s -> P s'.
Proof.
  intros HP s es s' Hr Hs. induction Hs as [|s e s1 es s2 H1 _ IH]; intros Hp; auto.
  apply IH; [eapply r_step | eapply HP]; eauto using reach_inv.
Qed.

Lemma steps_reach s es s' : reach s -> steps s es s' -> reach s'.
Proof. intros Hr Hs. induction Hs; eauto using r_step. Qed.

Lemma gts_kept_steps s es s' t ts : reach s -> steps s es s' -> gts s t = Some ts -> gts s' t = Some ts.
Proof. apply (steps_keep (fun s => gts s t = Some ts)). intros s0 e s1 HI Hs. eapply gts_kept; eauto. Qed.

Lemma exited_stable_steps s es s' u ts : reach s -> steps s es s' -> thr s u = Exited -> gts s u = Some ts ->
  thr s' u = Exited /\ gts s' u = Some ts.
Proof.
  intros Hr Hs Hx Hg. apply (steps_keep (fun s => thr s u = Exited /\ gts s u = Some ts)) with s es; auto.
  intros s0 e s1 HI H1 [Hx0 Hg0]. eapply exited_stable; eauto.
Qed.

Lemma steps_one s e s' : step s e s' -> steps s [e] s'.
Proof. intros H. econstructor; [exact H | constructor]. Qed.

(* the macro runner used by the correspondence runs executions of the fine-grained system: a sweep is its
   pops and clears up to the canary, a macro event the events it stands for *)
Lemma sweep_all_steps : forall fuel s s', sweep_all fuel s = Some s' -> exists es, steps s es s'.
Proof.
  induction fuel as [|f IH]; intros s s' H; cbn [sweep_all] in H; [discriminate|].
  destruct (reg s) as [[t [|c ts0|]]|].
  - destruct (step_fn s EvSweepPop) as [s1|] eqn:E; [|discriminate].
    destruct (IH _ _ H) as [es Hs]. exists (EvSweepPop :: es). econstructor; eauto.
  - destruct (step_fn s EvSweepClear) as [s1|] eqn:E; [|discriminate].
    destruct (IH _ _ H) as [es Hs]. exists (EvSweepClear :: es). econstructor; eauto.
  - exists [EvMakeCanary]. apply steps_one, H.
  - injection H as <-. exists []. constructor.
Qed.

Lemma mstep_steps s e s' : mstep s e = Some s' -> exists es, steps s es s'.
Proof.
  intros H. destruct e; cbn [mstep] in H.
  2-5: eexists; eapply steps_one, H.
  - destruct (step_fn s (EvCb t)) as [s1|] eqn:E; [|discriminate].
    destruct (sweep_all_steps _ _ _ H) as [es Hs]. exists (EvCb t :: es). econstructor; eauto.
  - destruct (step_fn s (EvCbNested t)) as [s1|] eqn:E1; [|discriminate].
    exists [EvCbNested t; EvCbNestedEnd t]. repeat (econstructor; [eassumption|]). constructor.
  - destruct (step_fn s (EvOwnEnsure t)) as [s1|] eqn:E1; [|discriminate].
    destruct (step_fn s1 (EvCbNested t)) as [s2|] eqn:E2; [|discriminate].
    destruct (step_fn s2 (EvCbNestedEnd t)) as [s3|] eqn:E3; [|discriminate].
    exists [EvOwnEnsure t; EvCbNested t; EvCbNestedEnd t; EvOwnRelease t].
    repeat (econstructor; [eassumption|]). constructor.
Qed.

(* so it visits reachable states only, and an exited thread stays exited, with its thread state, through a
   sweep *)
Lemma sweep_all_reach : forall fuel s s', reach s -> sweep_all fuel s = Some s' ->
  reach s' /\
  forall u ts, thr s u = Exited -> gts s u = Some ts -> thr s' u = Exited /\ gts s' u = Some ts.
Proof.
  intros fuel s s' Hr H. destruct (sweep_all_steps _ _ _ H) as [es Hs].
  split; [eapply steps_reach; eauto | intros u ts; eapply exited_stable_steps; eauto].
Qed.

Lemma mstep_reach s e s' : reach s -> mstep s e = Some s' -> reach s'.
Proof. intros Hr H. destruct (mstep_steps _ _ _ H) as [es Hs]. eapply steps_reach; eauto. Qed.

Lemma persistent s e s' t ts : reach s -> step s e s' ->
  gts s t = Some ts -> thr s' t = Alive -> finalized s' = false -> gts s' t = Some ts.
Proof. intros H Hs G _ _. eapply gts_kept; eauto using reach_inv. Qed.

(* a registration is in progress and, once its loop has ended (MakeCanary), the list is empty: kept by
   every step of sweep_all, which only returns with reg = None *)
Definition sweeping_ok (s : state) : Prop :=
  match reg s with
  | Some (_, MakeCanary) => zombies s = []
  | Some _ => True
  | None => False
  end.

Lemma sweep_all_empties : forall fuel s s', sweeping_ok s -> sweep_all fuel s = Some s' ->
  zombies s' = [] /\ reg s' = None.
Proof.
  induction fuel as [|f IH]; intros s s' Hok H; cbn [sweep_all] in H; [discriminate|].
  unfold sweeping_ok in Hok.
  destruct (reg s) as [[t [|c ts|]]|] eqn:Er; try contradiction.
  - destruct (step_fn s EvSweepPop) as [s1|] eqn:E; [|discriminate].
    apply (IH s1 s'); auto. unfold step_fn in E. rewrite Er in E.
    destruct (finalized s); try discriminate.
    destruct (zombies s) as [|c l]; [|destruct (cans s c)]; inversion E; subst; unfold sweeping_ok; cbn;
      rewrite ?Er; auto.
  - destruct (step_fn s EvSweepClear) as [s1|] eqn:E; [|discriminate].
    apply (IH s1 s'); auto. unfold step_fn in E. rewrite Er in E.
    destruct (finalized s); try discriminate.
    destruct (tss s ts) as [|o k d|]; try (inversion E; subst; unfold sweeping_ok; cbn; exact I).
    destruct (match d with Some c' => dealloc c' (cans s) (zombies s) (tlsc s) | None => (cans s, zombies s, tlsc s) end)
      as [[a b] c0]. inversion E; subst; unfold sweeping_ok; cbn; exact I.
  - unfold step_fn in H. rewrite Er in H. destruct (finalized s); try discriminate.
    destruct (gts s t) as [ts|]; try discriminate. destruct (tss s ts); try discriminate.
    inversion H; subst; cbn. split; auto.
Qed.

(* the first callback of ANY thread (a complete thread_canary_register) leaves the zombie list empty *)
Lemma registration_empties s t s' : gts s t = None -> mstep s (MCb t) = Some s' ->
  zombies s' = [] /\ reg s' = None.
Proof.
  intros Hg H. cbn [mstep] in H. destruct (step_fn s (EvCb t)) as [s1|] eqn:E; [|discriminate].
  eapply sweep_all_empties; [|eauto].
  unfold step_fn in E; cbv [gen_register_sweeps_first] in E. destruct (finalized s); try discriminate.
  destruct (thr s t); try discriminate. destruct (incb s t); try discriminate.
  destruct (busy s t); try discriminate. destruct (ownb s t); try discriminate.
  rewrite Hg in E. destruct (reg s); try discriminate.
  inversion E; subst. unfold sweeping_ok; cbn. exact I.
Qed.

(* ... and when the list is empty and nobody is sweeping, every exited thread's state is destroyed
   (or had lost its canary while alive) *)
Lemma swept_means_destroyed s t ts : reach s -> zombies s = [] -> reg s = None ->
  thr s t = Exited -> gts s t = Some ts -> tss s ts = TsDeleted \/ dropped s ts = true.
Proof.
  intros Hr Hz Hreg Hx Hg. destruct (exited_not_leaked s t ts (reach_inv s Hr) Hx Hg) as [H|[(c & Hin & _)|[(t' & c & H)|H]]]; auto.
  - rewrite Hz in Hin. destruct Hin.
  - congruence.
Qed.
