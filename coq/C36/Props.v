(* C36 — callbacks from non-Python threads get a valid, persistent thread state.
   The invariant and the lemmas used below: C36/Proofs*.v.  `reach` is closed under every event of every
   thread in any order (C36/Model.v): callbacks (first and later ones, overlapping), the steps of
   the zombie sweep, thread exits (which need no GIL and fall anywhere), interpreter finalization.
   Partial: CPython's PyGILState / PyThreadState internals appear only through counter, dict and
   deletion; allocation failures are not modelled.
   Tie: Model.step_fn consults the regenerated facts of C36/Gen.v (gen_gil_ensure_incr_unlocked/_locked,
   gen_gil_release_plain, gen_register_sweeps_first/_sets_local/_incr): every theorem below about `reach`
   is about the model instantiated with what the current source does on those lines. *)
From Coq Require Import Arith List Bool.
From Coq Require Import Lia.
Import ListNotations.
From Cffi Require Import C36.Model C36.Gen C36.Proofs C36.Proofs2 C36.Proofs3 C36.Proofs4 C36.Upd.

(* none of the code's Py_FatalError conditions fires, no callback runs on a destroyed thread state,
   no Clear/Delete is applied to a destroyed one, the zombie list never links a freed canary *)
Theorem C36_no_fatal : forall s, reach s -> fatal s = false.
Proof. intros s H. apply inv_no_fatal, reach_inv, H. Qed.
Print Assumptions C36_no_fatal.

(* a thread state is deleted at most once ... *)
Theorem C36_deleted_at_most_once : forall s ts, reach s -> ndel s ts <= 1.
Proof. intros s ts H. apply ndel_le_1, reach_inv, H. Qed.
Print Assumptions C36_deleted_at_most_once.

(* ... and never while its thread can still call back: a live thread's state is live, owned by it *)
Theorem C36_valid_thread_state : forall s t ts, reach s -> thr s t = Alive -> finalized s = false ->
  gts s t = Some ts -> exists k d, tss s ts = TsLive t k d /\ ndel s ts = 0.
Proof.
  intros s t ts H Ha Hf Hg. pose proof (reach_inv s H) as HI.
  destruct (live_state _ _ _ HI Hg Ha Hf) as (k & d & E). exists k, d. split; auto.
  apply (live_undeleted _ _ _ _ _ HI E).
Qed.
Print Assumptions C36_valid_thread_state.

(* the thread state (hence threading.local data) of a live foreign thread is the same across its callbacks *)
Theorem C36_persistent : forall s e s' t ts, reach s -> step s e s' ->
  gts s t = Some ts -> thr s' t = Alive -> finalized s' = false -> gts s' t = Some ts.
Proof. exact persistent. Qed.
Print Assumptions C36_persistent.

(* ... over whole executions (any number of callbacks of any threads, sweeps, exits of other threads in
   between): a thread that is alive at the end, interpreter not finalized, still has the thread state it had
   at the beginning *)
Theorem C36_persistent_trace : forall s es s' t ts, reach s -> steps s es s' ->
  gts s t = Some ts -> thr s' t = Alive -> finalized s' = false -> gts s' t = Some ts.
Proof. intros s es s' t ts Hr Hs Hg _ _. eapply gts_kept_steps; eauto. Qed.
Print Assumptions C36_persistent_trace.

(* the counter accounts for every unreturned entry: the keep-alive reference of
   thread_canary_register, the outer callback, every callback entered with the GIL already held
   (gil_ensure's PyGILState_LOCKED branch) and the thread's own PyGILState_Ensure; in particular it is
   at least 2 inside a callback, so no gil_release / PyGILState_Release destroys the state *)
Theorem C36_counter_keeps_alive : forall s t ts k d, reach s -> thr s t = Alive -> gts s t = Some ts ->
  tss s ts = TsLive t k d ->
  (reg s = None -> 1 + (if incb s t then 1 else 0) + nest s t + (if ownb s t then 1 else 0) <= k) /\
  (incb s t = true -> 2 <= k).
Proof.
  intros s t ts k d H Ha _ E. pose proof (reach_inv s H) as HI.
  pose proof (counter_bound _ _ _ _ _ HI Ha E) as Hl. unfold load, b2n in Hl. split.
  - intros Hr. rewrite Hr in Hl. specialize (Hl ltac:(discriminate)). lia.
  - intros Hi. rewrite Hi in Hl. enough (forall ph, reg s <> Some (t, ph)) as Hnr by (specialize (Hl Hnr); lia).
    apply entered_not_registering; [exact HI|]. unfold load. rewrite Hi. discriminate.
Qed.
Print Assumptions C36_counter_keeps_alive.

(* different live threads never share a thread state *)
Theorem C36_distinct : forall s t1 t2 ts, reach s -> finalized s = false ->
  thr s t1 = Alive -> thr s t2 = Alive -> gts s t1 = Some ts -> gts s t2 = Some ts -> t1 = t2.
Proof.
  intros s t1 t2 ts H Hf A1 A2 G1 G2. pose proof (reach_inv s H) as HI.
  destruct (live_state _ _ _ HI G1 A1 Hf) as (k & d & E).
  exact (gts_owner _ _ _ _ _ _ HI G2 E).
Qed.
Print Assumptions C36_distinct.

(* a canary is in the zombie list at most once; every linked canary is allocated, marked, holds a
   live thread state whose thread has exited *)
Theorem C36_zombies_ok : forall s, reach s ->
  NoDup (zombies s) /\
  forall c, In c (zombies s) -> exists ts o k, cans s c = CAlive ts None true /\
                                               tss s ts = TsLive o k (Some c) /\ thr s o = Exited.
Proof. intros s H. apply zombie_facts, reach_inv, H. Qed.
Print Assumptions C36_zombies_ok.

(* no pointer to a freed canary: tls->local_thread_canary and the thread-state dict entries are allocated canaries *)
Theorem C36_canary_pointers_valid : forall s, reach s ->
  (forall t c, tlsc s t = Some (Some c) -> exists ts, cans s c = CAlive ts (Some t) false /\ thr s t = Alive) /\
  (forall ts o k c, tss s ts = TsLive o k (Some c) -> exists tl z, cans s c = CAlive ts tl z).
Proof.
  intros s H. pose proof (reach_inv s H) as HI. split.
  - intros t c E. apply tls_canary; assumption.
  - intros. eapply dict_canary; eauto.
Qed.
Print Assumptions C36_canary_pointers_valid.

(* thread exits do not leak thread states: the state of an exited thread is destroyed, or queued
   in the zombie list (destroyed by the next registration), or being destroyed right now — unless
   its canary had been deallocated under cffi's feet while the thread was alive (EvDictDrop: then
   the extra gilstate_counter reference is never given back and the state lives until Py_Finalize;
   it stays valid and private to its thread, see C36_valid_thread_state / C36_distinct) *)
Theorem C36_no_leak : forall s t ts, reach s -> thr s t = Exited -> gts s t = Some ts ->
  tss s ts = TsDeleted \/
  (exists c, In c (zombies s) /\ cans s c = CAlive ts None true) \/
  (exists t' c, reg s = Some (t', Clearing c ts)) \/
  dropped s ts = true.
Proof. intros s t ts H. apply exited_not_leaked, reach_inv, H. Qed.
Print Assumptions C36_no_leak.

(* the zombie list is bounded by the exited-but-unswept threads: two linked canaries never belong
   to the same thread (a thread owns one thread state, whose dict holds one canary: owner_gts) *)
Theorem C36_zombies_distinct_threads : forall s c1 c2 ts1 ts2 o k1 k2, reach s ->
  In c1 (zombies s) -> In c2 (zombies s) ->
  tss s ts1 = TsLive o k1 (Some c1) -> tss s ts2 = TsLive o k2 (Some c2) -> c1 = c2.
Proof.
  intros s c1 c2 ts1 ts2 o k1 k2 Hr _ _ E1 E2. pose proof (reach_inv s Hr) as HI.
  pose proof (owner_gts _ _ _ _ _ HI E1) as G1. pose proof (owner_gts _ _ _ _ _ HI E2) as G2.
  rewrite G1 in G2. inversion G2; subst. rewrite E1 in E2. inversion E2; reflexivity.
Qed.
Print Assumptions C36_zombies_distinct_threads.

(* an UNINTERRUPTED thread_canary_register of any thread (the macro event: a first callback run to
   completion with no exit in between) empties it; see C36_registration_total for definedness and
   C36_sweep_frees_initial_zombies for the interleaved form *)
Theorem C36_registration_empties : forall s t s', gts s t = None -> mstep s (MCb t) = Some s' ->
  zombies s' = [] /\ reg s' = None.
Proof. exact registration_empties. Qed.
Print Assumptions C36_registration_empties.

(* ... and with an empty list and no sweep in progress every exited thread's state is destroyed
   (or had lost its canary while alive).  Residual leak, stated explicitly: the states of threads that
   exited after the LAST registration stay queued (C36_no_leak, second disjunct) until another
   foreign thread registers or the interpreter finalizes; nothing else frees them. *)
Theorem C36_swept_means_destroyed : forall s t ts, reach s -> zombies s = [] -> reg s = None ->
  thr s t = Exited -> gts s t = Some ts -> tss s ts = TsDeleted \/ dropped s ts = true.
Proof. exact swept_means_destroyed. Qed.
Print Assumptions C36_swept_means_destroyed.

(* The list at pointer level: the regenerated code of thread_canary_make_zombie and
   _thread_canary_detach_with_lock (C36/Gen.v) on a doubly linked ring through cffi_zombie_head
   (`ring h l`: following zombie_next from the head visits exactly l and returns, zombie_prev visits
   rev l, unlinked canaries have NULL fields) implements the sequence operations of the model *)
Theorem C36_ring_empty : ring heap0 [].
Proof.
  unfold ring, heap0; cbn. repeat split.
  - constructor; [intros []|constructor].
  - rewrite upd_other; auto.
  - rewrite upd_other; auto.
Qed.
Print Assumptions C36_ring_empty.
Theorem C36_make_zombie_appends : forall h l c, ring h l -> ~ In c (0 :: l) ->
  exists e' h', exec_p gen_make_zombie (env0 c) h = Some (e', h') /\ ring h' (l ++ [c]).
Proof. exact make_zombie_appends. Qed.
Print Assumptions C36_make_zombie_appends.
Theorem C36_detach_removes : forall h l c, ring h l -> In c l ->
  exists e' h', exec_p gen_detach (env0 c) h = Some (e', h') /\ ring h' (remove Nat.eq_dec c l).
Proof. exact detach_removes. Qed.
Print Assumptions C36_detach_removes.
(* what the sweep reads: head.next is the first element; it is the head itself iff the list is empty *)
Theorem C36_ring_head : forall h l, ring h l -> hnext h 0 = Some (hd 0 l) /\ (hd 0 l = 0 <-> l = []).
Proof. exact ring_head. Qed.
Print Assumptions C36_ring_head.
(* the test `ob->zombie_next != NULL` of dealloc / make_zombie means "linked" *)
Theorem C36_ring_linked_iff : forall h l c, ring h l -> c <> 0 -> (hnext h c <> None <-> In c l).
Proof. exact ring_linked_iff. Qed.
Print Assumptions C36_ring_linked_iff.
(* the guard is consumed by C36_shutdown_twice_fatal below (run_x passes it to the interpreter) *)
Theorem C36_make_zombie_guarded : gen_make_zombie_guarded = true.
Proof. reflexivity. Qed.
Print Assumptions C36_make_zombie_guarded.

(* The locked regions of cffi_thread_shutdown / thread_canary_dealloc / thread_canary_free_zombies,
   regenerated as programs (C36/Gen.v, language and interpreter in C36/Ptr.v; run_x runs them with the
   regenerated ring code and guard).  On a heap whose zombie_next/zombie_prev form `ring (rp h) l` they
   perform exactly the list operations of Model.do_exit / Model.dealloc / step EvSweepPop on `zombies`. *)
(* thread exit with an unlinked canary: appended at the END, canary->tls cleared, nothing else written *)
Theorem C36_shutdown_links : forall (h : xheap) l u c,
  ring (rp h) l -> tloc h u = Some c -> ~ In c (0 :: l) ->
  exists e' r', run_x gen_shutdown_locked (xenv_tls u) h
                = Some (e', mkX r' (upd (ctls h) c None) (ctst h) (tloc h)) /\ ring r' (l ++ [c]).
Proof. intros h l u c. apply shutdown_links_S. exact make_zombie_appends. Qed.
Print Assumptions C36_shutdown_links.
(* thread exit without canary (never called back / canary deallocated, C36_drop_clears_backpointer): no write *)
Theorem C36_shutdown_nothing : forall (h : xheap) u,
  tloc h u = None -> exists e', run_x gen_shutdown_locked (xenv_tls u) h = Some (e', h).
Proof. intros h u. apply shutdown_nothing_S. Qed.
Print Assumptions C36_shutdown_nothing.
(* a canary that is already linked is never linked twice: the Py_FatalError guard (None = fatal) *)
Theorem C36_shutdown_twice_fatal : forall (h : xheap) l u c,
  ring (rp h) l -> tloc h u = Some c -> In c l -> run_x gen_shutdown_locked (xenv_tls u) h = None.
Proof. intros h l u c. apply shutdown_twice_fatal_S. reflexivity. Qed.
Print Assumptions C36_shutdown_twice_fatal.
(* dealloc: unlinked iff it was linked (`remove` is the identity otherwise); its thread's tls forgets it *)
Theorem C36_dealloc_unlinks : forall (h : xheap) l c,
  ring (rp h) l -> c <> 0 ->
  exists e' r', run_x gen_dealloc_locked (xenv_ob c) h
                = Some (e', mkX r' (ctls h) (ctst h)
                                (match ctls h c with Some u => upd (tloc h) u None | None => tloc h end))
                /\ ring r' (remove Nat.eq_dec c l).
Proof. intros h l c. apply dealloc_S. exact detach_removes. Qed.
Print Assumptions C36_dealloc_unlinks.
(* the sweep's locked region: empty list -> tstate stays NULL (loop ends), no write; otherwise the FIRST
   zombie is popped and tstate is its ->tstate (non-NULL: no fatal) *)
Theorem C36_sweep_pops : forall (h : xheap) l,
  ring (rp h) l -> (forall c, In c l -> ctst h c <> None) ->
  exists e' h', run_x gen_sweep_locked xenv_none h = Some (e', h') /\
    ctls h' = ctls h /\ ctst h' = ctst h /\ tloc h' = tloc h /\
    match l with
    | [] => e' XTstate = None /\ rp h' = rp h
    | c :: rest => e' XOb = Some c /\ e' XTstate = ctst h c /\ ring (rp h') rest
    end.
Proof. intros h l. apply sweep_S. exact detach_removes. Qed.
Print Assumptions C36_sweep_pops.
(* NOT proved (C36_heap_refines): a simulation `reach s -> exists h, ring (rp h) (map S (zombies s)) /\ ...`
   composing the five theorems above with every step of the model; they are its per-event obligations. *)

(* a first callback (registration run without interruption) is DEFINED in every reachable state where the
   thread may start one — the fuel of Model.sweep_all always suffices — ends without fatal error, with the
   zombie list empty *)
Theorem C36_registration_total : forall s t, reach s -> finalized s = false -> thr s t = Alive ->
  gts s t = None -> reg s = None -> incb s t = false ->
  exists s', mstep s (MCb t) = Some s' /\ fatal s' = false /\ zombies s' = [] /\ reg s' = None.
Proof.
  intros s t Hr Hf Ha Hg Hreg Hi. pose proof (reach_inv s Hr) as HI.
  destruct (no_state_idle _ _ HI Hg) as [_ Ho].
  assert (exists s', mstep s (MCb t) = Some s') as (s' & E).
  { cbn [mstep]. destruct (step_fn s (EvCb t)) as [s1|] eqn:E1.
    - apply sweep_all_total; [eapply r_step; eauto|].
      unfold meas. destruct (reg s1) as [[? [| |]]|]; lia.
    - exfalso. unfold step_fn in E1. rewrite Hf, Ha, Hi in E1. unfold busy in E1.
      rewrite Hreg, Ho, Hg in E1. discriminate. }
  exists s'. split; [exact E|]. split.
  - apply C36_no_fatal. eapply mstep_reach; eauto.
  - eapply registration_empties; eauto.
Qed.
Print Assumptions C36_registration_total.

(* composition through the runner: a completed (uninterrupted) registration has destroyed the thread state
   of EVERY thread that had exited before it (or that state had lost its canary while its thread lived) *)
Theorem C36_registration_destroys : forall s t s' u ts, reach s -> gts s t = None ->
  mstep s (MCb t) = Some s' -> thr s u = Exited -> gts s u = Some ts ->
  tss s' ts = TsDeleted \/ dropped s' ts = true.
Proof.
  intros s t s' u ts Hr Hg Hm Hx Hgu.
  destruct (registration_empties s t s' Hg Hm) as [Hz Hreg].
  destruct (mstep_steps _ _ _ Hm) as [es Hs].
  destruct (exited_stable_steps _ _ _ _ _ Hr Hs Hx Hgu) as [Hx' Hg'].
  eapply swept_means_destroyed; eauto using steps_reach.
Qed.
Print Assumptions C36_registration_destroys.

(* fine-grained, any interleaving (exits of other threads between any two sweep steps, overlapping
   callbacks): every canary queued when a registration starts is freed once that sweep loop has ended
   (phase MakeCanary, or registration complete).  Canaries appended by exits during the sweep are either
   swept too or — if the loop had already seen the list empty — stay for the next registration
   (C36_example_residual): that is the honest form of "the next registration empties the list". *)
Theorem C36_sweep_frees_initial_zombies : forall s0 t es s1 c,
  reach s0 -> reg s0 = Some (t, Registering) -> steps s0 es s1 -> In c (zombies s0) ->
  (reg s1 = None \/ exists t', reg s1 = Some (t', MakeCanary)) ->
  cans s1 c = CFreed.
Proof.
  intros s0 t es s1 c Hr Hreg Hs Hin Hend.
  assert (Hp : pending s0 c).
  { right. split; [exists t, Registering; split; [auto|discriminate]|left; auto]. }
  destruct (pending_steps _ _ _ Hr Hs c Hp) as [Hf|[(t0 & ph & Hr0 & Hph) _]]; auto.
  exfalso. destruct Hend as [E|[t' E]]; rewrite E in Hr0; [discriminate|].
  inversion Hr0; subst. congruence.
Qed.
Print Assumptions C36_sweep_frees_initial_zombies.

(* non-vacuity: thread 0 exits, thread 2 registers; thread 1 exits between the pop and the clear; both swept *)
Definition ex_prefix : list event :=
  [EvCb 0; EvSweepPop; EvMakeCanary; EvCbEnd 0; EvCb 1; EvSweepPop; EvMakeCanary; EvCbEnd 1; EvExit 0; EvCb 2].
Example C36_example_interleaved_sweep :
  match frun init (ex_prefix ++ [EvSweepPop; EvExit 1; EvSweepClear; EvSweepPop; EvSweepClear; EvSweepPop; EvMakeCanary]) with
  | Some s => (cans s 0, cans s 1, zombies s, reg s, fatal s)
  | None => (CFree, CFree, [], None, true)
  end = (CFreed, CFreed, [], None, false).
Proof. vm_compute. reflexivity. Qed.
(* the residual: an exit after the loop saw the list empty stays queued when the registration ends *)
Example C36_example_residual :
  match frun init (ex_prefix ++ [EvSweepPop; EvSweepClear; EvSweepPop; EvExit 1; EvMakeCanary]) with
  | Some s => (cans s 0, zombies s, reg s, fatal s)
  | None => (CFree, [], None, true)
  end = (CFreed, [1], None, false).
Proof. vm_compute. reflexivity. Qed.
Example C36_example_prefix_state :
  match frun init ex_prefix with Some s => (zombies s, reg s) | None => ([], None) end = ([0], Some (2, Registering)).
Proof. vm_compute. reflexivity. Qed.

(* regenerated from gil_ensure / gil_release: with an existing thread state the counter is incremented
   exactly once on BOTH paths — the one that takes the GIL (model event EvCb, returns PyGILState_UNLOCKED)
   and the one entered with the GIL already held (EvCbNested, returns PyGILState_LOCKED) — and gil_release
   is PyGILState_Release(oldstate), which decrements on both (EvCbEnd / EvCbNestedEnd).  Model.step_fn
   CONSULTS these facts (bump / set_fatal) and the three facts about thread_canary_register: with one of them
   false the invariant proof (C36/Proofs.v) fails, not only this lemma. *)
Theorem C36_gen_gil_ensure_counts :
  gen_gil_ensure_incr_unlocked = true /\ gen_gil_ensure_incr_locked = true /\ gen_gil_release_plain = true /\
  gen_register_sweeps_first = true /\ gen_register_sets_local = true /\ gen_register_incr = true.
Proof. repeat split; reflexivity. Qed.
Print Assumptions C36_gen_gil_ensure_counts.

Theorem C36_runner_sound : forall s e s', reach s -> mstep s e = Some s' -> reach s'.
Proof. exact mstep_reach. Qed.
Print Assumptions C36_runner_sound.

(* the line `ob->tls->local_thread_canary = NULL` of thread_canary_dealloc is what keeps
   C36_canary_pointers_valid true across EvDictDrop / EvFinalize: after the canary of a live thread
   has been deallocated, the thread's tls points to no canary, so its later exit links nothing *)
Theorem C36_drop_clears_backpointer : forall s t s', reach s -> step s (EvDictDrop t) s' ->
  tlsc s' t = Some None /\ exists ts, gts s' t = Some ts /\ dropped s' ts = true /\
  exists k, tss s' ts = TsLive t k None.
Proof.
  intros s t s' Hr Hs. pose proof (reach_inv s Hr) as HI. unfold step, step_fn in Hs.
  destruct (finalized s) eqn:Hf; [discriminate|].
  destruct (thr s t) eqn:Ha; [|discriminate]. destruct (reg s); [discriminate|].
  destruct (gts s t) as [ts|] eqn:Hg; [|discriminate].
  destruct (live_state _ _ _ HI Hg Ha Hf) as (k & d & Hts). rewrite Hts in Hs. destruct d as [c|]; [|discriminate].
  unfold dealloc in Hs. rewrite (own_canary _ _ _ _ _ HI Ha Hts) in Hs. injection Hs as <-. cbn.
  split; [apply upd_same|]. exists ts. rewrite !upd_same. eauto.
Qed.
Print Assumptions C36_drop_clears_backpointer.

Example C36_example_drop :
  mrun 2 init [MCb 0; MDrop 0; MCbEnd 0; MCb 0; MCbEnd 0; MExit 0; MCb 1; MCbEnd 1; MExit 1]
  = Some [[1;0;0;0]; [0;0;0;0]; [0;0;0;0]; [1;0;0;0]; [0;0;0;0]; [0;0;0;0]; [2;0;0;0]; [0;0;0;0]; [0;0;0;0]].
Proof. vm_compute. reflexivity. Qed.

(* callbacks entered with the GIL held (nested in an outer callback; inside the thread's own
   PyGILState_Ensure bracket) keep the same thread state, before and after *)
Example C36_example_gil_held :
  mrun 2 init [MCb 0; MNest 0; MNest 0; MCbEnd 0; MOwn 0; MCb 0; MCbEnd 0; MOwn 0; MExit 0; MCb 1; MCbEnd 1]
  = Some [[1;0;0;0]; [1;0;0;0]; [1;0;0;0]; [0;0;0;0]; [1;0;0;0]; [1;0;0;0]; [0;0;0;0]; [1;0;0;0]; [0;0;0;0];
          [2;1;0;0]; [0;1;0;0]].
Proof. vm_compute. reflexivity. Qed.

(* non-vacuity: two threads call back, overlap, thread 0 exits, a third thread's first callback
   sweeps its state; then finalization *)
Example C36_example :
  mrun 3 init [MCb 0; MCb 1; MCbEnd 0; MCb 0; MCbEnd 0; MExit 0; MCbEnd 1; MCb 2; MCbEnd 2; MCb 1; MCbEnd 1; MFinalize]
  = Some [[1;0;0;0;0]; [2;0;0;0;0]; [0;0;0;0;0]; [1;0;0;0;0]; [0;0;0;0;0]; [0;0;0;0;0]; [0;0;0;0;0];
          [3;1;0;0;0]; [0;1;0;0;0]; [2;1;0;0;0]; [0;1;0;0;0]; [0;1;1;1;0]].
Proof. vm_compute. reflexivity. Qed.
