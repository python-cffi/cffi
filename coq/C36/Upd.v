(* C36 — lookups in a map updated at one key (`upd`, C36/Ptr.v). *)
From Coq Require Import Arith List.
Import ListNotations.
From Cffi Require Import C36.Ptr.

Lemma upd_same {A} (f : nat -> A) k v : upd f k v k = v.
Proof. unfold upd. rewrite Nat.eqb_refl. reflexivity. Qed.
Lemma upd_other {A} (f : nat -> A) k v k' : k' <> k -> upd f k v k' = f k'.
Proof. intros H. unfold upd. destruct (Nat.eqb_spec k' k); congruence. Qed.
