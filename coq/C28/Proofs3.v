(* C28 — proofs: InvE, the initialization state of each library ([ist] against called / org / switched / icount),
   kept by counting the initialization frames of the library in each stack (e_cnt); then the assembly [Inv] of
   InvA .. InvE, cstep_inv and run_inv.  E_frame serves the steps that write none of the fields InvE reads (as E_stack
   for those that only replace the stepping thread's stack: stepE_call, stepE_replace, stepE_pop; stepE tries
   stepE_replace first; as InvE_ext for fields written beside), E_lib those that write them for the library of the top
   frame (stepE_mark, stepE_start, stepE_done); InvD enters where another thread must be kept out of l's mutex. *)
From Coq Require Import Arith List Bool Lia.
Import ListNotations.
From Cffi Require Import C28.Gen C28.Model C28.Proofs C28.Proofs2.

(* frames of library l inside _cffi_initialize_python, their number in a stack, and whether one of
   them has not yet run the module init function (PInitStart: _cffi_call_python_org still NULL) *)
Definition is_init (l : nat) (f : frame) : bool := initpc (snd f) && Nat.eqb (fst f) l.
Definition ninit (l : nat) (st : list frame) : nat := length (filter (is_init l) st).
Definition is_start (p : pc) : bool := match p with PInitStart => true | _ => false end.
Definition has_start (l : nat) (st : list frame) : bool :=
  existsb (fun f => is_start (snd f) && Nat.eqb (fst f) l) st.
(* the program points of _cffi_start_python at which the top frame pins [called] (see top_ok) *)
Definition special (p : pc) : bool := match p with PMark | PRel | PRet => true | _ => false end.

(* the static variables of library l agree with its ghost state [ist]; while thread t0 initializes,
   t0 has exactly one initialization frame of l, and org / icount say whether it passed PInitStart *)
Definition lib_ok (s : state) (l : nat) : Prop :=
  let L := libs s l in
  match ist L with
  | NotStarted => called L = false /\ icount L = 0 /\ org L = false /\ switched L = false
  | Running t0 => called L = true /\ switched L = false /\ ninit l (stacks s t0) = 1 /\
                  (if has_start l (stacks s t0) then icount L = 0 /\ org L = false
                   else icount L = 1 /\ org L = true)
  | DoneOk => called L = true /\ org L = true /\ switched L = true /\ icount L = 1
  | DoneFail => called L = true /\ org L = false /\ switched L = false /\ icount L = 1
  end.

(* what a top frame (l, q) of thread t knows: past "if (!called)" with the answer it got; at PRet an
   initialization of l that is still running is t's own *)
Definition top_ok (s : state) (t l : nat) (q : pc) : Prop :=
  match q with
  | PMark => called (libs s l) = false
  | PRel => called (libs s l) = true
  | PRet => called (libs s l) = true /\ forall t0, ist (libs s l) = Running t0 -> t0 = t
  | _ => True
  end.

Definition running (L : libstate) (t : nat) : bool :=
  match ist L with Running t0 => Nat.eqb t0 t | _ => false end.

(* e_cnt: a stack holds an initialization frame of l exactly when [ist] names its thread, and then one
   (one equation for: such frames stand in that thread only, e_run; at most one per stack; none when no
   initialization runs, no_init_frames); e_top: what every top frame knows; e_bad: no early extern call *)
Record InvE (s : state) : Prop := {
  e_cnt : forall t l, ninit l (stacks s t) = if running (libs s l) t then 1 else 0;
  e_lib : forall l, lib_ok s l;
  e_top : forall t l q rest, stacks s t = (l, q) :: rest -> top_ok s t l q;
  e_bad : bad s = false }.

(* equal in the fields InvE reads *)
Definition lib_same (x y : libstate) : Prop :=
  called x = called y /\ org x = org y /\ switched x = switched y /\ ist x = ist y /\ icount x = icount y.

Lemma top_ok_ext s s' t l q : called (libs s' l) = called (libs s l) -> ist (libs s' l) = ist (libs s l) ->
  top_ok s t l q -> top_ok s' t l q.
Proof. unfold top_ok. intros -> ->. exact (fun T => T). Qed.

Lemma ninit_cons l f st : ninit l (f :: st) = (if is_init l f then 1 else 0) + ninit l st.
Proof. unfold ninit. cbn [filter]. destruct (is_init l f); reflexivity. Qed.

Lemma ninit_pos_In l st : 0 < ninit l st -> exists p, In (l, p) st /\ initpc p = true.
Proof.
  induction st as [| [l0 q] st IH]; [cbn; lia|]. rewrite ninit_cons. unfold is_init at 1. cbn [fst snd].
  destruct (initpc q) eqn:Iq; cbn [andb].
  - destruct (Nat.eqb_spec l0 l).
    + subst. intros _. exists q. split; [left; reflexivity | exact Iq].
    + intros H. destruct (IH H) as (p & I & Ip). exists p. split; [right|]; assumption.
  - intros H. destruct (IH H) as (p & I & Ip). exists p. split; [right|]; assumption.
Qed.

Lemma In_ninit_pos l p st : In (l, p) st -> initpc p = true -> 0 < ninit l st.
Proof.
  induction st as [| [l0 q] st IH]; [intros []|]. rewrite ninit_cons. intros [E | I] Ip.
  - inversion E; subst. unfold is_init. cbn. rewrite Ip, Nat.eqb_refl. cbn. lia.
  - specialize (IH I Ip). lia.
Qed.

Lemma e_run s : InvE s -> forall t l p, In (l, p) (stacks s t) -> initpc p = true -> ist (libs s l) = Running t.
Proof.
  intros E t l p I Ip. pose proof (In_ninit_pos l p _ I Ip) as N. rewrite (e_cnt s E) in N. unfold running in N.
  destruct (ist (libs s l)) as [| t0 | |]; try (inversion N; fail).
  destruct (Nat.eqb_spec t0 t); [subst; reflexivity | inversion N].
Qed.

Lemma E_frame s s' t : InvE s ->
  (forall l, lib_same (libs s' l) (libs s l)) -> bad s' = bad s ->
  (forall t', t' <> t -> stacks s' t' = stacks s t') ->
  (forall l, ninit l (stacks s' t) = ninit l (stacks s t)) ->
  (forall l, has_start l (stacks s' t) = has_start l (stacks s t)) ->
  (forall l q rest, stacks s' t = (l, q) :: rest -> special q = true ->
     (exists r0, stacks s t = (l, q) :: r0) \/ top_ok s t l q) ->
  InvE s'.
Proof.
  intros [E1 E3 E4 E5] El Eb Eo En Eh Et.
  constructor.
  - intros t' l. destruct (El l) as (_ & _ & _ & Ei & _). unfold running. rewrite Ei.
    destruct (Nat.eqb_spec t' t); [subst; rewrite En | rewrite Eo by assumption]; apply E1.
  - intros l. specialize (E3 l). unfold lib_ok in *. destruct (El l) as (Ec & Eg & Es & Ei & En').
    cbv zeta in *. rewrite Ec, Eg, Es, Ei, En'. destruct (ist (libs s l)) as [| t0 | |]; try exact E3.
    destruct (Nat.eqb_spec t0 t); [subst; rewrite En, Eh | rewrite Eo by assumption]; exact E3.
  - intros t' l q rest H. destruct (El l) as (Ec & _ & _ & Ei & _). apply (top_ok_ext s s' t' l q Ec Ei).
    destruct (special q) eqn:Sq; [|destruct q; try discriminate Sq; exact I].
    destruct (Nat.eqb_spec t' t); [subst | rewrite Eo in H by assumption; exact (E4 t' l q rest H)].
    destruct (Et l q rest H Sq) as [(r0 & H0) | T]; [exact (E4 t l q r0 H0) | exact T].
  - rewrite Eb. exact E5.
Qed.

Lemma mid_not_special p : midpc p = true -> special p = false.
Proof. destruct p; cbn; intros; try discriminate; reflexivity. Qed.

Lemma lib_same_refl x : lib_same x x.
Proof. unfold lib_same. auto. Qed.

Ltac libsame :=
  intros; unfold updf;
  match goal with
  | |- context [Nat.eqb ?a ?b] => destruct (Nat.eqb_spec a b); subst; unfold lib_same; cbn; auto
  | _ => apply lib_same_refl
  end.

Lemma init_holding p : initpc p = true -> holding p = true.
Proof. destruct p; cbn; intros; try discriminate; reflexivity. Qed.

Lemma In_holds l p st : In (l, p) st -> holding p = true -> holds_lib l st = true.
Proof.
  intros I H. unfold holds_lib. apply existsb_exists. exists (l, p). split; [exact I|].
  cbn. rewrite Nat.eqb_refl, H. reflexivity.
Qed.

Lemma no_init_frames s t l : InvE s -> (forall t0, ist (libs s l) <> Running t0) \/ ist (libs s l) <> Running t ->
  ninit l (stacks s t) = 0.
Proof.
  intros E H. rewrite (e_cnt s E). unfold running. destruct (ist (libs s l)) as [| t0 | |]; try reflexivity.
  destruct (Nat.eqb_spec t0 t); [subst; destruct H as [H | H]; exfalso; [apply (H t)|apply H]; reflexivity | reflexivity].
Qed.

(* an initialization of l runs under l's mutex: by InvD no other thread is at a [holding] point of l meanwhile *)
Lemma initializer_holds_mutex s l t0 : InvE s -> ist (libs s l) = Running t0 -> holds_lib l (stacks s t0) = true.
Proof.
  intros E R. pose proof (e_cnt s E t0 l) as N. unfold running in N. rewrite R, Nat.eqb_refl in N.
  destruct (ninit_pos_In l (stacks s t0) ltac:(lia)) as (p & I & Ip).
  exact (In_holds l p _ I (init_holding p Ip)).
Qed.

Lemma has_start_false l st : ninit l st = 0 -> has_start l st = false.
Proof.
  induction st as [| [l0 q] st IH]; [reflexivity|]. rewrite ninit_cons. unfold is_init at 1, has_start. cbn [fst snd existsb].
  destruct q; cbn [initpc is_start andb]; try (intros H; apply IH; exact H);
    destruct (Nat.eqb_spec l0 l); cbn; intros H; try lia; apply IH; exact H.
Qed.

Lemma InvE_ext s s1 : InvE s -> stacks s1 = stacks s ->
  (forall l, lib_same (libs s1 l) (libs s l)) -> bad s1 = bad s -> InvE s1.
Proof.
  intros E Es El Eb. apply (E_frame s s1 0 E El Eb); rewrite ?Es; auto.
  intros l q rest H _. left. exists rest. exact H.
Qed.

(* E_frame for a step that only replaces the stack of t *)
Lemma E_stack s t st : InvE s ->
  (forall l, ninit l st = ninit l (stacks s t)) -> (forall l, has_start l st = has_start l (stacks s t)) ->
  (forall l q rest, st = (l, q) :: rest -> special q = true ->
     (exists r0, stacks s t = (l, q) :: r0) \/ top_ok s t l q) ->
  InvE (set_stack s t st).
Proof.
  intros E En Eh Et. apply (E_frame s _ t E); simp_state; rewrite ?updf_same; auto.
  - intros l. apply lib_same_refl.
  - intros t' N. apply updf_other, N.
Qed.

Lemma stepE_call s t old l' : InvE s -> stacks s t = old -> InvE (set_stack s t ((l', PCall) :: old)).
Proof.
  intros E Hst. apply (E_stack s t _ E).
  - intros l. rewrite Hst. reflexivity.
  - intros l. rewrite Hst. reflexivity.
  - intros l q rest H Sq. inversion H; subst. discriminate.
Qed.

Lemma stepE_idle s t l' : InvE s -> stacks s t = [] -> InvE (set_stack s t [(l', PCall)]).
Proof. apply stepE_call. Qed.

Lemma stepE_push s t l p rest l' : InvE s -> stacks s t = (l, p) :: rest ->
  InvE (set_stack s t ((l', PCall) :: (l, p) :: rest)).
Proof. apply stepE_call. Qed.

Lemma stepE_replace s t l p q rest : InvE s -> stacks s t = (l, p) :: rest ->
  initpc q = initpc p -> is_start q = is_start p ->
  (special q = true -> top_ok s t l q) ->
  InvE (set_stack s t ((l, q) :: rest)).
Proof.
  intros E Hst Iq Sq T. apply (E_stack s t _ E).
  - intros l0. rewrite Hst, !ninit_cons. unfold is_init. cbn [snd]. rewrite Iq. reflexivity.
  - intros l0. rewrite Hst. unfold has_start. cbn [existsb snd]. rewrite Sq. reflexivity.
  - intros l0 q0 r0 H S0. inversion H; subst. right. apply T. exact S0.
Qed.

Lemma stepE_finish s t l rest q : InvE s -> stacks s t = (l, PInitRun) :: rest ->
  q = PInitOk \/ q = PInitFail -> InvE (set_stack s t ((l, q) :: rest)).
Proof.
  intros E Hst [-> | ->]; apply (stepE_replace s t l PInitRun _ rest E Hst); auto; discriminate.
Qed.

Lemma stepE_pop s t l p rest : InvE s -> stacks s t = (l, p) :: rest -> initpc p = false ->
  top_is special rest = false -> InvE (set_stack s t rest).
Proof.
  intros E Hst Ip RS. apply (E_stack s t _ E).
  - intros l0. rewrite Hst, ninit_cons. unfold is_init. cbn [snd]. rewrite Ip. reflexivity.
  - intros l0. rewrite Hst. unfold has_start. cbn [existsb snd]. destruct p; try discriminate; reflexivity.
  - intros l0 q r0 H Sq. rewrite H in RS. cbn in RS. congruence.
Qed.

Lemma lib_ok_other s s' l : libs s' l = libs s l ->
  (forall t, stacks s' t = stacks s t \/ (ninit l (stacks s' t) = ninit l (stacks s t) /\
                                          has_start l (stacks s' t) = has_start l (stacks s t))) ->
  lib_ok s l -> lib_ok s' l.
Proof.
  intros El Es. unfold lib_ok. cbv zeta. rewrite El. destruct (ist (libs s l)) as [| t0 | |]; auto.
  destruct (Es t0) as [-> | (-> & ->)]; auto.
Qed.

Lemma other_head l0 l q rest : l0 <> l ->
  ninit l0 ((l, q) :: rest) = ninit l0 rest /\ has_start l0 ((l, q) :: rest) = has_start l0 rest.
Proof.
  intros N. rewrite ninit_cons. unfold is_init, has_start. cbn [existsb fst snd].
  rewrite (proj2 (Nat.eqb_neq l l0)) by congruence. rewrite !andb_false_r. auto.
Qed.

Lemma lib_ok_replace s t l p q rest L' l0 : l0 <> l -> stacks s t = (l, p) :: rest ->
  lib_ok s l0 -> lib_ok (set_stack (set_lib s l L') t ((l, q) :: rest)) l0.
Proof.
  intros N Hst. apply lib_ok_other; simp_state; [apply updf_other, N|].
  intros t'. destruct (Nat.eqb_spec t' t); [subst; right | left; apply updf_other; assumption].
  rewrite updf_same, Hst. destruct (other_head l0 l p rest N) as (-> & ->). apply other_head, N.
Qed.

(* The top frame (l, p) of t moves to (l, q) and the state of l becomes L'.  Nothing that the invariant
   says of another library changes; what it says of l is to be shown of the new state. *)
Lemma E_lib s t l p q rest L' : InvE s -> stacks s t = (l, p) :: rest ->
  let stk' := updf (stacks s) t ((l, q) :: rest) in
  let s' := set_stack (set_lib s l L') t ((l, q) :: rest) in
  (forall t', ninit l (stk' t') = if running L' t' then 1 else 0) ->
  lib_ok s' l ->
  (forall t' q0 r0, stk' t' = (l, q0) :: r0 -> top_ok s' t' l q0) ->
  InvE s'.
Proof.
  intros E Hst stk' s' Hc Hl Ht.
  assert (Lo : forall l0, l0 <> l -> libs s' l0 = libs s l0) by (intros l0 N; apply updf_other, N).
  constructor.
  - intros t' l0. destruct (Nat.eqb_spec l0 l) as [-> | N]; [unfold s'; simp_state; rewrite updf_same; apply Hc|].
    rewrite (Lo l0 N), <- (e_cnt s E). unfold s'; simp_state.
    destruct (Nat.eqb_spec t' t) as [-> | Nt]; [|rewrite updf_other by exact Nt; reflexivity].
    rewrite updf_same, Hst. destruct (other_head l0 l p rest N) as (-> & _). apply other_head, N.
  - intros l0. destruct (Nat.eqb_spec l0 l) as [-> | N]; [exact Hl|].
    apply (lib_ok_replace s t l p); [exact N | exact Hst | apply (e_lib s E)].
  - intros t' l0 q0 r0 H. destruct (Nat.eqb_spec l0 l) as [-> | N]; [exact (Ht t' q0 r0 H)|].
    apply (top_ok_ext s); [rewrite (Lo l0 N); reflexivity | rewrite (Lo l0 N); reflexivity|].
    unfold s' in H; cbn [set_stack stacks] in H.
    destruct (Nat.eqb_spec t' t) as [-> | Nt]; [rewrite updf_same in H; congruence|].
    rewrite updf_other in H by exact Nt. exact (e_top s E t' l0 q0 r0 H).
  - apply (e_bad s E).
Qed.

Lemma stepE_mark s t l rest : InvD s -> InvE s -> stacks s t = (l, PMark) :: rest ->
  InvE (set_stack (set_lib s l (lcalled (libs s l) t)) t ((l, PInitStart) :: rest)).
Proof.
  intros D E Hst. pose proof (e_top s E t l PMark rest Hst) as Cf. cbn in Cf.
  pose proof (e_lib s E l) as Lk. unfold lib_ok in Lk. cbv zeta in Lk.
  destruct (ist (libs s l)) as [| t0 | |] eqn:Is; try (destruct Lk as (C & _); congruence).
  destruct Lk as (_ & Ic & Og & Sw).
  assert (NI : forall t', ninit l (stacks s t') = 0)
    by (intros t'; rewrite (e_cnt s E); unfold running; rewrite Is; reflexivity).
  assert (NR : ninit l rest = 0) by (rewrite <- (NI t), Hst; reflexivity).
  apply (E_lib s t l PMark PInitStart rest _ E Hst).
  - intros t'. unfold running. cbn [lcalled ist]. destruct (Nat.eqb_spec t t') as [<- | N].
    + rewrite updf_same, ninit_cons, NR. unfold is_init. cbn. rewrite Nat.eqb_refl. reflexivity.
    + rewrite updf_other by congruence. apply NI.
  - unfold lib_ok. cbv zeta. simp_state. rewrite !updf_same. cbn [ist lcalled called switched icount org].
    rewrite updf_same, ninit_cons, NR. unfold is_init, has_start. cbn. rewrite Nat.eqb_refl. cbn. auto.
  - intros t' q r0 H. destruct (Nat.eqb_spec t' t) as [-> | N]; [rewrite updf_same in H; inversion H; exact I|].
    rewrite updf_other in H by exact N. pose proof (e_top s E t' l q r0 H) as T.
    unfold top_ok in *. simp_state. rewrite updf_same. destruct q; try exact I; cbn.
    + (* another thread at PMark of l would hold l's mutex, as t does *)
      exfalso. apply N. apply (D t' t l); [rewrite H | rewrite Hst]; cbn; rewrite Nat.eqb_refl; reflexivity.
    + reflexivity.
    + destruct T as (C & _). congruence.
Qed.

Lemma running_facts s t l p rest : InvE s -> stacks s t = (l, p) :: rest -> initpc p = true ->
  ist (libs s l) = Running t /\ called (libs s l) = true /\ switched (libs s l) = false /\
  ninit l rest = 0 /\
  (if is_start p then icount (libs s l) = 0 /\ org (libs s l) = false
   else icount (libs s l) = 1 /\ org (libs s l) = true).
Proof.
  intros E Hst Ip.
  assert (R : ist (libs s l) = Running t) by (eapply (e_run s E t l p); [rewrite Hst; left; reflexivity | exact Ip]).
  pose proof (e_lib s E l) as Lk. unfold lib_ok in Lk. cbv zeta in Lk. rewrite R in Lk.
  destruct Lk as (C & Sw & N & HS). rewrite Hst, ninit_cons in N. unfold is_init in N. cbn [fst snd] in N.
  rewrite Ip, Nat.eqb_refl in N. cbn in N.
  assert (NR : ninit l rest = 0) by lia.
  repeat split; auto. rewrite Hst in HS. unfold has_start in HS. cbn [existsb fst snd] in HS.
  rewrite Nat.eqb_refl, andb_true_r in HS. fold (has_start l rest) in HS.
  rewrite (has_start_false l rest NR), orb_false_r in HS. exact HS.
Qed.

Lemma stepE_start s t l rest : InvE s -> stacks s t = (l, PInitStart) :: rest ->
  InvE (set_stack (set_lib s l (lstart (libs s l))) t ((l, PInitRun) :: rest)).
Proof.
  intros E Hst. destruct (running_facts s t l PInitStart rest E Hst eq_refl) as (R & C & Sw & NR & Ic & Og).
  apply (E_lib s t l PInitStart PInitRun rest _ E Hst).
  - intros t'. change (running (lstart (libs s l)) t') with (running (libs s l) t'). rewrite <- (e_cnt s E).
    destruct (Nat.eqb_spec t' t) as [-> | N]; [rewrite updf_same, Hst, !ninit_cons | rewrite updf_other by exact N]; reflexivity.
  - unfold lib_ok. cbv zeta. simp_state. rewrite updf_same. cbn [ist lstart called switched icount org].
    rewrite R, updf_same, ninit_cons. unfold is_init, has_start. cbn [existsb fst snd initpc is_start andb orb].
    rewrite Nat.eqb_refl. fold (has_start l rest). rewrite (has_start_false l rest NR), NR. cbn. rewrite Ic. auto.
  - intros t' q r0 H. destruct (Nat.eqb_spec t' t) as [-> | N]; [rewrite updf_same in H; inversion H; exact I|].
    rewrite updf_other in H by exact N.
    apply (top_ok_ext s); simp_state; rewrite ?updf_same; try reflexivity. exact (e_top s E t' l q r0 H).
Qed.

Lemma stepE_done s t l rest (ok : bool) : InvE s ->
  stacks s t = (l, if ok then PInitOk else PInitFail) :: rest ->
  InvE (set_stack (set_lib s l (if ok then lok (libs s l) else lfail (libs s l))) t ((l, PRel) :: rest)).
Proof.
  intros E Hst.
  assert (Ip : initpc (if ok then PInitOk else PInitFail) = true) by (destruct ok; reflexivity).
  destruct (running_facts s t l _ rest E Hst Ip) as (R & C & Sw & NR & HS).
  assert (HS' : icount (libs s l) = 1 /\ org (libs s l) = true) by (destruct ok; exact HS).
  destruct HS' as (Ic & Og).
  set (L' := if ok then lok (libs s l) else lfail (libs s l)).
  assert (Cl : called L' = true) by (unfold L'; destruct ok; exact C).
  assert (Il : forall t0, ist L' <> Running t0) by (unfold L'; destruct ok; cbn; discriminate).
  assert (Rl : forall t', running L' t' = false) by (intros t'; unfold L', running; destruct ok; reflexivity).
  apply (E_lib s t l _ PRel rest L' E Hst).
  - intros t'. rewrite Rl. destruct (Nat.eqb_spec t' t) as [-> | N]; [rewrite updf_same; exact NR|].
    rewrite updf_other by exact N. apply (no_init_frames s t' l E). right. congruence.
  - unfold lib_ok. cbv zeta. simp_state. rewrite updf_same. unfold L'. destruct ok; cbn; auto.
  - intros t' q r0 H. unfold top_ok. simp_state. rewrite updf_same.
    destruct (Nat.eqb_spec t' t) as [-> | N]; [rewrite updf_same in H; inversion H; exact Cl|].
    rewrite updf_other in H by exact N. pose proof (e_top s E t' l q r0 H) as T. unfold top_ok in T.
    destruct q; try exact I; [congruence | exact Cl | split; [exact Cl | intros t0 X; destruct (Il t0 X)]].
Qed.

Lemma ist_allows_ret s t l rest : InvE s -> stacks s t = (l, PRet) :: rest -> org (libs s l) = true ->
  ist_allows (ist (libs s l)) t = true.
Proof.
  intros E Hst Og. destruct (e_top s E t l PRet rest Hst) as (_ & R).
  pose proof (e_lib s E l) as Lk. unfold lib_ok in Lk. cbv zeta in Lk.
  destruct (ist (libs s l)) as [| t0 | |]; cbn.
  - destruct Lk as (_ & _ & O & _). congruence.
  - rewrite (R t0 eq_refl). apply Nat.eqb_refl.
  - reflexivity.
  - destruct Lk as (_ & O & _). congruence.
Qed.

Lemma ist_allows_fast s t l : InvE s -> switched (libs s l) = true -> ist_allows (ist (libs s l)) t = true.
Proof.
  intros E Sw. pose proof (e_lib s E l) as Lk. unfold lib_ok in Lk. cbv zeta in Lk.
  destruct (ist (libs s l)) as [| t0 | |]; cbn; try reflexivity; exfalso.
  - destruct Lk as (_ & _ & _ & S). congruence.
  - destruct Lk as (_ & S & _). congruence.
  - destruct Lk as (_ & _ & S & _). congruence.
Qed.

Lemma stepE s tc : InvA s -> InvD s -> InvE s -> InvE (cstep s tc).
Proof.
  intros A D E. destruct tc as [t c]. ustep. cbv beta iota zeta.
  destruct (t <? nthr s) eqn:Ht; cbn [negb]; [|exact E].
  destruct (stacks s t) as [| [l p] rest] eqn:Hst.
  { destruct c; try exact E. apply stepE_call; assumption. }
  pose proof (rest_top s t l p rest special A Hst mid_not_special) as RS.
  (* the slot, the CAS cell, the mutex and the end of the init code: the top frame moves between
     program points the invariant does not tell apart, some field it does not look at may change *)
  destruct p; split_ifs; try exact E;
    try (eapply stepE_replace;
         [apply (InvE_ext s); [exact E | reflexivity | simp_state; libsame | reflexivity]
         | exact Hst | reflexivity | reflexivity | discriminate]).
  - unfold enter_py. rewrite (ist_allows_fast s t l E E0).
    apply (stepE_replace s t l PCall PInPy rest E Hst); auto; discriminate.
  - apply (stepE_replace s t l PChk PRel rest E Hst); auto.
  - apply (stepE_replace s t l PChk PMark rest E Hst); auto.
  - apply stepE_mark; assumption.
  - apply stepE_start; assumption.
  - (* PInitRun *) apply stepE_call; assumption.
  - apply (stepE_done s t l rest true E Hst).
  - apply (stepE_done s t l rest false E Hst).
  - apply (stepE_replace s t l PRel PRet rest E Hst); auto. intros _. cbn. split.
    + exact (e_top s E t l PRel rest Hst).
    + intros t0 R. apply (D t0 t l); [exact (initializer_holds_mutex s l t0 E R)|].
      rewrite Hst. cbn. rewrite Nat.eqb_refl. reflexivity.
  - unfold enter_py. rewrite (ist_allows_ret s t l rest E Hst E0).
    apply (stepE_replace s t l PRet PInPy rest E Hst); auto; discriminate.
  - apply (stepE_pop (add_zero s l) t l PRet rest); auto.
    apply (InvE_ext s); [exact E | reflexivity | intros; apply lib_same_refl | reflexivity].
  - (* PInPy *) apply stepE_call; assumption.
  - apply (stepE_pop s t l PInPy rest); auto.
  - apply (stepE_pop s t l PInPy rest); auto.
Qed.

Record Inv (s : state) : Prop := {
  iA : InvA s; iB : InvB s; iC : InvC s; iD : InvD s; iE : InvE s }.

Lemma init_inv n : Inv (init n).
Proof.
  constructor.
  - constructor; cbn; intros; [reflexivity | constructor].
  - constructor; cbn; intros; try discriminate; reflexivity.
  - constructor; cbn; intros; try discriminate; reflexivity.
  - intros t1 t2 l H. cbn in H. discriminate.
  - constructor; cbn; intros; try discriminate; try contradiction; try lia; try reflexivity;
      try (unfold lib_ok; cbn; auto).
Qed.

Lemma cstep_inv s tc : Inv s -> Inv (cstep s tc).
Proof.
  intros [A B C D E]. constructor.
  - apply stepA; assumption.
  - apply stepB; assumption.
  - apply stepC; assumption.
  - apply stepD; assumption.
  - apply stepE; assumption.
Qed.

Lemma run_inv_from sched : forall s, Inv s -> Inv (fold_left cstep sched s).
Proof. induction sched as [| tc sched IH]; intros s H; cbn; [exact H | apply IH, cstep_inv, H]. Qed.

Theorem run_inv n sched : Inv (run n sched).
Proof. rewrite (proj1 (run_cstep n sched)). apply run_inv_from, init_inv. Qed.
