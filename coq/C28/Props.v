(* C28 — Embedded-library startup initializes once and never deadlocks.
   Each statement is derived from the lemmas of C28/Proofs*.v.  [run n sched] is the state reached by n threads
   under ANY schedule (list of (thread, choice)); the number of threads, of libraries, the depth
   of recursion (init code and extern functions calling into libraries) and the outcome of
   every init code are arbitrary.  One step is one shared-memory access of _embedding.h.

   Hypotheses that are part of the model (named in the evidence): the CAS primitive is atomic;
   a pthread recursive mutex can be taken iff no other thread is between lock and unlock
   ([mutex_free]); memory is sequentially consistent (the code's write barrier / read barrier
   pair is not modelled); Py_InitializeEx, the module init function and the init code are
   single steps; the GIL is handed over fairly between threads that run Python.

   [step] consults five facts that tools/props/c28.py reads from _embedding.h on every run
   (C28/Gen.v): gen_switch_in_success, gen_init_exits, gen_guard_released_before_lock,
   gen_zero_on_null, gen_fail_resets_org.  The proofs are about [cstep = core true true true true]
   and are transferred to [step] by Proofs.step_eq (step_cases / step_cstep), which only checks when every
   fact has the value of the code as it is. *)
From Coq Require Import Arith List Bool.
From Coq Require Import Lia.
Import ListNotations.
From Cffi Require Import C28.Gen C28.Model C28.Proofs C28.Proofs2 C28.Proofs3 C28.Proofs4 C28.Proofs5.

(* Python is initialized at most once *)
Theorem C28_py_initialize_at_most_once : forall n sched, pycount (run n sched) <= 1.
Proof.
  intros n sched.
  pose proof (g_count _ _ _ _ _ _ (iB _ (run_inv n sched))) as H. destruct (pyinit (run n sched)); lia.
Qed.
Print Assumptions C28_py_initialize_at_most_once.

(* each library's init code runs at most once; its startup mutex is created at most once *)
Theorem C28_init_code_at_most_once : forall n sched l, icount (libs (run n sched) l) <= 1.
Proof.
  intros n sched l.
  pose proof (e_lib _ (iE _ (run_inv n sched)) l) as H. unfold lib_ok in H. cbv zeta in H.
  destruct (ist (libs (run n sched) l)); try (intuition lia).
  destruct H as (_ & _ & _ & H). destruct (has_start l _); intuition lia.
Qed.
Print Assumptions C28_init_code_at_most_once.

Theorem C28_mutex_init_at_most_once : forall n sched l, mcount (libs (run n sched) l) <= 1.
Proof.
  intros n sched l.
  pose proof (g_count _ _ _ _ _ _ (iC _ (run_inv n sched) l)) as H. destruct (ready (libs (run n sched) l)); lia.
Qed.
Print Assumptions C28_mutex_init_at_most_once.

(* no thread runs a library's extern "Python" function before that library's initialization
   finished — except the initializing thread itself, from inside its init code (recursive
   calls are the documented exception; reading recorded in DESIGN.md Appendix B).  [bad] is set
   by [enter_py] whenever this is violated. *)
Theorem C28_no_early_extern : forall n sched, bad (run n sched) = false.
Proof. intros n sched. apply (e_bad _ (iE _ (run_inv n sched))). Qed.
Print Assumptions C28_no_early_extern.

(* the process-wide slot and each library's mutex are exclusive *)
Theorem C28_slot_exclusive : forall n sched t1 t2,
  let s := run n sched in
  top_is spinpc (stacks s t1) = true -> top_is spinpc (stacks s t2) = true -> t1 = t2.
Proof.
  intros n sched t1 t2 s H1 H2. pose proof (iB _ (run_inv n sched)) as B. fold s in B.
  pose proof (g_top _ _ _ _ _ _ B t1 H1). pose proof (g_top _ _ _ _ _ _ B t2 H2). congruence.
Qed.
Print Assumptions C28_slot_exclusive.

Theorem C28_mutex_exclusive : forall n sched t1 t2 l,
  let s := run n sched in
  holds_lib l (stacks s t1) = true -> holds_lib l (stacks s t2) = true -> t1 = t2.
Proof. intros n sched t1 t2 l s. apply (iD _ (run_inv n sched)). Qed.
Print Assumptions C28_mutex_exclusive.

(* after a failed initialization: it stays failed, the function pointer stays NULL, the fast
   path is never enabled, no step starts the library's extern "Python" function, and a call
   that comes back from _cffi_start_python returns the zeroed result *)
Theorem C28_failed_init_is_final : forall n sched1 sched2 l,
  ist (libs (run n sched1) l) = DoneFail ->
  let s := run n (sched1 ++ sched2) in
  ist (libs s l) = DoneFail /\ org (libs s l) = false /\ switched (libs s l) = false.
Proof.
  intros n sched1 sched2 l F s. assert (E : s = fold_left cstep sched2 (run n sched1)).
  { unfold s, run. rewrite fold_left_app. apply sched_cstep, run_cstep. }
  pose proof (fail_stable sched2 l (run n sched1) (run_inv n sched1) F) as F'. rewrite <- E in F'.
  destruct (fail_facts s l (run_inv n (sched1 ++ sched2)) F') as (_ & O & Sw). auto.
Qed.
Print Assumptions C28_failed_init_is_final.

Theorem C28_failed_init_never_runs_extern : forall n sched l t c t',
  let s := run n sched in
  ist (libs s l) = DoneFail ->
  In (l, PInPy) (stacks (step s (t, c)) t') -> In (l, PInPy) (stacks s t').
Proof.
  intros n sched l t c t' s F. unfold s. rewrite run_step. fold s.
  destruct (fail_facts s l (run_inv n sched) F) as (C & O & Sw).
  destruct (Nat.eqb_spec t' t); [subst t' | rewrite cstep_other by assumption; auto].
  ustep. cbv beta iota zeta. destruct (t <? nthr s) eqn:Ht; cbn [negb]; [|auto].
  destruct (stacks s t) as [| [l0 p] rest] eqn:Hst.
  - destruct c; simp_state; rewrite ?updf_same, ?Hst; cbn; intuition discriminate.
  - destruct p; split_ifs; simp_state; split_ifs; simp_state; rewrite ?updf_same, ?Hst; cbn [In];
      try (intros [X | X]; [inversion X; subst; try discriminate; try congruence | auto]);
      try (intros [X | [X | X]]; [inversion X | auto | auto]); auto.
Qed.
Print Assumptions C28_failed_init_never_runs_extern.

Theorem C28_failed_init_returns_zero : forall n sched l t c rest,
  let s := run n sched in
  ist (libs s l) = DoneFail -> (t <? nthr s) = true -> stacks s t = (l, PRet) :: rest ->
  stacks (step s (t, c)) t = rest /\ zeros (step s (t, c)) l = S (zeros s l).
Proof.
  intros n sched l t c rest s F Ht Hst. unfold s. rewrite run_step. fold s.
  destruct (fail_facts s l (run_inv n sched) F) as (C & O & Sw).
  ustep. cbv beta iota zeta. rewrite Ht, Hst. cbn [negb]. rewrite O. simp_state.
  rewrite !updf_same. auto.
Qed.
Print Assumptions C28_failed_init_returns_zero.

(* "every call terminates", one library: in every reachable state in which a call is in
   progress some thread can take a step that changes its own stack.  Termination under a
   bounded-fair scheduler is C28_single_library_terminates below. *)
Theorem C28_no_deadlock_one_library : forall n sched l0,
  let s := run n sched in
  single s l0 -> (exists t, busy s t = true) -> exists t, t < nthr s /\ enabled s t.
Proof.
  intros n sched l0 s Sg B.
  destruct (no_deadlock_moves s (run_inv n sched) (proj2 (run_cstep n sched)) (single_independent _ _ Sg) B) as (t & L & M).
  exists t. split; [exact L | apply moves_enabled, M].
Qed.
Print Assumptions C28_no_deadlock_one_library.

(* The GIL.  A thread that returns from _cffi_initialize_python without PyGILState_Release keeps
   the GIL for ever ([gil s = Some t]) and every later PyGILState_Ensure of another thread (entry of
   _cffi_initialize_python of ANY library, entry of any extern function) blocks.  Whether the two
   exits release is the regenerated fact Gen.gen_init_exits (every return path of the function
   after PyGILState_Ensure is followed back to the labels it passes).  With the code as it is
   nobody ever keeps the GIL, whatever the schedule and the init outcomes: *)
Theorem C28_gil_never_kept : forall n sched, gil (run n sched) = None.
Proof. intros n sched. apply run_cstep. Qed.
Print Assumptions C28_gil_never_kept.

(* ... hence no deadlock for any number of libraries that do not call into each other (each
   thread's nested calls stay inside one library), e.g. library A's init fails in one thread and
   another thread then makes its first call into library B *)
Theorem C28_no_deadlock_independent_libraries : forall n sched,
  let s := run n sched in
  independent s -> (exists t, busy s t = true) -> exists t, t < nthr s /\ enabled s t.
Proof.
  intros n sched s Ind B.
  destruct (no_deadlock_moves s (run_inv n sched) (proj2 (run_cstep n sched)) Ind B) as (t & L & M).
  exists t. split; [exact L | apply moves_enabled, M].
Qed.
Print Assumptions C28_no_deadlock_independent_libraries.

(* The one-step SHAPE lemma behind the bound below (it states no bound by itself).  [rank] orders the
   program points of a call (PCall = 18 ... PInPy = 1).  Every step of thread t leaves its stack
   unchanged (it is blocked, idle or past nthr), or starts a nested call (only from the user's init
   code, an extern function or an idle thread), or returns from the innermost call, or moves the
   innermost call to a point of strictly smaller rank. *)
Theorem C28_bounded_steps : forall s t c, effect (stacks s t) (stacks (step s (t, c)) t).
Proof. intros s t c. exact (move_effect c _ _ (step_move s t c)). Qed.
Print Assumptions C28_bounded_steps.

(* The bound.  [weight s] = sum over the threads t < nthr s and over the frames (l, p) of t's stack
   of [rank p]; [total_frames s] = the number of calls in progress (nested ones included).  For ANY
   state s (reachable or not), thread t and choice c:
   - a step that leaves t's stack unchanged leaves the whole state unchanged (stuttering);
   - a step that changes it and does not start a call (c = COk / CFail) strictly decreases the weight;
   - a step that starts a call adds at most 18;
   - weight s <= 18 * total_frames s. *)
Theorem C28_stutter : forall s t c, stacks (step s (t, c)) t = stacks s t -> step s (t, c) = s.
Proof. exact stutter. Qed.
Print Assumptions C28_stutter.

Theorem C28_weight_decreases : forall s t c, is_call c = false ->
  stacks (step s (t, c)) t <> stacks s t -> weight (step s (t, c)) < weight s.
Proof. exact weight_decreases. Qed.
Print Assumptions C28_weight_decreases.

Theorem C28_weight_call : forall s t l, weight (step s (t, CCall l)) <= weight s + 18.
Proof.
  intros s t l.
  assert (frank (stacks (step s (t, CCall l)) t) <= frank (stacks s t) + 18)
    by (destruct (step_move s t (CCall l)) as [-> | l' _ -> _ | f -> | l0 p p' r -> -> Lr];
        rewrite ?frank_cons; cbn [snd rank]; lia).
  pose proof (weight_step s t (CCall l)). destruct (t <? nthr s); lia.
Qed.
Print Assumptions C28_weight_call.

Theorem C28_weight_bound : forall s, weight s <= 18 * total_frames s.
Proof.
  intros s.
  unfold weight, total_frames. generalize (nthr s) as n. induction n as [| n IH]; [cbn; lia|].
  rewrite !sumf_S. pose proof (frank_bound (stacks s n)). lia.
Qed.
Print Assumptions C28_weight_bound.

(* ... hence, from any state and under ANY schedule segment in which no further call is started
   (any number of libraries, fair or not): the number of effective (state-changing) steps is at most
   the weight that is lost, so at most weight s <= 18 * total_frames s.  Everything beyond that
   is stuttering (spinning on a CAS cell, waiting for a mutex). *)
Theorem C28_effective_steps_bounded : forall seg s, nocall seg ->
  eff_count s seg + weight (fold_left step seg s) <= weight s.
Proof.
  intros seg.
  induction seg as [| [t c] seg IH]; intros s H; cbn [fold_left eff_count]; [lia|]. inversion H; subst.
  cbn [snd] in *. specialize (IH (step s (t, c)) ltac:(assumption)).
  unfold effective. cbn [fst]. destruct (stack_eq_dec _ _) as [E | N].
  - rewrite (stutter s t c E) in *. lia.
  - pose proof (weight_decreases s t c ltac:(assumption) N). lia.
Qed.
Print Assumptions C28_effective_steps_bounded.

Theorem C28_effective_steps_bounded_frames : forall seg s, nocall seg ->
  eff_count s seg <= 18 * total_frames s.
Proof. intros seg s H. pose proof (C28_effective_steps_bounded seg s H). pose proof (C28_weight_bound s). lia. Qed.
Print Assumptions C28_effective_steps_bounded_frames.

(* "Every call terminates", with a bound, under a bounded-fair scheduler.  s is any state reached by n
   threads; the libraries in use do not call into each other (in particular: one library).  The
   scheduler then runs [rounds]: in each round every thread is scheduled at least once, in any
   order and any number of times, and no further call is started (the init codes / extern
   functions that are running return: COk or CFail, chosen by the schedule).  As long as a call is
   in progress every round contains an effective step (no deadlock: the thread found by
   C28_no_deadlock_* moves whatever non-call choice it gets, and if somebody else moved first that
   was an effective step too), so after weight s <= 18 * total_frames s rounds NO call is in progress:
   every call has returned.  Not covered: init codes that call across libraries (refuted below) and
   schedules in which user code keeps starting nested calls for ever. *)
Theorem C28_independent_libraries_terminate : forall rounds n sched,
  let s := run n sched in
  independent s ->
  (forall seg, In seg rounds -> round n seg /\ nocall seg) ->
  weight s <= length rounds ->
  forall t, busy (fold_left step (concat rounds) s) t = false.
Proof.
  intros rounds n sched s Ind R. apply independent_terminates; [apply run_inv | apply run_cstep | exact Ind |].
  unfold s. rewrite nthr_run. exact R.
Qed.
Print Assumptions C28_independent_libraries_terminate.

Theorem C28_single_library_terminates : forall rounds n sched l0,
  let s := run n sched in
  single s l0 ->
  (forall seg, In seg rounds -> round n seg /\ nocall seg) ->
  18 * total_frames s <= length rounds ->
  forall t, busy (fold_left step (concat rounds) s) t = false.
Proof.
  intros rounds n sched l0 s Sg R W.
  apply C28_independent_libraries_terminate; [eapply single_independent; exact Sg | exact R |].
  pose proof (C28_weight_bound s). fold s. lia.
Qed.
Print Assumptions C28_single_library_terminates.

(* ... and after a failed initialization a call of that library stays on the plain path (never
   the init code, never the extern function): each effective step lowers its rank within the plain
   program points (one-step statement; the number of effective steps is bounded by
   C28_effective_steps_bounded) until it is at PRet and returns the zeroed result.  (The failed
   state is permanent: C28_failed_init_is_final.) *)
Theorem C28_failed_call_progress : forall n sched l t c p rest,
  let s := run n sched in
  ist (libs s l) = DoneFail -> stacks s t = (l, p) :: rest -> plainpc p = true ->
  let s' := step s (t, c) in
  stacks s' t = stacks s t \/
  (exists p', stacks s' t = (l, p') :: rest /\ rank p' < rank p /\ plainpc p' = true) \/
  (p = PRet /\ stacks s' t = rest /\ zeros s' l = S (zeros s l)).
Proof.
  intros n sched l t c p rest s F Hst Pp. cbv zeta. unfold s. rewrite run_step. fold s.
  destruct (fail_facts s l (run_inv n sched) F) as (C & O & Sw).
  ustep. destruct (t <? nthr s) eqn:Ht; cbn [negb]; [|left; reflexivity].
  rewrite Hst. destruct p; try discriminate; rewrite ?C, ?O, ?Sw;
    split_ifs; simp_state; split_ifs; simp_state; rewrite ?updf_same, ?Hst;
    try (left; reflexivity);
    try (right; left; eexists; split; [reflexivity | split; [cbn; lia | reflexivity]]);
    try (right; right; repeat split; reflexivity).
Qed.
Print Assumptions C28_failed_call_progress.

(* ... and the clause is FALSE for two libraries whose init codes call into each other: after
   this schedule both threads are inside a call and no step of any thread changes the state.
   The witness is replayed on the real code by the correspondence run (finding
   cross-library-init-deadlock). *)
Theorem C28_two_libraries_deadlock_refuted :
  let s := run 2 deadlock_schedule in
  busy s 0 = true /\ busy s 1 = true /\ forall t c, step s (t, c) = s.
Proof.
  set (s := run 2 deadlock_schedule).
  assert (S0 : stacks s 0 = [(1, PLock); (0, PInitRun)]) by (vm_compute; reflexivity).
  assert (S1 : stacks s 1 = [(0, PLock); (1, PInitRun)]) by (vm_compute; reflexivity).
  assert (N : nthr s = 2) by (vm_compute; reflexivity).
  assert (F0 : mutex_free s 1 0 = false) by (vm_compute; reflexivity).
  assert (F1 : mutex_free s 0 1 = false) by (vm_compute; reflexivity).
  split; [unfold busy; rewrite S0; reflexivity|]. split; [unfold busy; rewrite S1; reflexivity|].
  intros t c. unfold s. rewrite run_step. fold s. ustep. cbv beta iota zeta. rewrite N.
  destruct t as [| [| t]]; cbn [Nat.ltb Nat.leb negb].
  - rewrite S0, F0. reflexivity.
  - rewrite S1, F1. reflexivity.
  - reflexivity.
Qed.
Print Assumptions C28_two_libraries_deadlock_refuted.

(* non-vacuity: three threads race for one library whose init code fails; one initializes
   Python, one runs the init code, all three calls return the zeroed result *)
Example C28_example_fail :
  let race := [(0, CCall 0); (1, CCall 0); (2, CCall 0)] ++
              flat_map (fun _ => [(0, CFail); (1, CFail); (2, CFail)]) (seq 0 40) in
  observe (run 3 race) 1 = (1, false, [(1, 1, 3, 3)], [0; 0; 0]).
Proof. vm_compute. reflexivity. Qed.

(* non-vacuity of C28_single_library_terminates: two threads have just called into library 0
   (weight 36 = 18 * 2 frames); 36 rounds "thread 1, then thread 0", thread 1's init code fails:
   the hypotheses hold and, as the theorem says, nobody is busy any more; Python and the init code
   ran once and both calls returned the zeroed result *)
Example C28_example_rounds :
  let s := run 2 [(0, CCall 0); (1, CCall 0)] in
  let rounds := repeat [(1, CFail); (0, COk)] 36 in
  single s 0 /\ weight s = 36 /\ 18 * total_frames s = length rounds /\
  (forall seg, In seg rounds -> round 2 seg /\ nocall seg) /\
  (forall t, busy (fold_left step (concat rounds) s) t = false) /\
  observe (fold_left step (concat rounds) s) 1 = (1, false, [(1, 1, 2, 3)], [0; 0]).
Proof.
  intros s rounds.
  assert (Sg : single s 0).
  { intros t f I. destruct t as [| [| t]]; vm_compute in I; intuition (subst; reflexivity). }
  pose proof (alternate_rounds 36 : forall seg, In seg rounds -> round 2 seg /\ nocall seg) as R.
  assert (W : 18 * total_frames s = length rounds) by (vm_compute; reflexivity).
  split; [exact Sg|]. split; [vm_compute; reflexivity|]. split; [exact W|]. split; [exact R|].
  split; [|vm_compute; reflexivity].
  apply (C28_single_library_terminates rounds 2 _ 0 Sg R). change (18 * total_frames s <= length rounds). rewrite W. constructor.
Qed.

(* non-vacuity of [independent] with two libraries (C28_no_deadlock_independent_libraries,
   C28_independent_libraries_terminate): thread 0 is in the init code of library 0 and has called
   library 0 again from there, thread 1 has called library 1; no single library covers the state;
   some thread is enabled, and after 41 = weight s rounds nobody is busy *)
Example C28_example_independent :
  let s := run 2 ((0, CCall 0) :: go 0 13 ++ [(0, CCall 0); (1, CCall 1)]) in
  let rounds := repeat [(1, CFail); (0, COk)] 41 in
  stacks s 0 = [(0, PCall); (0, PInitRun)] /\ stacks s 1 = [(1, PCall)] /\
  independent s /\ (forall l0, ~ single s l0) /\ weight s = length rounds /\
  (exists t, t < nthr s /\ enabled s t) /\
  (forall t, busy (fold_left step (concat rounds) s) t = false) /\
  observe (fold_left step (concat rounds) s) 2 = (1, false, [(1, 1, 0, 2); (1, 1, 1, 3)], [0; 0]).
Proof.
  intros s rounds.
  assert (S0 : stacks s 0 = [(0, PCall); (0, PInitRun)]) by (vm_compute; reflexivity).
  assert (S1 : stacks s 1 = [(1, PCall)]) by (vm_compute; reflexivity).
  assert (Ind : independent s).
  { intros t l p r f H I. destruct t as [| [| t]].
    - rewrite S0 in H. inversion H; subst. destruct I as [<- | []]. reflexivity.
    - rewrite S1 in H. inversion H; subst. destruct I.
    - vm_compute in H. discriminate. }
  pose proof (alternate_rounds 41 : forall seg, In seg rounds -> round 2 seg /\ nocall seg) as R.
  assert (W : weight s = length rounds) by (vm_compute; reflexivity).
  split; [exact S0|]. split; [exact S1|]. split; [exact Ind|]. split; [|split; [exact W|]].
  2: split; [|split; [|vm_compute; reflexivity]].
  - intros l0 Sg. pose proof (Sg 0 (0, PCall) ltac:(rewrite S0; left; reflexivity)) as A.
    pose proof (Sg 1 (1, PCall) ltac:(rewrite S1; left; reflexivity)) as B. cbn in A, B. congruence.
  - apply (C28_no_deadlock_independent_libraries 2 _ Ind). exists 0. unfold busy. fold s. rewrite S0. reflexivity.
  - apply (C28_independent_libraries_terminate rounds 2 _ Ind R). change (weight s <= length rounds). rewrite W. constructor.
Qed.
