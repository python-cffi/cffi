(* C28 — proofs: the invariant of every reachable state, for all schedules, any number of threads and libraries,
   in five parts.  Here: [cstep] and its transfer to [step]; InvA (shape of the stacks); the record [Guard] (a CAS
   cell around a once-only initialization) and InvB, its instance for the process-wide slot.  Proofs2.v: InvC (the
   cell of each library, a [Guard] too) and InvD (the recursive mutex).  Proofs3.v: InvE, the assembly [Inv], run_inv.
   Each part has a frame lemma for the rows of [core] that leave its cells alone, tried first, and an update lemma
   for the rows that touch them. *)
From Coq Require Import Arith List Bool Lia.
Import ListNotations.
From Cffi Require Import C28.Gen C28.Model.

(* the proofs are about the code as it is: the fast-path switch inside the success branch, the CAS
   guard released before pthread_mutex_lock, the result zeroed when the pointer is NULL, the pointer
   reset after a failed init.  If the regenerated Gen.v says otherwise, [step_eq] fails and every
   theorem about [step] stops checking. *)
Definition cstep := core true true true true.
Ltac ustep := unfold cstep, core; cbv beta iota zeta.

Lemma updf_same {A} (f : nat -> A) i v : updf f i v i = v.
Proof. unfold updf. rewrite Nat.eqb_refl. reflexivity. Qed.
Lemma updf_other {A} (f : nat -> A) i v j : j <> i -> updf f i v j = f j.
Proof. unfold updf. intros N. destruct (Nat.eqb_spec j i); [contradiction | reflexivity]. Qed.
Lemma updf_keep {A B} (g : A -> B) (f : nat -> A) i v j : g v = g (f i) -> g (updf f i v j) = g (f j).
Proof. intros E. unfold updf. destruct (Nat.eqb_spec j i) as [-> |]; [exact E | reflexivity]. Qed.

Ltac simp_state :=
  cbn [enter_py set_stack set_lib set_spin set_py set_bad add_zero nthr stacks spin pyinit pycount libs bad zeros gil].

Ltac split_ifs :=
  repeat match goal with
         | |- context [if ?b then _ else _] => let E := fresh "E" in destruct b eqn:E
         | |- context [match ?x with Some _ => _ | None => _ end] => let E := fresh "E" in destruct x eqn:E
         | |- context [match ?c with CCall _ => _ | COk => _ | CFail => _ end] => destruct c
         end.

Lemma cstep_frame s t c :
  nthr (cstep s (t, c)) = nthr s /\ gil (cstep s (t, c)) = gil s /\
  forall t', t' <> t -> stacks (cstep s (t, c)) t' = stacks s t'.
Proof.
  ustep. destruct (t <? nthr s); cbn [negb]; [|auto].
  destruct (stacks s t) as [| [l p] rest]; [destruct c | destruct p];
    split_ifs; simp_state; split_ifs; simp_state; repeat split;
    intros t' N; rewrite ?updf_other by exact N; reflexivity.
Qed.

Lemma cstep_nthr s tc : nthr (cstep s tc) = nthr s.
Proof. destruct tc as [t c]. apply cstep_frame. Qed.

Lemma cstep_other s t c t' : t' <> t -> stacks (cstep s (t, c)) t' = stacks s t'.
Proof. apply cstep_frame. Qed.

Lemma cstep_gil s tc : gil (cstep s tc) = gil s.
Proof. destruct tc as [t c]. apply cstep_frame. Qed.

(* [step] is the core step wrapped into the GIL bookkeeping; with the exits of
   _cffi_initialize_python as they are (both release the GIL: Gen.gen_init_exits) nobody ever
   keeps the GIL, and a thread that is not blocked on the GIL takes the core step *)
Lemma step_eq s tc : step s tc = if gil_blocked s (fst tc) then s else cstep s tc.
Proof.
  unfold step, step_gen, keeps_gil. change gen_switch_in_success with true.
  change gen_guard_released_before_lock with true. change gen_zero_on_null with true.
  change gen_fail_resets_org with true. change gen_init_exits with (true, true). cbn [fst snd negb].
  destruct (gil_blocked s (fst tc)); [reflexivity|].
  fold cstep. destruct (fst tc <? nthr s); cbn [andb]; [|reflexivity].
  destruct (stacks s (fst tc)) as [| [l p] r]; [reflexivity|]. destruct p; reflexivity.
Qed.

Lemma step_cases s tc : step s tc = s \/ step s tc = cstep s tc.
Proof. rewrite step_eq. destruct (gil_blocked s (fst tc)); auto. Qed.

Lemma step_cstep s tc : gil s = None -> step s tc = cstep s tc.
Proof. intros G. rewrite step_eq. unfold gil_blocked. rewrite G. reflexivity. Qed.

(* from a state in which nobody keeps the GIL every step of a schedule is the core step, and nobody ever does *)
Lemma sched_cstep sched : forall s, gil s = None ->
  fold_left step sched s = fold_left cstep sched s /\ gil (fold_left step sched s) = None.
Proof.
  induction sched as [| tc sched IH]; intros s G; cbn [fold_left]; [auto|].
  rewrite (step_cstep s tc G). apply IH. rewrite cstep_gil. exact G.
Qed.

Lemma run_cstep n sched : run n sched = fold_left cstep sched (init n) /\ gil (run n sched) = None.
Proof. apply sched_cstep. reflexivity. Qed.

Record InvA (s : state) : Prop := {
  a_idle : forall t, nthr s <= t -> stacks s t = [];
  a_mid : forall t, Forall (fun f => midpc (snd f) = true) (tl (stacks s t)) }.

Lemma stepA s tc : InvA s -> InvA (cstep s tc).
Proof.
  intros [I M]. destruct tc as [t c]. constructor.
  - intros t' L. rewrite cstep_nthr in L. destruct (Nat.eqb_spec t' t).
    + subst. ustep. assert (E : (t <? nthr s) = false) by (apply Nat.ltb_ge; exact L).
      rewrite E. cbn. apply I. exact L.
    + rewrite cstep_other by assumption. apply I. exact L.
  - intros t'. destruct (Nat.eqb_spec t' t); [subst | rewrite cstep_other by assumption; apply M].
    specialize (M t). ustep. cbv beta iota zeta.
    destruct (t <? nthr s) eqn:Ht; cbn [negb]; [|exact M].
    destruct (stacks s t) as [| [l p] rest] eqn:Hst.
    + destruct c; simp_state; rewrite ?updf_same, ?Hst; cbn [tl]; constructor.
    + cbn [tl] in M.
      assert (P : forall q, Forall (fun f => midpc (snd f) = true) (tl ((l, q) :: rest))) by (intros; exact M).
      assert (Q : Forall (fun f => midpc (snd f) = true) (tl rest)).
      { destruct rest; [constructor | inversion M; assumption]. }
      destruct p; split_ifs; simp_state; split_ifs; simp_state;
        rewrite ?updf_same, ?Hst; try apply P; try exact Q; cbn [tl];
        try (constructor; [reflexivity | exact M]).
Qed.

(* a frame below the top is waiting for a nested call: it holds neither the slot nor a CAS cell *)
Lemma mid_not_spin_cas p : midpc p = true -> spinpc p = false /\ caspc p = false.
Proof. destruct p; cbn; intros; try discriminate; auto. Qed.

Definition top_is (f : pc -> bool) (st : list frame) : bool :=
  match st with (_, p) :: _ => f p | [] => false end.

Lemma rest_top s t l p rest f : InvA s -> stacks s t = (l, p) :: rest ->
  (forall q, midpc q = true -> f q = false) -> top_is f rest = false.
Proof.
  intros A H F. pose proof (a_mid s A t) as M. rewrite H in M. cbn [tl] in M.
  destruct rest as [| [l' q] r]; [reflexivity|]. inversion M; subst. cbn in *. auto.
Qed.

(* What _cffi_carefully_make_gil (the process-wide slot, around Py_InitializeEx) and
   _cffi_acquire_reentrant_mutex (the cell of a library, around pthread_mutex_init) share: a cell taken
   and given back by compare-and-swap, around an initialization that must happen once.  [inn st]: the
   top frame of stack st is between the CAS that takes the cell and the one that gives it back;
   [ini st]: it is at the initialization.  The cell names the one thread inside; the flag is set by the
   initialization, which is counted. *)
Record Guard (inn ini : list frame -> bool) (stk : nat -> list frame)
             (cell : option nat) (flag : bool) (count : nat) : Prop := {
  g_top : forall t, inn (stk t) = true -> cell = Some t;
  g_holder : forall u, cell = Some u -> inn (stk u) = true;
  g_init : forall t, ini (stk t) = true -> flag = false;
  g_count : count = if flag then 1 else 0 }.

(* A step of t.  The cell goes to t when t's top frame enters the guarded program points (only from a
   free cell), is freed when it leaves them and is untouched otherwise; the initialization happens
   only at its program point. *)
Lemma guard_upd inn ini stk cell flag count stk' cell' flag' count' t :
  (forall st, ini st = true -> inn st = true) ->
  Guard inn ini stk cell flag count ->
  (forall t', t' <> t -> stk' t' = stk t') ->
  cell' = (if inn (stk' t) then Some t else if inn (stk t) then None else cell) ->
  (inn (stk' t) = true -> inn (stk t) = true \/ cell = None) ->
  (flag' = flag /\ count' = count \/ ini (stk t) = true /\ flag' = true /\ count' = S count) ->
  (ini (stk' t) = true -> flag' = false) ->
  Guard inn ini stk' cell' flag' count'.
Proof.
  intros Sub [G1 G2 G3 G4] Eo -> En Ep Ei. constructor.
  - intros t' T. destruct (Nat.eqb_spec t' t) as [-> | N]; [rewrite T; reflexivity|].
    rewrite (Eo t' N) in T. pose proof (G1 t' T) as S'. destruct (inn (stk' t)) eqn:T'.
    + destruct (En eq_refl) as [O | O]; [apply G1 in O|]; congruence.
    + destruct (inn (stk t)) eqn:T0; [apply G1 in T0; congruence | exact S'].
  - intros u H. destruct (inn (stk' t)) eqn:T'; [inversion H; subst; exact T'|].
    destruct (inn (stk t)) eqn:T0; [discriminate|].
    destruct (Nat.eqb_spec u t) as [-> | N]; [rewrite (G2 t H) in T0; discriminate|].
    rewrite (Eo u N). exact (G2 u H).
  - intros t' H. destruct (Nat.eqb_spec t' t) as [-> | N]; [exact (Ei H)|].
    rewrite (Eo t' N) in H. destruct Ep as [(-> & _) | (H0 & _)]; [exact (G3 t' H)|].
    pose proof (G1 t' (Sub _ H)). pose proof (G1 t (Sub _ H0)). congruence.
  - destruct Ep as [(-> & ->) | (H0 & -> & ->)]; [exact G4|]. rewrite G4, (G3 t H0). reflexivity.
Qed.

(* A step of t whose top frame is outside the guarded program points before and after, the cell, the flag and the
   count untouched. *)
Lemma guard_frame inn ini stk cell flag count stk' t :
  (forall st, ini st = true -> inn st = true) ->
  Guard inn ini stk cell flag count ->
  (forall t', t' <> t -> stk' t' = stk t') ->
  inn (stk t) = false -> inn (stk' t) = false ->
  Guard inn ini stk' cell flag count.
Proof.
  intros Sub G Eo T T'. apply (guard_upd _ _ _ _ _ _ _ _ _ _ t Sub G Eo); rewrite ?T, ?T'; auto; try discriminate.
  intros H. apply Sub in H. congruence.
Qed.

Definition at_gilinit (p : pc) : bool := match p with PGilInit => true | _ => false end.

Definition InvB (s : state) : Prop :=
  Guard (top_is spinpc) (top_is at_gilinit) (stacks s) (spin s) (pyinit s) (pycount s).

Lemma gilinit_spin st : top_is at_gilinit st = true -> top_is spinpc st = true.
Proof. destruct st as [| [l []] r]; cbn; congruence. Qed.

Lemma B_frame s s' t : InvB s ->
  spin s' = spin s -> pyinit s' = pyinit s -> pycount s' = pycount s ->
  (forall t', t' <> t -> stacks s' t' = stacks s t') ->
  top_is spinpc (stacks s t) = false -> top_is spinpc (stacks s' t) = false -> InvB s'.
Proof.
  intros B Es Ei Ec Eo T T'. unfold InvB. rewrite Es, Ei, Ec. exact (guard_frame _ _ _ _ _ _ _ t gilinit_spin B Eo T T').
Qed.

Lemma stepB s tc : InvA s -> InvB s -> InvB (cstep s tc).
Proof.
  intros A B. destruct tc as [t c]. ustep. cbv beta iota zeta.
  destruct (t <? nthr s) eqn:Ht; cbn [negb]; [|exact B].
  destruct (stacks s t) as [| [l p] rest] eqn:Hst.
  - destruct c; try exact B.
    apply (B_frame s _ t B); simp_state; rewrite ?updf_same, ?Hst; try reflexivity.
    intros t' N; apply updf_other, N.
  - assert (R : top_is spinpc rest = false)
      by (eapply (rest_top s t l p rest spinpc A Hst); intros q Q; apply mid_not_spin_cas; exact Q).
    assert (R' : top_is at_gilinit rest = false)
      by (destruct (top_is at_gilinit rest) eqn:X; [apply gilinit_spin in X; congruence | reflexivity]).
    pose proof (g_top _ _ _ _ _ _ B t) as Sp. rewrite Hst in Sp.
    destruct p; unfold enter_py; split_ifs; try exact B.
    (* the rows outside _cffi_carefully_make_gil: neither program point holds the slot, no guarded field moves *)
    all: try (apply (B_frame s _ t B); simp_state; rewrite ?updf_same, ?Hst;
              [reflexivity | reflexivity | reflexivity | intros t' N; apply updf_other, N
              | reflexivity | first [reflexivity | exact R]]).
    (* PSpin .. PGilRelease: the premises of guard_upd are read off the new state *)
    all: apply (guard_upd _ _ _ _ _ _ _ _ _ _ t gilinit_spin B); simp_state;
      rewrite ?updf_same, ?Hst, ?R, ?R'; cbn [top_is spinpc at_gilinit];
      try (intros t' N; apply updf_other, N); try reflexivity; try discriminate; auto.
Qed.
