(* C28 — proofs: InvC, the CAS cell of _cffi_acquire_reentrant_mutex around the lazy pthread_mutex_init (one per
   library: the [Guard] of Proofs.v with [top_at] for [top_is]), and InvD, the recursive mutex of a library has one
   holder.  C_frame and D_replace are tried first; guard_upd and D_upd see the rows that are left. *)
From Coq Require Import Arith List Bool Lia.
Import ListNotations.
From Cffi Require Import C28.Gen C28.Model C28.Proofs.

Definition top_at (f : pc -> bool) (l : nat) (st : list frame) : bool :=
  match st with (l', p) :: _ => f p && Nat.eqb l l' | [] => false end.

Lemma top_at_false f l st : top_is f st = false -> top_at f l st = false.
Proof. destruct st as [| [l' p] r]; cbn; [reflexivity | intros ->; reflexivity]. Qed.

Definition at_minit (p : pc) : bool := match p with PMInit => true | _ => false end.

Definition InvC (s : state) : Prop :=
  forall l, Guard (top_at caspc l) (top_at at_minit l) (stacks s)
                  (cas (libs s l)) (ready (libs s l)) (mcount (libs s l)).

Lemma minit_cas l st : top_at at_minit l st = true -> top_at caspc l st = true.
Proof. destruct st as [| [l' []] r]; cbn; congruence. Qed.

(* a step of t outside _cffi_acquire_reentrant_mutex that leaves the three guarded fields of every library alone
   keeps the invariant; stepC tries this first (as stepE does with stepE_replace), so that guard_upd sees only the
   rows that touch a cell *)
Lemma C_frame s s' t : InvC s ->
  (forall x, cas (libs s' x) = cas (libs s x) /\ ready (libs s' x) = ready (libs s x) /\
             mcount (libs s' x) = mcount (libs s x)) ->
  (forall t', t' <> t -> stacks s' t' = stacks s t') ->
  top_is caspc (stacks s t) = false -> top_is caspc (stacks s' t) = false -> InvC s'.
Proof.
  intros C El Eo T T' x. destruct (El x) as (-> & -> & ->).
  exact (guard_frame _ _ _ _ _ _ _ t (minit_cas x) (C x) Eo (top_at_false caspc x _ T) (top_at_false caspc x _ T')).
Qed.

Lemma stepC s tc : InvA s -> InvC s -> InvC (cstep s tc).
Proof.
  intros A C. destruct tc as [t c]. ustep. cbv beta iota zeta.
  destruct (t <? nthr s) eqn:Ht; cbn [negb]; [|exact C].
  destruct (stacks s t) as [| [l p] rest] eqn:Hst.
  - destruct c; try exact C.
    apply (C_frame s _ t C); simp_state; rewrite ?updf_same, ?Hst; auto.
    intros t' N; apply updf_other, N.
  - assert (R : top_is caspc rest = false)
      by (eapply (rest_top s t l p rest caspc A Hst); intros q Q; apply mid_not_spin_cas; exact Q).
    assert (R' : forall x, top_at at_minit x rest = false).
    { intros x. destruct (top_at at_minit x rest) eqn:X; [|reflexivity].
      apply minit_cas in X. rewrite (top_at_false caspc x rest R) in X. discriminate. }
    assert (Cs : caspc p = true -> cas (libs s l) = Some t).
    { intros Cp. apply (g_top _ _ _ _ _ _ (C l) t). rewrite Hst. cbn. rewrite Cp. apply Nat.eqb_refl. }
    destruct p; unfold enter_py; split_ifs; try exact C.
    (* the rows outside _cffi_acquire_reentrant_mutex: neither program point holds a cell, and what they write
       of a library is none of cas, ready, mcount *)
    all: try (apply (C_frame s _ t C); simp_state; rewrite ?updf_same, ?Hst;
              [intros x; repeat split; first [reflexivity | apply updf_keep; reflexivity]
              | intros t' N; apply updf_other, N | reflexivity | first [reflexivity | exact R]]).
    (* PCas1 .. PCas2: the premises of guard_upd are read off the new state *)
    all: intros x; apply (guard_upd _ _ _ _ _ _ _ _ _ _ t (minit_cas x) (C x)); simp_state;
      rewrite ?updf_same, ?Hst, ?(top_at_false caspc x rest R), ?R'; cbn [top_at caspc at_minit andb];
      try (intros t' N; apply updf_other, N); try discriminate;
      try (unfold updf; destruct (Nat.eqb_spec x l) as [-> | N]; cbn; auto; fail).
  (* PMTest -> PMInit, g_init: E is [ready], just tested false *) intros X. apply Nat.eqb_eq in X. rewrite X. exact E.
Qed.

Definition InvD (s : state) : Prop :=
  forall t1 t2 l, holds_lib l (stacks s t1) = true -> holds_lib l (stacks s t2) = true -> t1 = t2.

Lemma holds_cons l f st : holds_lib l (f :: st) = (Nat.eqb (fst f) l && holding (snd f)) || holds_lib l st.
Proof. reflexivity. Qed.

Lemma mutex_free_spec s l t : InvA s -> mutex_free s l t = true ->
  forall t', holds_lib l (stacks s t') = true -> t' = t.
Proof.
  intros A F t' H. unfold mutex_free in F. rewrite forallb_forall in F.
  destruct (Nat.lt_ge_cases t' (nthr s)) as [L | L].
  - specialize (F t' ltac:(apply in_seq; lia)). rewrite H in F. cbn in F.
    rewrite orb_false_r in F. apply Nat.eqb_eq. exact F.
  - rewrite (a_idle s A t' L) in H. discriminate.
Qed.

(* a step of t: what t holds afterwards it held before, or it has just taken a free mutex *)
Lemma D_upd s s' t : InvA s -> InvD s ->
  (forall t', t' <> t -> stacks s' t' = stacks s t') ->
  (forall l, holds_lib l (stacks s' t) = true ->
             holds_lib l (stacks s t) = true \/ mutex_free s l t = true) -> InvD s'.
Proof.
  intros A D Eo Sub.
  assert (K : forall u l, holds_lib l (stacks s' u) = true ->
              holds_lib l (stacks s u) = true \/ u = t /\ mutex_free s l t = true).
  { intros u l H. destruct (Nat.eqb_spec u t) as [-> | N]; [|rewrite <- (Eo u N); auto].
    destruct (Sub l H); auto. }
  intros t1 t2 l H1 H2. destruct (K t1 l H1) as [G1 | (E1 & F1)], (K t2 l H2) as [G2 | (E2 & F2)].
  - exact (D t1 t2 l G1 G2).
  - rewrite E2. exact (mutex_free_spec s l t A F2 t1 G1).
  - rewrite E1. symmetry. exact (mutex_free_spec s l t A F1 t2 G2).
  - congruence.
Qed.

(* the top frame moves between two program points that are both inside or both outside the mutex: no thread starts
   or stops holding; stepD tries this first *)
Lemma D_replace s x t l p p' rest : InvA s -> InvD s -> stacks x = stacks s ->
  stacks s t = (l, p) :: rest -> holding p' = holding p -> InvD (set_stack x t ((l, p') :: rest)).
Proof.
  intros A D Ex Hst Hh. apply (D_upd s _ t A D); simp_state; rewrite Ex.
  - intros t' N. apply updf_other, N.
  - intros y. rewrite updf_same, Hst, !holds_cons. cbn [fst snd]. rewrite Hh. auto.
Qed.

Lemma stepD s tc : InvA s -> InvD s -> InvD (cstep s tc).
Proof.
  intros A D. destruct tc as [t c]. ustep. cbv beta iota zeta.
  destruct (t <? nthr s) eqn:Ht; cbn [negb]; [|exact D].
  (* D_replace by eapply, its premises as goals: given as arguments, eq_refl : stacks ?x = stacks s would be
     elaborated before the goal has fixed ?x *)
  destruct (stacks s t) as [| [l p] rest] eqn:Hst; [destruct c | destruct p; unfold enter_py; split_ifs];
    try exact D; try (eapply (D_replace s); [exact A | exact D | reflexivity | exact Hst | reflexivity]).
  all: apply (D_upd s _ t A D); simp_state; rewrite ?updf_same, ?Hst;
    [intros t' N; apply updf_other, N | intros x; rewrite ?holds_cons; cbn [fst snd holding]; rewrite ?andb_false_r, ?andb_true_r; cbn [orb]; intros H];
    try (left; exact H); try (left; rewrite H; apply orb_true_r).
  (* PLock, the only step that starts holding: E is mutex_free, just tested true *)
  destruct (Nat.eqb_spec l x) as [Ex | N]; [right; rewrite <- Ex; exact E | left; exact H].
Qed.
