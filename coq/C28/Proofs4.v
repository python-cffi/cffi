(* C28 — proofs: what follows from [Inv].  A failed initialization is final (fail_stable_step); no deadlock
   (no_deadlock_moves: with libraries that do not call into each other some thread [moves], i.e. changes its stack
   whatever choice it gets), and the schedule that deadlocks two libraries which do; [rank] and the relation [move]
   between a thread's stack before and after a step, from which Proofs5.v gets the weight and termination. *)
From Coq Require Import Arith List Bool Lia.
Import ListNotations.
From Cffi Require Import C28.Gen C28.Model C28.Proofs C28.Proofs2 C28.Proofs3.

Lemma run_step n sched tc : step (run n sched) tc = cstep (run n sched) tc.
Proof. apply step_cstep, run_cstep. Qed.

Lemma fail_facts s l : Inv s -> ist (libs s l) = DoneFail ->
  called (libs s l) = true /\ org (libs s l) = false /\ switched (libs s l) = false.
Proof.
  intros H F. pose proof (e_lib _ (iE _ H) l) as K. unfold lib_ok in K. cbv zeta in K. rewrite F in K. tauto.
Qed.

Lemma fail_stable_step s tc l : Inv s -> ist (libs s l) = DoneFail -> ist (libs (cstep s tc) l) = DoneFail.
Proof.
  intros H F. destruct (fail_facts s l H F) as (C & O & Sw). destruct tc as [t c].
  ustep. cbv beta iota zeta. destruct (t <? nthr s) eqn:Ht; cbn [negb]; [|exact F].
  destruct (stacks s t) as [| [l0 p] rest] eqn:Hst; [destruct c; exact F|].
  assert (NI : l0 = l -> initpc p = false).
  { intros ->. destruct (initpc p) eqn:Ip; [|reflexivity].
    pose proof (e_run _ (iE _ H) t l p ltac:(rewrite Hst; left; reflexivity) Ip). congruence. }
  assert (NM : l0 = l -> p <> PMark).
  { intros -> ->. pose proof (e_top _ (iE _ H) t l PMark rest Hst) as T. cbn in T. congruence. }
  destruct p; split_ifs; simp_state; split_ifs; simp_state; try exact F;
    unfold updf; destruct (Nat.eqb_spec l l0); subst; try exact F; cbn; try exact F;
    try (specialize (NI eq_refl); discriminate); try (exfalso; apply (NM eq_refl); reflexivity).
Qed.

Lemma fail_stable sched l : forall s, Inv s -> ist (libs s l) = DoneFail ->
  ist (libs (fold_left cstep sched s) l) = DoneFail.
Proof.
  induction sched as [| tc sched IH]; intros s I F; cbn [fold_left]; [exact F|].
  apply IH; [apply cstep_inv; exact I | apply fail_stable_step; assumption].
Qed.

Definition enabled (s : state) (t : nat) : Prop :=
  exists c, stacks (step s (t, c)) t <> stacks s t.

Definition moves (s : state) (t : nat) : Prop :=
  forall c, stacks (step s (t, c)) t <> stacks s t.

Lemma moves_enabled s t : moves s t -> enabled s t.
Proof. intros M. exists COk. apply M. Qed.

Lemma neq_cons {A} (x : A) l : l <> x :: l.
Proof. intros H. apply (f_equal (@length A)) in H. cbn in H. lia. Qed.
Lemma neq_cons2 {A} (x y : A) l : x :: y :: l <> y :: l.
Proof. intros H. apply (f_equal (@length A)) in H. cbn in H. lia. Qed.

Lemma unblocked_moves s t l p rest : InvA s -> gil s = None -> stacks s t = (l, p) :: rest ->
  (p = PSpin -> spin s = None) -> (p = PCas1 -> cas (libs s l) = None) ->
  (p = PLock -> mutex_free s l t = true) -> t < nthr s /\ moves s t.
Proof.
  intros A G Hst Hs Hc Hl.
  assert (Ht : (t <? nthr s) = true).
  { apply Nat.ltb_lt. destruct (Nat.lt_ge_cases t (nthr s)) as [L | L]; [exact L|].
    rewrite (a_idle s A t L) in Hst. discriminate. }
  split; [apply Nat.ltb_lt; exact Ht|].
  intros c. rewrite (step_cstep s _ G). ustep. cbv beta iota zeta. rewrite Ht, Hst. cbn [negb].
  destruct p; try rewrite (Hs eq_refl); try rewrite (Hc eq_refl); try rewrite (Hl eq_refl);
    split_ifs; simp_state; split_ifs; simp_state; rewrite ?updf_same;
    try (intros X; inversion X; fail); try apply neq_cons; try (intros X; symmetry in X; revert X; apply neq_cons).
Qed.

Definition single (s : state) (l0 : nat) : Prop := forall t f, In f (stacks s t) -> fst f = l0.

(* libraries that do not call into each other: every thread's nested calls stay in one library *)
Definition independent (s : state) : Prop :=
  forall t l p r f, stacks s t = (l, p) :: r -> In f r -> fst f = l.

Lemma single_independent s l0 : single s l0 -> independent s.
Proof.
  intros Sg t l p r f H I.
  rewrite (Sg t f ltac:(rewrite H; right; exact I)).
  symmetry. apply (Sg t (l, p)). rewrite H. left. reflexivity.
Qed.

Lemma mutex_free_false s l t : mutex_free s l t = false ->
  exists u, u < nthr s /\ u <> t /\ holds_lib l (stacks s u) = true.
Proof.
  unfold mutex_free. intros F.
  assert (G : exists u, In u (seq 0 (nthr s)) /\ (Nat.eqb u t || negb (holds_lib l (stacks s u))) = false).
  { induction (seq 0 (nthr s)) as [| u us IH]; [discriminate|]. cbn [forallb] in F.
    apply andb_false_iff in F. destruct F as [F | F].
    - exists u. split; [left; reflexivity | exact F].
    - destruct (IH F) as (v & I & Fv). exists v. split; [right; exact I | exact Fv]. }
  destruct G as (u & I & Fu). apply in_seq in I. apply orb_false_iff in Fu. destruct Fu as (N & Hd).
  exists u. repeat split; [lia | apply Nat.eqb_neq; exact N | apply negb_false_iff; exact Hd].
Qed.

(* as long as a call is in progress some thread moves: the holder of the slot; else, for a thread
   that does not wait for a mutex, the holder of the CAS cell it spins on or the thread itself; else
   the holder of the awaited mutex, whose innermost call is in that same library (independence), so
   that it does not wait for a mutex in turn *)
Theorem no_deadlock_moves s : Inv s -> gil s = None ->
  independent s -> (exists t, busy s t = true) -> exists t, t < nthr s /\ moves s t.
Proof.
  intros [A B C D E] GN Ind (t & Bt).
  destruct (spin s) as [u|] eqn:Sp.
  { pose proof (g_holder _ _ _ _ _ _ B u Sp) as T. destruct (stacks s u) as [| [l p] rest] eqn:Hu; [discriminate|].
    cbn in T. exists u. apply (unblocked_moves s u l p rest A GN Hu); intros ->; discriminate. }
  (* the slot is free.  A thread whose innermost call is not waiting for a mutex can move, unless
     it waits for a CAS cell, whose holder can move *)
  assert (Free : forall u l p rest, stacks s u = (l, p) :: rest ->
                 (p = PLock -> mutex_free s l u = true) -> exists v, v < nthr s /\ moves s v).
  { intros u l p rest Hu Hl. destruct (cas (libs s l)) as [v|] eqn:Cs.
    - pose proof (g_holder _ _ _ _ _ _ (C l) v Cs) as Cq.
      destruct (stacks s v) as [| [l' q] r] eqn:Hv; [discriminate|].
      apply andb_prop in Cq. destruct Cq as (Cq & El). apply Nat.eqb_eq in El. subst l'. exists v.
      apply (unblocked_moves s v l q r A GN Hv); intros ->; discriminate.
    - exists u. apply (unblocked_moves s u l p rest A GN Hu); auto. }
  unfold busy in Bt. destruct (stacks s t) as [| [l p] rest] eqn:Ht; [discriminate|].
  destruct (mutex_free s l t) eqn:F.
  { apply (Free t l p rest Ht). auto. }
  destruct (mutex_free_false s l t F) as (u & Lu & Nu & Hu).
  destruct (stacks s u) as [| [l' q] rest'] eqn:Su; [discriminate|].
  assert (El : l' = l).
  { unfold holds_lib in Hu. apply existsb_exists in Hu. destruct Hu as (f & I & Hf).
    apply andb_true_iff in Hf. destruct Hf as (Hf & _). apply Nat.eqb_eq in Hf.
    destruct I as [<- | I]; [exact Hf|]. rewrite <- (Ind u l' q rest' f Su I). exact Hf. }
  subst l'. apply (Free u l q rest' Su). intros _.
  destruct (mutex_free s l u) eqn:Fu; [reflexivity|]. exfalso.
  destruct (mutex_free_false s l u Fu) as (v & _ & Nv & Hv).
  apply Nv. apply (D v u l); [exact Hv | rewrite Su; exact Hu].
Qed.

(* two libraries whose init codes call into each other: a schedule after which both threads wait
   for each other's mutex for ever.  Thread 0 initializes library 0 and, from its init code, calls
   library 1; thread 1 initializes library 1 and calls library 0. *)
Definition go (t k : nat) : list (nat * choice) := repeat (t, COk) k.
Definition deadlock_schedule : list (nat * choice) :=
  (0, CCall 0) :: go 0 13 ++      (* thread 0: up to the init code of library 0 (initializes Python) *)
  (1, CCall 1) :: go 1 12 ++      (* thread 1: up to the init code of library 1 *)
  (0, CCall 1) :: go 0 7 ++       (* init code of library 0 calls library 1: blocks on its mutex *)
  (1, CCall 0) :: go 1 7.         (* init code of library 1 calls library 0: blocks on its mutex *)

(* Termination up to fairness.  Every step of a thread that changes its stack either starts a nested
   call (a decision of the user's init code / extern function, or of an idle thread), or returns from
   the innermost call, or moves the innermost call to a program point of strictly smaller rank; the
   stacks of the other threads are untouched (cstep_other).  A call therefore needs at most
   rank PCall = 18 own effective steps plus the steps of the nested calls its user code makes. *)
Definition rank (p : pc) : nat :=
  match p with
  | PCall => 18 | PSpin => 17 | PGilTest => 16 | PGilInit => 15 | PGilRelease => 14 | PCas1 => 13
  | PMTest => 12 | PMInit => 11 | PCas2 => 10 | PLock => 9 | PChk => 8 | PMark => 7 | PInitStart => 6
  | PInitRun => 5 | PInitOk => 4 | PInitFail => 4 | PRel => 3 | PRet => 2 | PInPy => 1
  end.

Inductive effect (old new : list frame) : Prop :=
| EffNone : new = old -> effect old new
| EffPush : forall l', new = (l', PCall) :: old -> (old = [] \/ exists l p r, old = (l, p) :: r /\ midpc p = true) ->
            effect old new
| EffPop : forall f, old = f :: new -> effect old new
| EffDown : forall l p p' r, old = (l, p) :: r -> new = (l, p') :: r -> rank p' < rank p -> effect old new.

(* the same with the choice: only CCall starts a call *)
Inductive move (c : choice) (old new : list frame) : Prop :=
| MvNone : new = old -> move c old new
| MvPush : forall l', c = CCall l' -> new = (l', PCall) :: old ->
           (old = [] \/ exists l p r, old = (l, p) :: r /\ midpc p = true) -> move c old new
| MvPop : forall f, old = f :: new -> move c old new
| MvDown : forall l p p' r, old = (l, p) :: r -> new = (l, p') :: r -> rank p' < rank p -> move c old new.

Lemma move_effect c old new : move c old new -> effect old new.
Proof.
  intros [E | l' _ E M | f E | l p p' r E1 E2 L];
    [apply EffNone | eapply EffPush | eapply EffPop | eapply EffDown]; eassumption.
Qed.

Lemma cstep_move s t c : move c (stacks s t) (stacks (cstep s (t, c)) t).
Proof.
  ustep. destruct (t <? nthr s) eqn:Ht; cbn [negb]; [|apply MvNone; reflexivity].
  destruct (stacks s t) as [| [l p] rest] eqn:Hst.
  - destruct c; simp_state; rewrite ?updf_same, ?Hst;
      [eapply MvPush; [reflexivity | reflexivity | left; reflexivity] | apply MvNone; reflexivity | apply MvNone; reflexivity].
  - destruct p; split_ifs; simp_state; split_ifs; simp_state; rewrite ?updf_same, ?Hst;
      try (apply MvNone; reflexivity);
      try (eapply MvDown; [reflexivity | reflexivity | cbn; lia]);
      try (eapply MvPop; reflexivity);
      try (eapply MvPush; [reflexivity | reflexivity | right; eauto 6]).
Qed.

Lemma step_move s t c : move c (stacks s t) (stacks (step s (t, c)) t).
Proof. destruct (step_cases s (t, c)) as [-> | ->]; [apply MvNone; reflexivity | apply cstep_move]. Qed.

(* the program points of a call that reaches neither the init code nor the extern function
   (statement vocabulary of C28_failed_call_progress) *)
Definition plainpc (p : pc) : bool :=
  match p with PMark | PInitStart | PInitRun | PInitOk | PInitFail | PInPy => false | _ => true end.

