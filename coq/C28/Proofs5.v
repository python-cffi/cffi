(* C28 — proofs: the bound.  [weight s] = the sum, over the threads and the frames of their stacks, of [rank] of
   the frame's program point.  A step that starts no nested call (COk / CFail) leaves the WHOLE state unchanged
   (stutter) or strictly decreases the weight (by [move], Proofs4.v); a frame weighs at most 18 (frank_bound).  With
   libraries that do not call into each other (in particular: one library) a round in which each thread is
   scheduled at least once contains an effective step as long as a call is in progress (no_deadlock_moves), so
   after [weight s] such rounds every call has returned (independent_terminates). *)
From Coq Require Import Arith List Bool Lia.
Import ListNotations.
From Cffi Require Import C28.Gen C28.Model C28.Proofs C28.Proofs2 C28.Proofs3 C28.Proofs4.

Definition sumf (g : nat -> nat) (n : nat) : nat := list_sum (map g (seq 0 n)).

Lemma sumf_S g n : sumf g (S n) = sumf g n + g n.
Proof. unfold sumf. rewrite seq_S, map_app, list_sum_app. cbn. lia. Qed.

Lemma sumf_upd g g' n t : (forall u, u <> t -> g' u = g u) ->
  sumf g' n + (if t <? n then g t else 0) = sumf g n + (if t <? n then g' t else 0).
Proof.
  intros Eq. induction n as [| n IH]; [reflexivity|]. rewrite !sumf_S.
  destruct (Nat.ltb_spec t n), (Nat.ltb_spec t (S n)); try lia.
  - rewrite (Eq n) by lia. lia.
  - assert (t = n) as -> by lia. lia.
  - rewrite (Eq n) by lia. lia.
Qed.

Lemma sumf_zero g n : sumf g n = 0 -> forall u, u < n -> g u = 0.
Proof.
  induction n as [| n IH]; intros H u L; [lia|]. rewrite sumf_S in H.
  destruct (Nat.eq_dec u n) as [-> | N]; [lia | apply IH; lia].
Qed.

Lemma sumf_pos g n : 0 < sumf g n -> exists u, u < n /\ 0 < g u.
Proof.
  induction n as [| n IH]; intros H; [cbn in H; lia|]. rewrite sumf_S in H.
  destruct (g n) eqn:E.
  - destruct IH as (u & L & P); [lia|]. exists u. split; [lia | assumption].
  - exists n. split; lia.
Qed.

Definition frank (st : list frame) : nat := list_sum (map (fun f => rank (snd f)) st).
Definition weight (s : state) : nat := sumf (fun t => frank (stacks s t)) (nthr s).
Definition total_frames (s : state) : nat := sumf (fun t => length (stacks s t)) (nthr s).

Definition is_call (c : choice) : bool := match c with CCall _ => true | _ => false end.
Definition nocall (seg : list (nat * choice)) : Prop := Forall (fun tc => is_call (snd tc) = false) seg.
Definition round (n : nat) (seg : list (nat * choice)) : Prop := forall t, t < n -> exists c, In (t, c) seg.

Lemma rank_pos p : 1 <= rank p.
Proof. destruct p; cbn; lia. Qed.
Lemma rank_max p : rank p <= 18.
Proof. destruct p; cbn; lia. Qed.

Lemma frank_cons f st : frank (f :: st) = rank (snd f) + frank st.
Proof. reflexivity. Qed.

Lemma frank_bound st : frank st <= 18 * length st.
Proof.
  induction st as [| f st IH]; [cbn; lia|]. rewrite frank_cons. cbn [length].
  pose proof (rank_max (snd f)). lia.
Qed.

Lemma frank_zero st : frank st = 0 -> st = [].
Proof. destruct st as [| f st]; [reflexivity|]. rewrite frank_cons. pose proof (rank_pos (snd f)). lia. Qed.

Lemma cstutter s t c : stacks (cstep s (t, c)) t = stacks s t -> cstep s (t, c) = s.
Proof.
  ustep. destruct (t <? nthr s) eqn:Ht; cbn [negb]; [|reflexivity].
  destruct (stacks s t) as [| [l p] rest] eqn:Hst.
  - destruct c; simp_state; rewrite ?updf_same; intros H; try reflexivity; discriminate H.
  - (* every program point: a step that writes anything also changes the top frame or the depth *)
    destruct p; split_ifs; simp_state; split_ifs; simp_state; rewrite ?updf_same; intros H;
      try reflexivity; try (inversion H; fail);
      try (exfalso; symmetry in H; revert H; apply neq_cons);
      try (exfalso; revert H; apply neq_cons; fail);
      try (exfalso; revert H; apply neq_cons2).
Qed.

Theorem stutter s t c : stacks (step s (t, c)) t = stacks s t -> step s (t, c) = s.
Proof.
  destruct (step_cases s (t, c)) as [E | E]; rewrite E; [reflexivity | apply cstutter].
Qed.

Lemma step_nthr s tc : nthr (step s tc) = nthr s.
Proof. destruct (step_cases s tc) as [E | E]; rewrite E; [reflexivity | apply cstep_nthr]. Qed.

Lemma step_other s t c t' : t' <> t -> stacks (step s (t, c)) t' = stacks s t'.
Proof. intros N. destruct (step_cases s (t, c)) as [E | E]; rewrite E; [reflexivity | apply cstep_other, N]. Qed.

Lemma step_in_range s t c : stacks (step s (t, c)) t <> stacks s t -> t < nthr s.
Proof.
  intros H. destruct (Nat.lt_ge_cases t (nthr s)) as [L | L]; [exact L|]. exfalso. apply H.
  destruct (step_cases s (t, c)) as [E | E]; rewrite E; [reflexivity|].
  ustep. assert (X : (t <? nthr s) = false) by (apply Nat.ltb_ge; exact L). rewrite X. reflexivity.
Qed.

Lemma move_le c old new : is_call c = false -> move c old new -> frank new <= frank old.
Proof.
  intros Hc [-> | l' -> | f -> | l p p' r -> -> L]; rewrite ?frank_cons; cbn [snd]; try discriminate; lia.
Qed.

Lemma move_lt c old new : is_call c = false -> move c old new -> new <> old -> frank new < frank old.
Proof.
  intros Hc [-> | l' -> | f -> | l p p' r -> -> L] N; rewrite ?frank_cons; cbn [snd]; try discriminate; try lia.
  - contradiction.
  - pose proof (rank_pos (snd f)). lia.
Qed.

(* a step of t changes the weight by what it changes of the rank of t's stack *)
Lemma weight_step s t c :
  weight (step s (t, c)) + (if t <? nthr s then frank (stacks s t) else 0)
  = weight s + (if t <? nthr s then frank (stacks (step s (t, c)) t) else 0).
Proof.
  unfold weight. rewrite step_nthr.
  apply (sumf_upd (fun u => frank (stacks s u)) (fun u => frank (stacks (step s (t, c)) u)) (nthr s) t).
  intros u Hu. rewrite step_other by exact Hu. reflexivity.
Qed.

Theorem weight_decreases s t c : is_call c = false ->
  stacks (step s (t, c)) t <> stacks s t -> weight (step s (t, c)) < weight s.
Proof.
  intros Hc N. pose proof (weight_step s t c) as W. rewrite (proj2 (Nat.ltb_lt _ _) (step_in_range s t c N)) in W.
  pose proof (move_lt c _ _ Hc (step_move s t c) N). lia.
Qed.

Lemma weight_step_le s tc : is_call (snd tc) = false -> weight (step s tc) <= weight s.
Proof.
  destruct tc as [t c]. cbn [snd]. intros Hc. pose proof (weight_step s t c) as W.
  pose proof (move_le c _ _ Hc (step_move s t c)). destruct (t <? nthr s); lia.
Qed.

Lemma weight_seg_le seg : forall s, nocall seg -> weight (fold_left step seg s) <= weight s.
Proof.
  induction seg as [| tc seg IH]; intros s H; cbn [fold_left]; [lia|]. inversion H; subst.
  etransitivity; [apply IH; assumption | apply weight_step_le; assumption].
Qed.

Definition frame_eq_dec : forall a b : frame, {a = b} + {a <> b}.
Proof. repeat decide equality. Defined.
Definition stack_eq_dec : forall a b : list frame, {a = b} + {a <> b} := list_eq_dec frame_eq_dec.

(* the step changes the stepping thread's stack (equivalently, by [stutter], the state) *)
Definition effective (s : state) (tc : nat * choice) : bool :=
  if stack_eq_dec (stacks (step s tc) (fst tc)) (stacks s (fst tc)) then false else true.

Fixpoint eff_count (s : state) (seg : list (nat * choice)) : nat :=
  match seg with
  | [] => 0
  | tc :: seg' => (if effective s tc then 1 else 0) + eff_count (step s tc) seg'
  end.

Lemma independent_step s t c : is_call c = false -> independent s -> independent (step s (t, c)).
Proof.
  intros Hc Ind t' l p r f H I. destruct (Nat.eq_dec t' t) as [-> | N];
    [| rewrite step_other in H by exact N; eapply Ind; eassumption].
  destruct (step_move s t c) as [E | l' -> | f0 E | l1 p1 p' r1 E1 E2 L]; [|discriminate Hc|..].
  - rewrite E in H. eapply Ind; eassumption.
  - rewrite H in E. destruct f0 as [l0 p0].
    rewrite (Ind t l0 p0 ((l, p) :: r) f E ltac:(right; exact I)).
    symmetry. apply (Ind t l0 p0 ((l, p) :: r) (l, p) E). left. reflexivity.
  - rewrite E2 in H. inversion H; subst. eapply Ind; eassumption.
Qed.

Lemma single_step s t c l0 : is_call c = false -> single s l0 -> single (step s (t, c)) l0.
Proof.
  intros Hc Sg t' f I. destruct (Nat.eq_dec t' t) as [-> | N];
    [| rewrite step_other in I by exact N; eapply Sg; eassumption].
  destruct (step_move s t c) as [E | l' -> | f0 E | l1 p1 p' r1 E1 E2 L]; [|discriminate Hc|..].
  - rewrite E in I. eapply Sg; eassumption.
  - apply (Sg t f). rewrite E. right. exact I.
  - rewrite E2 in I. destruct I as [<- | I].
    + apply (Sg t (l1, p1)). rewrite E1. left. reflexivity.
    + apply (Sg t f). rewrite E1. right. exact I.
Qed.

Lemma independent_seg seg : forall s, nocall seg -> independent s -> independent (fold_left step seg s).
Proof.
  induction seg as [| [t c] seg IH]; intros s H Ind; cbn [fold_left]; [exact Ind|]. inversion H; subst.
  apply IH; [assumption | apply independent_step; assumption].
Qed.

Lemma nthr_seg seg : forall s, nthr (fold_left step seg s) = nthr s.
Proof. induction seg as [| tc seg IH]; intros s; cbn [fold_left]; [reflexivity|]. rewrite IH. apply step_nthr. Qed.

Lemma nthr_run n sched : nthr (run n sched) = n.
Proof. unfold run. rewrite nthr_seg. reflexivity. Qed.

(* a thread that moves whatever choice it is given is scheduled somewhere in the
   segment: the segment loses weight (if nobody moved before it, the state is still s when its
   turn comes) *)
Lemma seg_progress t : forall seg s, nocall seg -> (exists c, In (t, c) seg) -> moves s t ->
  weight (fold_left step seg s) < weight s.
Proof.
  induction seg as [| [u c] seg IH]; intros s H (c0 & I) En; [contradiction|]. cbn [fold_left].
  inversion H as [| x y Hc Hrest]; subst. cbn [snd] in Hc.
  destruct (stack_eq_dec (stacks (step s (u, c)) u) (stacks s u)) as [E | N].
  - rewrite (stutter s u c E). destruct I as [I | I].
    + inversion I; subst. exfalso. apply (En c0). exact E.
    + apply IH; [assumption | eauto | assumption].
  - pose proof (weight_decreases s u c Hc N). pose proof (weight_seg_le seg (step s (u, c)) Hrest). lia.
Qed.

Lemma weight_zero_idle s : InvA s -> weight s = 0 -> forall t, busy s t = false.
Proof.
  intros A W t. unfold busy. destruct (Nat.lt_ge_cases t (nthr s)) as [L | L].
  - rewrite (frank_zero _ (sumf_zero _ _ W t L)). reflexivity.
  - rewrite (a_idle s A t L). reflexivity.
Qed.

Lemma weight_pos_busy s : 0 < weight s -> exists t, busy s t = true.
Proof.
  intros W. destruct (sumf_pos _ _ W) as (t & L & P). exists t. unfold busy.
  destruct (stacks s t); [cbn in P; lia | reflexivity].
Qed.

Lemma inv_seg seg s : Inv s -> gil s = None -> Inv (fold_left step seg s) /\ gil (fold_left step seg s) = None.
Proof. intros I G. destruct (sched_cstep seg s G) as [E G']. split; [rewrite E; apply run_inv_from, I | exact G']. Qed.

(* every call terminates, with a bound: libraries that do not call into each other, any state s of the
   invariant in which nobody keeps the GIL (every reachable state: run_inv, run_cstep); the scheduler then
   runs [rounds], in each of which every thread is scheduled at least once and nobody starts a further call
   (the init codes and extern functions that are running return: COk / CFail).  After
   weight s <= 18 * total_frames s rounds no call is in progress any more. *)
Theorem independent_terminates rounds : forall s, Inv s -> gil s = None ->
  independent s ->
  (forall seg, In seg rounds -> round (nthr s) seg /\ nocall seg) ->
  weight s <= length rounds ->
  forall t, busy (fold_left step (concat rounds) s) t = false.
Proof.
  induction rounds as [| seg rounds IH]; intros s I G Ind R W t.
  - cbn [concat fold_left]. apply weight_zero_idle; [apply (iA _ I) | cbn in W; lia].
  - cbn [concat]. rewrite fold_left_app.
    destruct (R seg ltac:(left; reflexivity)) as (Rd & Nc). destruct (inv_seg seg s I G) as [I' G'].
    apply IH; [exact I' | exact G' | apply independent_seg; assumption | |].
    + rewrite nthr_seg. intros seg' X. apply R. right. exact X.
    + cbn [length] in W. destruct (Nat.eq_dec (weight s) 0) as [Z | NZ].
      * pose proof (weight_seg_le seg s Nc). lia.
      * destruct (no_deadlock_moves s I G Ind (weight_pos_busy s ltac:(lia))) as (u & Lu & En).
        pose proof (seg_progress u seg s Nc (Rd u Lu) En). lia.
Qed.

(* the rounds of the examples of C28/Props.v: thread 1, whose init code fails, then thread 0 *)
Lemma alternate_rounds k seg : In seg (repeat [(1, CFail); (0, COk)] k) -> round 2 seg /\ nocall seg.
Proof.
  intros I. apply repeat_spec in I. subst seg. split.
  - intros t Ht. destruct t as [| [| t]]; [exists COk; right; left; reflexivity | exists CFail; left; reflexivity |].
    exfalso. apply Nat.succ_lt_mono, Nat.succ_lt_mono in Ht. inversion Ht.
  - repeat constructor.
Qed.
