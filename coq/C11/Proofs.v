(* C11 — the emitters of the out-of-line module (recompiler.py; here encode_struct, encode_field, ...) and the
   readers of ffiobj_init (C11/Model.v: cdl_4bytes, decode_struct, ...) are inverse to each other: four bytes are
   the base-256 digits of a 32-bit word, a record is words followed by a NUL-terminated name. *)
From Coq Require Import Ascii String ZArith NArith List Bool Lia.
Import ListNotations.
From Cffi Require Import Base.Wrap Base.Bits C11.Model C11.Gen.
Open Scope Z_scope.

Lemma land_shiftl_small : forall a b n, 0 <= n -> 0 <= b < 2 ^ n -> Z.land (Z.shiftl a n) b = 0.
Proof. exact Bits.land_shiftl_small. Qed.

Lemma lor_shiftl_add : forall a b n, 0 <= n -> 0 <= b < 2 ^ n -> Z.lor (Z.shiftl a n) b = a * 2 ^ n + b.
Proof. exact Bits.lor_shiftl_add. Qed.

Lemma lor_shiftl8 : forall a b, 0 <= b < 256 -> Z.lor (Z.shiftl a 8) b = a * 256 + b.
Proof. intros a b Hb. now rewrite (lor_shiftl_add a b 8). Qed.

Lemma land_255 : forall x, Z.land x 255 = x mod 256.
Proof. intros. change 255 with (Z.ones 8). rewrite Z.land_ones by lia. reflexivity. Qed.

Lemma cdl_arith : forall a b1 b2 b3, 0 <= b1 < 256 -> 0 <= b2 < 256 -> 0 <= b3 < 256 ->
  Z.lor (Z.lor (Z.lor (Z.shiftl a 24) (Z.shiftl b1 16)) (Z.shiftl b2 8)) b3
  = ((a * 256 + b1) * 256 + b2) * 256 + b3.
Proof.
  intros a b1 b2 b3 H1 H2 H3.
  change 24 with (8 + 8 + 8). change 16 with (8 + 8). rewrite <- !Z.shiftl_shiftl by lia.
  now rewrite <- !Z.shiftl_lor, !lor_shiftl8.
Qed.

Lemma ffb_arith : forall num,
  format_four_bytes num = [(num / 2 ^ 24) mod 256; (num / 2 ^ 16) mod 256; (num / 2 ^ 8) mod 256; num mod 256].
Proof.
  intros. unfold format_four_bytes. rewrite !land_255, !Z.shiftr_div_pow2 by lia. reflexivity.
Qed.

Lemma wrap_signed_wrap : forall bits x, 0 < bits -> wrap_signed bits x = wrap true bits x.
Proof. intros bits x Hb. symmetry. apply wrap_signed_leb, Hb. Qed.

(* (signed char) of the top byte is the 8-bit case *)
Lemma sext8_mod : forall q, -128 <= q < 128 -> sext8 (q mod 256) = q.
Proof.
  intros q H. change (sext8 (q mod 256)) with (wrap_signed 8 q).
  rewrite wrap_signed_wrap by reflexivity. exact (wrap_id true 8 q eq_refl H).
Qed.

(* the bytes are the base-256 digits of num, the top one taken as a signed char *)
Lemma cdl_ffb : forall num, - 2 ^ 31 <= num < 2 ^ 31 -> cdl_4bytes (format_four_bytes num) = num.
Proof.
  intros num Hr. rewrite ffb_arith. unfold cdl_4bytes.
  rewrite cdl_arith by (apply Z.mod_pos_bound; lia).
  change (2 ^ 24) with (256 * 256 * 256). change (2 ^ 16) with (256 * 256). change (2 ^ 8) with 256.
  rewrite <- !Z.div_div by lia. change (2 ^ 31) with (128 * 256 * 256 * 256) in Hr.
  pose proof (Z.div_mod num 256). pose proof (Z.div_mod (num / 256) 256).
  pose proof (Z.div_mod (num / 256 / 256) 256).
  pose proof (Z.mod_pos_bound num 256). pose proof (Z.mod_pos_bound (num / 256) 256).
  pose proof (Z.mod_pos_bound (num / 256 / 256) 256).
  rewrite sext8_mod; lia.
Qed.

Lemma pack_arith : forall op arg, 0 <= op < 256 -> gen_pack arg op = arg * 256 + op.
Proof. intros. unfold gen_pack. now apply lor_shiftl8. Qed.

(* what the C side holds for an entry: the opcode word, or the raw array length *)
Definition raw_of (o : cffiop) : Z :=
  match o with Op op arg => arg * 256 + op | OpLen n => n | OpExpr => 0 end.

Lemma raw_splits : forall op arg, 0 <= op < 256 -> getop (raw_of (Op op arg)) = op /\ getarg (raw_of (Op op arg)) = arg.
Proof.
  intros op arg Hop. cbn [raw_of]. unfold getop, getarg. rewrite land_255, Z.shiftr_div_pow2 by lia. change (2 ^ 8) with 256.
  split.
  - now rewrite Z.add_comm, Z.mod_add, Z.mod_small by lia.
  - rewrite Z.div_add_l, Z.div_small by lia. apply Z.add_0_r.
Qed.

(* stated over four variables: with format_four_bytes n in their place, reflexivity would first compute its
   shifts and masks *)
Lemma cdl_4bytes_app : forall a b c d rest, cdl_4bytes ([a; b; c; d] ++ rest) = cdl_4bytes [a; b; c; d].
Proof. reflexivity. Qed.

Lemma cdl_prefix : forall n rest, cdl_4bytes (format_four_bytes n ++ rest) = cdl_4bytes (format_four_bytes n).
Proof. intros. apply cdl_4bytes_app. Qed.

Lemma decode_op_pack : forall op arg rest, 0 <= op < 256 -> - 2 ^ 23 <= arg < 2 ^ 23 ->
  decode_op (format_four_bytes (gen_pack arg op) ++ rest) = (op, arg).
Proof.
  intros op arg rest Hop Harg. unfold decode_op. rewrite cdl_prefix, pack_arith, cdl_ffb by assumption || lia.
  destruct (raw_splits op arg Hop) as [H1 H2]. cbn [raw_of] in *. now rewrite H1, H2.
Qed.

Definition nulfree (s : list Z) : Prop := Forall (fun c => c <> 0) s.

Lemma cstring_app : forall name rest, nulfree name -> cstring (name ++ 0 :: rest) = name.
Proof.
  induction name as [|c name IH]; intros rest H; cbn; [reflexivity|].
  inversion H; subst. destruct (Z.eqb_spec c 0); [contradiction|]. f_equal. apply IH. assumption.
Qed.

Lemma after_cstring_app : forall name rest, nulfree name -> after_cstring (name ++ 0 :: rest) = rest.
Proof.
  induction name as [|c name IH]; intros rest H; cbn; [reflexivity|].
  inversion H; subst. destruct (Z.eqb_spec c 0); [contradiction|]. apply IH. assumption.
Qed.

Lemma ffb_length : forall n, length (format_four_bytes n) = 4%nat.
Proof. reflexivity. Qed.

Lemma skipn_ffb : forall n rest, skipn 4 (format_four_bytes n ++ rest) = rest.
Proof. reflexivity. Qed.

Lemma skipn_ffb2 : forall n m rest, skipn 8 (format_four_bytes n ++ format_four_bytes m ++ rest) = rest.
Proof. reflexivity. Qed.

Lemma cdl_word : forall n rest, - 2 ^ 31 <= n < 2 ^ 31 -> cdl_4bytes (format_four_bytes n ++ rest) = n.
Proof. intros. rewrite cdl_prefix. now apply cdl_ffb. Qed.

(* b'<type_index><flags><name>'  (StructUnionExpr.as_python_expr, item 0) *)
Definition encode_struct (type_index flags : Z) (name : list Z) : list Z :=
  format_four_bytes type_index ++ format_four_bytes flags ++ name.

(* b'<type_op><name>' for OP_NOOP fields, b'<type_op><bitsize><name>' for the others, i.e. OP_BITFIELD
   (FieldExpr.as_field_python_expr) *)
Definition encode_field (op_noop op arg : Z) (bitsize : Z) (name : list Z) : list Z :=
  format_four_bytes (gen_pack arg op) ++ (if op =? op_noop then [] else format_four_bytes bitsize) ++ name.

(* b'<type_index><prim_index><name>\x00<enumerators>'  (EnumExpr.as_python_expr) *)
Definition encode_enum (type_index prim : Z) (name enumerators : list Z) : list Z :=
  format_four_bytes type_index ++ format_four_bytes prim ++ name ++ [0] ++ enumerators.

(* b'<type_index><name>' (TypenameExpr), b'<type_op><name>' (GlobalExpr) *)
Definition encode_typename (type_index : Z) (name : list Z) : list Z := format_four_bytes type_index ++ name.
Definition encode_global (op arg : Z) (name : list Z) : list Z := format_four_bytes (gen_pack arg op) ++ name.

Lemma typename_roundtrip : forall ti name, 0 <= ti < 2 ^ 31 -> nulfree name ->
  decode_typename (as_c (encode_typename ti name)) = (ti, name).
Proof.
  intros ti name H Hn. unfold decode_typename, as_c, encode_typename. rewrite <- !app_assoc.
  now rewrite skipn_ffb, cdl_word, cstring_app by assumption || lia.
Qed.

Lemma global_roundtrip : forall op arg name, 0 <= op < 256 -> - 2 ^ 23 <= arg < 2 ^ 23 -> nulfree name ->
  decode_global (as_c (encode_global op arg name)) = ((op, arg), name).
Proof.
  intros op arg name Hop Harg Hn. unfold decode_global, as_c, encode_global. rewrite <- !app_assoc.
  now rewrite skipn_ffb, decode_op_pack, cstring_app.
Qed.

(* with the sign and value REGENERATED from ffiobj_init (C11/Gen.v): an edit of the `neg` or `value`
   computation in cdlopen.c changes gen_intconst_* and this proof no longer goes through *)
Lemma decode_int_is_gen : forall lb o,
  realize_global_int lb (gen_intconst_neg o) (gen_intconst_value o) = decode_int lb o.
Proof. reflexivity. Qed.

(* _types = ''.join(op.as_python_bytes() for op in cffi_types)   (recompiler.write_py_source_to_f) *)
Fixpoint encode_types (ops : list cffiop) : result (list Z) :=
  match ops with
  | [] => Ok []
  | o :: ops' =>
      match as_python_bytes o with
      | Err e => Err e
      | Ok b => match encode_types ops' with Ok r => Ok (b ++ r) | Err e => Err e end
      end
  end.

(* ffiobj_init: n = types_len / 4;  for (i = 0; i < n; i++) { ntypes[i] = cdl_opcode(types); types += 4; } *)
Fixpoint decode_types_n (n : nat) (bs : list Z) : list Z :=
  match n with O => [] | S k => cdl_4bytes bs :: decode_types_n k (skipn 4 bs) end.
Definition decode_types (bs : list Z) : list Z := decode_types_n (Nat.div (List.length bs) 4) bs.

Definition encodable (o : cffiop) : Prop :=
  match o with
  | Op op arg => 0 <= op < 256 /\ - 2 ^ 23 <= arg < 2 ^ 23
  | OpLen n => 0 <= n < 2 ^ 31
  | OpExpr => False
  end.

Lemma encode_one : forall o, encodable o ->
  as_python_bytes o = Ok (format_four_bytes (raw_of o)) /\ - 2 ^ 31 <= raw_of o < 2 ^ 31.
Proof.
  intros [n| |op arg] H; cbn [encodable raw_of] in *; [|contradiction|].
  - unfold as_python_bytes, gen_len_overflow. destruct (Z.geb_spec n (2 ^ 31)); [lia|]. split; [reflexivity|lia].
  - destruct H as [Hop Harg]. cbn [as_python_bytes]. rewrite pack_arith by assumption. split; [reflexivity|].
    change (2 ^ 23) with 8388608 in Harg. change (2 ^ 31) with 2147483648. lia.
Qed.

Lemma map_roundtrip : forall (A B C : Type) (enc : A -> C) (dec : C -> B) (spec : A -> B) (ok : A -> Prop),
  (forall a, ok a -> dec (enc a) = spec a) ->
  forall l, Forall ok l -> map dec (map enc l) = map spec l.
Proof. intros A B C enc dec spec ok H l Hl. rewrite map_map. apply map_ext_Forall. revert Hl. apply Forall_impl, H. Qed.

(* _globals = (b'<type_op><name>', int, ...): the records, as a list *)
Definition global_ok (g : Z * Z * list Z) : Prop :=
  let '(op, arg, name) := g in 0 <= op < 256 /\ - 2 ^ 23 <= arg < 2 ^ 23 /\ nulfree name.

Lemma globals_table_roundtrip : forall gs, Forall global_ok gs ->
  map (fun b => decode_global (as_c b)) (map (fun g => let '(op, arg, name) := g in encode_global op arg name) gs)
  = map (fun g => let '(op, arg, name) := g in ((op, arg), name)) gs.
Proof.
  apply map_roundtrip. intros [[op arg] name] (Hop & Harg & Hn). now apply global_roundtrip.
Qed.

(* _struct_unions = ((b'<type_index><flags><name>', b'<field>', ...), ...) *)
Definition field_ok (f : Z * Z * Z * list Z) : Prop :=
  let '(op, arg, bitsize, name) := f in
  0 <= op < 256 /\ - 2 ^ 23 <= arg < 2 ^ 23 /\ 0 <= bitsize < 2 ^ 31 /\ nulfree name.
Definition struct_ok (s : Z * Z * list Z * list (Z * Z * Z * list Z)) : Prop :=
  let '(ti, flags, name, fields) := s in
  0 <= ti < 2 ^ 31 /\ 0 <= flags < 2 ^ 31 /\ nulfree name /\ Forall field_ok fields.

Definition encode_struct_entry (op_noop : Z) (s : Z * Z * list Z * list (Z * Z * Z * list Z)) : list (list Z) :=
  let '(ti, flags, name, fields) := s in
  encode_struct ti flags name
  :: map (fun f => let '(op, arg, bitsize, fname) := f in encode_field op_noop op arg bitsize fname) fields.

(* ffiobj_init on one item of _struct_unions: the struct record, then its field records *)
Definition decode_struct_entry (op_noop : Z) (e : list (list Z)) :=
  match e with
  | [] => None
  | head :: fields => Some (decode_struct (as_c head), map (fun f => decode_field op_noop (as_c f)) fields)
  end.

