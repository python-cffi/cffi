(* C11 x C25 — the out-of-line module EXPOSES the declared names: lookup by the (regenerated) binary search of
   parse_c_type.c in the decoded `_globals` / `_typenames` tables of an emitted module returns the emitted record.

     recompiler.collect_step_tables:  lst.sort(key=lambda entry: entry.name)         (sort_records)
     write_py_source_to_f:            b'<type_op><name>' per entry                     (encode_global, C11/Proofs.v)
     ffiobj_init:                     nglobs[i].type_op = cdl_opcode(g); .name = g+4   (decode_global, C11/Model.v)
     search_in_globals:               MAKE_SEARCH_FUNC(globals)                        (C25.Gen.gen_search_in, regenerated)

   Names are byte strings: C11 holds them as list Z, C25 as list N (nkey is the bridge). *)
From Coq Require Import ZArith NArith List Bool Lia Permutation.
Import ListNotations.
From Cffi Require Import C11.Model C11.Gen C11.Proofs.
From Cffi Require C25.Model C25.Gen C25.Proofs C25.GenProofs.
Open Scope Z_scope.

Definition nkey (name : list Z) : C25.Model.cstr := map Z.to_N name.
(* positive, not only non-zero: Z.to_N sends a negative byte to 0, so nkey would neither keep the name NUL-free
   (nkey_nulfree) nor keep two names apart (nkey_inj) *)
Definition bytes_pos (name : list Z) : Prop := Forall (fun c => 0 < c) name.

(* a stable insertion sort of records on the byte order of a key: the specification of
        lst.sort(key=lambda entry: entry.name) *)
Section Sort.
  Context {A : Type} (key : A -> C25.Model.cstr).
  Fixpoint insert_rec (x : A) (l : list A) : list A :=
    match l with
    | [] => [x]
    | y :: l' => if C25.Model.leb_lex (key x) (key y) then x :: l else y :: insert_rec x l'
    end.
  Definition sort_records (l : list A) : list A := fold_right insert_rec [] l.

  Lemma insert_rec_keys : forall x l, map key (insert_rec x l) = C25.Model.insert_sorted (key x) (map key l).
  Proof.
    induction l as [|y l IH]; cbn [insert_rec map C25.Model.insert_sorted]; [reflexivity|].
    destruct (C25.Model.leb_lex (key x) (key y)); cbn [map]; [reflexivity|]. rewrite IH. reflexivity.
  Qed.

  Lemma sort_records_keys : forall l, map key (sort_records l) = C25.Model.py_sorted (map key l).
  Proof.
    induction l as [|x l IH]; [reflexivity|].
    unfold sort_records, C25.Model.py_sorted in *. cbn [fold_right map]. rewrite insert_rec_keys, IH. reflexivity.
  Qed.

  Lemma insert_rec_perm : forall x l, Permutation (insert_rec x l) (x :: l).
  Proof.
    induction l as [|y l IH]; cbn [insert_rec]; auto.
    destruct (C25.Model.leb_lex (key x) (key y)); auto.
    eapply perm_trans; [apply perm_skip, IH|apply perm_swap].
  Qed.

  Lemma sort_records_perm : forall l, Permutation (sort_records l) l.
  Proof.
    induction l as [|x l IH]; cbn; auto.
    eapply perm_trans; [apply insert_rec_perm|]. apply perm_skip, IH.
  Qed.

  Lemma sort_records_Forall : forall (P : A -> Prop) l, Forall P l -> Forall P (sort_records l).
  Proof. intros P l. apply Permutation_Forall, Permutation_sym, sort_records_perm. Qed.
End Sort.

Lemma nkey_inj : forall a b, bytes_pos a -> bytes_pos b -> nkey a = nkey b -> a = b.
Proof.
  induction a as [|x a IH]; destruct b as [|y b]; cbn; intros Ha Hb E; try discriminate; [reflexivity|].
  inversion Ha; inversion Hb; subst. inversion E. f_equal; [lia|]. apply IH; assumption.
Qed.

Lemma nkey_nulfree : forall a, bytes_pos a -> C25.Model.nulfree (nkey a).
Proof.
  intros a H. unfold C25.Model.nulfree, nkey. induction H as [|c a Hc Ha IH]; cbn [map]; constructor; [lia|exact IH].
Qed.

Lemma NoDup_map_nkey : forall names, Forall bytes_pos names -> NoDup names -> NoDup (map nkey names).
Proof.
  induction names as [|n names IH]; cbn; intros Hp Hnd; [constructor|].
  inversion Hp as [|? ? Hn Hp']; inversion Hnd as [|? ? Hnot Hnd']; subst.
  constructor; [|apply IH; assumption].
  intros Hin. apply in_map_iff in Hin. destruct Hin as [m [E Hm]].
  assert (m = n).
  { apply nkey_inj; [|exact Hn|exact E]. rewrite Forall_forall in Hp'. apply Hp', Hm. }
  subst. contradiction.
Qed.

Section Lookup.
  Context {A : Type} (name_of : A -> list Z).
  Let key (r : A) := nkey (name_of r).

  Lemma sorted_table_lookup : forall (rs : list A) (d : A),
    NoDup (map name_of rs) -> Forall (fun r => bytes_pos (name_of r)) rs ->
    forall r, In r rs ->
    exists i, C25.Gen.gen_search_in (map key (sort_records key rs)) (key r) = Some i
              /\ (i < List.length rs)%nat /\ nth i (sort_records key rs) d = r.
  Proof.
    intros rs d Hnd Hpos r Hin.
    pose proof (sort_records_perm key rs) as Hperm. set (srt := sort_records key rs) in *.
    (* r sits at some index i of the sorted records; its key is the i-th key, and a member of a sorted
       table is found at its own index *)
    destruct (In_nth srt r d) as (i & Hi & Hr); [eapply Permutation_in; [symmetry; exact Hperm|exact Hin]|].
    exists i. split; [|now rewrite <- (Permutation_length Hperm)].
    assert (Hi' : (i < List.length (map key srt))%nat) by now rewrite map_length.
    rewrite C25.GenProofs.gen_search_in_is_model, <- Hr, <- (map_nth key), (nth_indep _ _ [] Hi').
    apply C25.Proofs.search_finds_member; [| |exact Hi'].
    - apply Forall_map, sort_records_Forall. revert Hpos. apply Forall_impl. intros x. apply nkey_nulfree.
    - unfold srt. rewrite sort_records_keys. apply C25.Proofs.python_sort_gives_table.
      unfold key. rewrite <- map_map. apply NoDup_map_nkey; [|exact Hnd].
      apply Forall_map. exact Hpos.
  Qed.
End Lookup.

Definition grec := (Z * Z * list Z)%type.                 (* CffiOp(op, arg), name *)
Definition gname (g : grec) : list Z := snd g.
Definition gkey (g : grec) := nkey (gname g).
Definition emit_global (g : grec) : list Z := let '(op, arg, name) := g in encode_global op arg name.
(* the byte strings of the generated module's _globals tuple, in emitted order *)
Definition emitted_globals (gs : list grec) : list (list Z) := map emit_global (sort_records gkey gs).
(* what ffiobj_init stores in nglobs[]: (type_op split into op/arg, name) *)
Definition decoded_globals (gs : list grec) : list ((Z * Z) * list Z) :=
  map (fun b => decode_global (as_c b)) (emitted_globals gs).

Lemma decoded_globals_eq : forall gs, Forall global_ok gs ->
  decoded_globals gs = map (fun g : grec => let '(op, arg, name) := g in ((op, arg), name)) (sort_records gkey gs).
Proof.
  intros gs H. unfold decoded_globals, emitted_globals, emit_global.
  apply globals_table_roundtrip, sort_records_Forall, H.
Qed.

Definition trec := (Z * list Z)%type.                     (* type_index, name *)
Definition tkey (t : trec) := nkey (snd t).
Definition typename_ok (t : trec) : Prop := 0 <= fst t < 2 ^ 31 /\ nulfree (snd t).
Definition decoded_typenames (ts : list trec) : list (Z * list Z) :=
  map (fun b => decode_typename (as_c b)) (map (fun t : trec => encode_typename (fst t) (snd t)) (sort_records tkey ts)).

Lemma decoded_typenames_eq : forall ts, Forall typename_ok ts -> decoded_typenames ts = sort_records tkey ts.
Proof.
  intros ts H. unfold decoded_typenames. etransitivity; [|apply map_id].
  apply map_roundtrip with (ok := typename_ok); [|apply sort_records_Forall, H].
  intros [ti n] [H1 H2]. now apply typename_roundtrip.
Qed.

