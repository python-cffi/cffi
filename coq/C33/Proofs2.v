(* C33 — integer constants through the three routes: generic engine (vengine_gen.py: C getter + Python fix-up),
   CPython engine (_cffi_from_c_int_const), set_source() (C12.lib_constant).  All three pieces of text are
   regenerated in C33/Gen.v. *)
From Coq Require Import ZArith List Bool Lia ZifyBool.
Import ListNotations.
From Cffi Require Import Base.Wrap C12.Spec C12.Gen C12.Model C12.Proofs C33.Spec C33.Gen C33.Model C33.Proofs.
Local Open Scope Z_scope.

(* the value verify() gives to an integer constant whose C expression has the value c.
   Generic engine: _load_constant's fix-up applied to what the generated C function stores and returns *)
Definition vgen_const (c : Z) : Z := vgen_load_fixup (vgen_out_value c) (vgen_return c).
(* CPython engine: the regenerated macro _cffi_from_c_int_const itself, under a name that pairs with vgen_const *)
Definition vcpy_const (c : Z) : Z := vcpy_from_c_int_const c.

Lemma to_ull_small c : 0 <= c < 2 ^ 64 -> to_ull c = c.
Proof. apply Z.mod_small. Qed.

Lemma to_ll_small c : - 2 ^ 63 <= c < 2 ^ 63 -> to_ll c = c.
Proof. intros H. rewrite to_ll_wrap. apply (wrap_id true 64); [reflexivity | exact H]. Qed.

Theorem vgen_const_id : forall c, - 2 ^ 63 <= c < 2 ^ 64 -> vgen_const c = c.
Proof.
  intros c H. unfold vgen_const, vgen_load_fixup, vgen_out_value, vgen_return.
  destruct (Z_lt_dec c (2 ^ 63)).
  - rewrite to_ll_small by lia. destruct (c <? 0) eqn:E1, (c <=? 0) eqn:E2; cbn; lia.
  - rewrite to_ll_wrap, (wrap_unique true 64 c (c - 2 ^ 64)); [| reflexivity | unfold in_bits; lia | apply (Z_mod_plus_full c (-1))].
    assert (c - 2 ^ 64 <? 0 = true) as -> by lia. assert (c <=? 0 = false) as -> by lia. cbn. lia.
Qed.

Theorem vcpy_const_id : forall c, - 2 ^ 63 <= c < 2 ^ 64 -> vcpy_const c = c.
Proof.
  intros c H. unfold vcpy_const, vcpy_from_c_int_const.
  destruct (c >? 0) eqn:E0.
  - rewrite (to_ull_small c) by lia. rewrite (to_ull_small LONG_MAX) by (unfold LONG_MAX; lia).
    destruct (c <=? LONG_MAX) eqn:E1.
    + apply to_ll_small. unfold LONG_MAX in E1. lia.
    + reflexivity.
  - assert (to_ll c = c) as -> by (apply to_ll_small; lia). destruct (c >=? to_ll LONG_MIN); reflexivity.
Qed.

(* the fix-up matters: without it an unsigned constant >= 2^63 would come out negative *)
Example vgen_needs_fixup : vgen_out_value (2 ^ 64 - 1) = -1 /\ vgen_const (2 ^ 64 - 1) = 2 ^ 64 - 1 /\ vgen_const (-1) = -1.
Proof. vm_compute. repeat split; reflexivity. Qed.
