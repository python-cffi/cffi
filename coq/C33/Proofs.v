(* C33 — proofs.  The fixed-width arithmetic of C33.Spec and the casts of C33.Model are instances of
   Base.Wrap.wrap, so the integer part (to_c_bounds .. from_c_int_upto8) rests on the facts of Base.Wrap.
   The layout part (fixed_sizes_ok_spec .. layout_check_spec) reads the checks of verify() on a struct as
   equations between the declared and the reported layout. *)
From Coq Require Import ZArith List Bool Lia ZifyBool Znumtheory.
Import ListNotations.
From Cffi Require Import Base.Wrap C12.Spec C12.Proofs C33.Spec C33.Gen C33.Model C12.Gen C12.Model C12.Proofs2.
Local Open Scope Z_scope.

Lemma cast_wrap bits signed z : 0 < bits -> cast bits signed z = wrap signed bits z.
Proof. intros B. unfold cast. destruct signed; [symmetry; apply wrap_signed_leb, B | reflexivity]. Qed.

(* to_ull is wrap false 64 by definition *)
Lemma to_ll_wrap z : to_ll z = wrap true 64 z.
Proof. symmetry. apply wrap_signed_ltb. reflexivity. Qed.

Lemma in_type_range size signed v : in_type size signed v = true <-> in_bits signed (8 * size) v.
Proof. unfold in_type, type_lo, type_hi, in_bits. destruct signed; lia. Qed.

Lemma cast_id bits signed z : 0 < bits -> in_bits signed bits z -> cast bits signed z = z.
Proof. intros B R. rewrite cast_wrap by exact B. apply wrap_id; assumption. Qed.

Lemma cast_cast n s m s' z : 0 < n <= m -> cast n s (cast m s' z) = cast n s z.
Proof. intros H. rewrite !cast_wrap by lia. apply wrap_wrap. lia. Qed.

Lemma cast_ullmax bits signed : 0 <= bits <= 64 -> cast bits signed (2 ^ 64 - 1) = cast bits signed (-1).
Proof.
  intros B. unfold cast. rewrite (eqm_narrow bits 64 (2 ^ 64 - 1) (-1)); [reflexivity | exact B | reflexivity].
Qed.

Lemma to_c_bounds SIZE : 1 <= SIZE <= 64 ->
  to_c_signed_lo SIZE = - 2 ^ (SIZE - 1) /\ to_c_signed_hi SIZE = 2 ^ (SIZE - 1) - 1 /\
  to_c_unsigned_hi SIZE = 2 ^ SIZE - 1.
Proof.
  intros S. destruct (pow2_half SIZE) as [D _]; [lia|]. rewrite D.
  pose proof (pow2_mono (SIZE - 1) 63 ltac:(lia)) as P.
  unfold to_c_signed_lo, to_c_signed_hi, to_c_unsigned_hi, ull_sub, ull_shl, ull_not.
  rewrite !to_ll_wrap. change to_ull with (wrap false 64). set (p := 2 ^ (SIZE - 1)) in *.
  rewrite !wrap_wrap by lia.
  rewrite (wrap_id false 64 (1 * p)) by (unfold in_bits; lia).
  repeat split.
  - rewrite wrap_id; unfold in_bits; lia.
  - rewrite wrap_id; unfold in_bits; lia.
  - (* -2ULL << (SIZE-1) is 2^64 - 2^SIZE *)
    change (wrap false 64 (-2)) with (2 ^ 64 - 2).
    rewrite (wrap_unique false 64 _ (2 ^ 64 - 2 * p)); [lia | lia | unfold in_bits; lia |].
    apply eqm_divide. exists (1 - p). ring.
Qed.

Lemma out_of_range lo hi v : (v >? hi) || (v <? lo) = negb ((lo <=? v) && (v <=? hi)).
Proof. rewrite Z.gtb_ltb, !Z.ltb_antisym, negb_andb. apply orb_comm. Qed.

Lemma to_c_fn_range signed size rb rs v : 1 <= size <= 8 -> 0 <= rb <= 64 ->
  to_c_fn signed (8 * size) rb rs v =
  if in_type size signed v then (cast rb rs v, None) else (cast rb rs (-1), Some OverflowError).
Proof.
  intros S B. destruct (to_c_bounds (8 * size)) as (Elo & Ehi & Euhi); [lia|].
  pose proof (pow2_mono (8 * size - 1) 63 ltac:(lia)) as P.
  destruct (pow2_half (8 * size) ltac:(lia)) as [D _].
  unfold to_c_fn, in_type, type_lo, type_hi. destruct signed.
  - rewrite Elo, Ehi. unfold as_longlong.
    destruct ((- 2 ^ 63 <=? v) && (v <? 2 ^ 63)) eqn:L.
    + rewrite out_of_range. destruct ((_ <=? v) && (v <=? _)); reflexivity.
    + (* no long long: tmp = -1 with the error pending, which both branches of the test hand on *)
      replace ((_ <=? v) && (v <=? _)) with false by lia. destruct (_ || _); reflexivity.
  - rewrite Euhi. unfold as_ulonglong_strict.
    destruct (v <? 0) eqn:N; [|destruct (v <? 2 ^ 64) eqn:L].
    + replace ((0 <=? v) && _) with false by lia.
      rewrite cast_ullmax by exact B. destruct (_ >? _); reflexivity.
    + replace (0 <=? v) with true by lia. rewrite Z.gtb_ltb, Z.ltb_antisym. cbn [andb].
      destruct (v <=? _); reflexivity.
    + replace ((0 <=? v) && _) with false by lia.
      rewrite cast_ullmax by exact B. destruct (_ >? _); reflexivity.
Qed.

(* "x = _cffi_to_c_int(o, type); if (x == (type)-1 && PyErr_Occurred()) return NULL;" for any header tables
   that lead from the size of [type] to a converter of that size and signedness whose RETURNTYPE is at least
   as wide: the range semantics of the type *)
Lemma to_c_int_with_range dispatch index size signed v ub sb k rb rs :
  lookup_dispatch dispatch size = Some (ub, sb) ->
  lookup_index index signed (if signed then sb else ub) = Some k ->
  lookup_export backend_exports k = Some (signed, 8 * size) ->
  lookup_inst to_c_instances signed (8 * size) = Some (rb, rs) ->
  1 <= size <= 8 -> 8 * size <= rb <= 64 ->
  to_c_int_with dispatch index size signed v =
  Some (if in_type size signed v then COk v else CErr OverflowError).
Proof.
  intros D I E T S B. unfold to_c_int_with. rewrite D, I, E, T, to_c_fn_range by lia.
  destruct (in_type size signed v) eqn:R; cbv zeta; rewrite cast_cast by lia.
  - rewrite cast_id; [reflexivity | lia | apply in_type_range, R].
  - rewrite Z.eqb_refl. reflexivity.
Qed.

(* every shift in the regenerated bound expressions has a defined count for every instantiation *)
Theorem shift_counts_defined :
  forallb (fun i => match i with (_, SIZE, _, _) =>
             forallb (fun k => (0 <=? k) && (k <? 64)) (shift_counts SIZE) end) to_c_instances = true.
Proof. vm_compute. reflexivity. Qed.

(* results: every branch of _cffi_from_c_int goes through a 64-bit type that holds the whole range of
   a type of at most 8 bytes *)
Theorem from_c_int_upto8 size signed x :
  1 <= size <= 8 -> in_type size signed x = true -> from_c_int size signed x = x.
Proof.
  intros S R. apply in_type_range in R. unfold from_c_int. destruct signed; cbn [negb].
  - rewrite (cast_id 64 true x) by (try apply (in_bits_wider true (8 * size)); lia || exact R).
    destruct (size <=? 8); reflexivity.
  - destruct (Z.ltb_spec size 8).
    + apply cast_id, (in_bits_unsigned_signed (8 * size)); lia || exact R.
    + replace size with 8 in * by lia. exact (cast_id 64 false x eq_refl R).
Qed.

Lemma fixed_sizes_ok_spec : forall decl reps, length decl = length reps ->
  Forall (fun d => 0 <= fd_size d) decl ->
  fixed_sizes_ok (combine decl reps) = true <-> map fd_size decl = map fr_size reps.
Proof.
  induction decl as [| d decl IH]; intros [| r reps] Hlen Hpos; cbn in Hlen; try discriminate.
  - cbn. split; reflexivity.
  - inversion Hpos as [| ? ? Hd Hrest]; subst. cbn [combine fixed_sizes_ok map].
    assert (Hn : (fd_size d <? 0) = false) by lia. rewrite Hn.
    rewrite andb_true_iff, (IH reps ltac:(lia) Hrest). split.
    + intros [H1 H2]. f_equal; [lia | exact H2].
    + intros H. injection H as H1 H2. split; [lia | exact H2].
Qed.

Lemma fields_check_spec : forall l reps, Forall (fun r => fr_size r <> 0) reps ->
  fields_check l reps = true <-> map (fun r => (fr_off r, fr_size r)) reps = l.
Proof.
  induction l as [| [o s] l IH]; intros [| r reps] Hnz; cbn [fields_check map].
  - split; reflexivity.
  - split; discriminate.
  - split; discriminate.
  - inversion Hnz as [| ? ? Hr Hrest]; subst.
    rewrite !andb_true_iff, orb_true_iff, (IH reps Hrest). split.
    + intros [[H1 H2] H3]. f_equal; [f_equal; lia | exact H3].
    + intros H. injection H as -> -> ->. repeat split; lia.
Qed.

(* the check() calls of _loaded_struct_or_union together say that the report is the given layout *)
Lemma layout_check_spec : forall rep L, Forall (fun r => fr_size r <> 0) (r_fields rep) ->
  (r_size rep =? l_size L) && (r_align rep =? l_align L) && fields_check (l_fields L) (r_fields rep) = true
  <-> report_layout rep = L.
Proof.
  intros rep [lf ls la] Hnz. unfold report_layout. cbn [l_size l_align l_fields].
  rewrite !andb_true_iff, !Z.eqb_eq, (fields_check_spec lf _ Hnz). split.
  - intros [[-> ->] ->]. reflexivity.
  - intros H. injection H as -> -> ->. repeat split.
Qed.
