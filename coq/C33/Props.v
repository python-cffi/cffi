(* C33 — verify() produces the same library behaviour as set_source().
   The lemmas are in C33/Proofs.v (converters, struct layouts) and C33/Proofs2.v (constants).  The
   bound expressions, instantiations, export tables and dispatch tables are the regenerated
   definitions of C33/Gen.v. *)
From Coq Require Import ZArith List Bool Lia.
Import ListNotations.
From Cffi Require Import C33.Spec C33.Gen C33.Model C33.Proofs C12.Gen C12.Model C12.Proofs2.
From Cffi Require C12.Spec C12.Proofs C33.Proofs2.
Local Open Scope Z_scope.

(* SCOPE.  The property's main clause — "the library returned by ffi.verify(), with either engine,
   exposes the same functions, global variables, constants and struct layouts, with the same
   call results and conversion errors, as the set_source() module" — is an equality of two
   compiled artefacts and is DECIDED BY THE CORRESPONDENCE RUN ONLY (tools/props/c33.py: three
   builds per case, all observations compared).  What is proved here are the mechanisms on which
   that equality rests and which can be stated over all values:
     - integer argument conversion of the CPython engine = the type's range semantics, for all
       Python ints (C33_to_c_int_range), and set_source() modules reach the same backend
       converters (C33_include_same_as_vengine);
     - integer result conversion (C33_from_c_int_id);
     - struct layout acceptance and result of both routes (C33_struct_routes_agree,
       C33_partial_same_call, C33_partial_size_mismatch).
     - integer constants through all three routes (C33_int_constant_routes_agree): the generic
       engine's C getter + Python fix-up, the CPython engine's _cffi_from_c_int_const, and the
       set_source() route (C12.lib_constant) all give the constant's value.
   Not modelled at all (correspondence only): the generic engine's argument/result conversions
   (libffi call path of the backend, properties C03/C13), function results, global variables,
   non-integer constants, non-integer conversions and TypeError cases. *)

(* integer arguments, CPython engine: for every C integer type of 1, 2, 4 or 8 bytes, signed or
   unsigned, and EVERY Python int v: the generated conversion accepts v iff v is in the range
   of the type (the backend's integer range semantics), passes it unchanged, and raises
   OverflowError otherwise *)
Theorem C33_to_c_int_range : forall size signed v,
  In size [1; 2; 4; 8] ->
  vengine_to_c_int size signed v = Some (if in_type size signed v then COk v else CErr OverflowError).
Proof.
  intros size signed v Hs. unfold vengine_to_c_int.
  cbn [In] in Hs. destruct Hs as [<- | [<- | [<- | [<- | []]]]]; destruct signed;
    (* the regenerated tables lead to the converter of 8 * size bits *)
    (eapply to_c_int_with_range; [reflexivity | reflexivity | reflexivity | reflexivity | lia | lia]).
Qed.
Print Assumptions C33_to_c_int_range.

(* modules built by set_source() convert with the same function.  The two sides are NOT one
   definition: [vengine_to_c_int] is [to_c_int_with] applied to the dispatch and export-index
   tables regenerated from the header text inside src/cffi/vengine_cpy.py, [include_to_c_int]
   is the same interpreter applied to the tables regenerated from src/cffi/_cffi_include.h
   (the Gen.vengine_ tables versus the Gen.include_ tables).  The proof is by computation because the two regenerated
   tables coincide; if either header changes, Gen.v changes and this theorem (or
   C33_to_c_int_range) stops checking. *)
Theorem C33_include_same_as_vengine : forall size signed v,
  include_to_c_int size signed v = vengine_to_c_int size signed v.
Proof. intros. reflexivity. Qed.
Print Assumptions C33_include_same_as_vengine.

Theorem C33_shift_counts_defined :
  forallb (fun i => match i with (_, SIZE, _, _) =>
             forallb (fun k => (0 <=? k) && (k <? 64)) (shift_counts SIZE) end) to_c_instances = true.
Proof. exact shift_counts_defined. Qed.
Print Assumptions C33_shift_counts_defined.

(* integer results: the Python int equals the C value, for every value of the type *)
Theorem C33_from_c_int_id : forall size signed x,
  In size [1; 2; 4; 8] -> in_type size signed x = true -> from_c_int size signed x = x.
Proof. intros size signed x Hs. apply from_c_int_upto8. cbn [In] in Hs. lia. Qed.
Print Assumptions C33_from_c_int_id.

(* struct layouts (named non-bitfield fields, no open arrays): non-partial declarations are
   accepted by verify() exactly when set_source() accepts them, and both then hold the
   compiler's layout; otherwise both raise (VerificationError resp. ffi.error) *)
Theorem C33_struct_routes_agree : forall packed u decl rep Lnat,
  length decl = length (r_fields rep) -> wf_report rep ->
  Forall (fun d => pow2 (fd_align d)) decl ->
  Forall (fun r => fr_size r <> 0) (r_fields rep) ->
  natural packed u decl = Ok Lnat ->
  (report_layout rep = Lnat ->
     verify_checked_struct packed u decl rep = VOk (report_layout rep) /\
     realize_struct (struct_flags false packed) u decl rep = Ok (report_layout rep)) /\
  (report_layout rep <> Lnat ->
     verify_checked_struct packed u decl rep = VErr VerificationError /\
     realize_struct (struct_flags false packed) u decl rep = Err FFIError).
Proof.
  intros packed u decl rep Lnat Hlen Hwf Hpow Hnz Hnat.
  destruct (struct_checked packed u decl rep Lnat Hlen Hwf Hpow Hnat) as [R1 R2].
  unfold verify_checked_struct. rewrite Hnat.
  split; intros H; (split; [| auto]).
  - rewrite (proj2 (layout_check_spec rep Lnat Hnz) H), H. reflexivity.
  - rewrite <- (layout_check_spec rep Lnat Hnz) in H. apply not_true_is_false in H. rewrite H. reflexivity.
Qed.
Print Assumptions C33_struct_routes_agree.

(* partial ("...") declarations: with matching field sizes verify() performs the very same
   backend call as the set_source() route (C12.Model.realize_struct), hence the same layout
   — the compiler's, by C12_struct_partial — or the same error *)
Theorem C33_partial_same_call : forall u decl rep,
  length decl = length (r_fields rep) -> wf_report rep ->
  Forall (fun d => 0 <= fd_size d) decl ->
  map fd_size decl = map fr_size (r_fields rep) ->
  verify_partial_struct u decl rep =
  match realize_struct (struct_flags true false) u decl rep with
  | Ok l => VOk l
  | Err e => VErr (BackendError e)
  end.
Proof.
  intros u decl rep Hlen Hwf Hpos Hs. unfold verify_partial_struct, realize_struct.
  destruct Hwf as (Hoff & _ & _).
  destruct (realize_fields_spec decl (r_fields rep) Hlen Hoff) as [[-> _] | [_ Hne]]; [|contradiction].
  assert (Hok : fixed_sizes_ok (combine decl (r_fields rep)) = true)
    by (apply fixed_sizes_ok_spec; assumption).
  rewrite Hok. reflexivity.
Qed.
Print Assumptions C33_partial_same_call.

Theorem C33_partial_size_mismatch : forall u decl rep,
  length decl = length (r_fields rep) -> wf_report rep ->
  Forall (fun d => 0 <= fd_size d) decl ->
  map fd_size decl <> map fr_size (r_fields rep) ->
  verify_partial_struct u decl rep = VErr VerificationError /\
  realize_struct (struct_flags true false) u decl rep = Err FFIError.
Proof.
  intros u decl rep Hlen Hwf Hpos Hs. split.
  - unfold verify_partial_struct.
    destruct (fixed_sizes_ok (combine decl (r_fields rep))) eqn:E; [|reflexivity].
    apply fixed_sizes_ok_spec in E; [contradiction | assumption | assumption].
  - apply (proj1 (struct_partial false u decl rep Hlen Hwf)). exact Hs.
Qed.
Print Assumptions C33_partial_size_mismatch.

(* non-vacuity *)
Example C33_example :
  vengine_to_c_int 2 true 32767 = Some (COk 32767) /\
  vengine_to_c_int 2 true 32768 = Some (CErr OverflowError) /\
  vengine_to_c_int 8 false (-1) = Some (CErr OverflowError) /\
  vengine_to_c_int 4 false (2 ^ 32 - 1) = Some (COk (2 ^ 32 - 1)) /\
  vengine_to_c_int 1 true (-1) = Some (COk (-1)) /\
  vengine_to_c_int 8 true (2 ^ 70) = Some (CErr OverflowError) /\
  verify_partial_struct false [mkfdecl 4 4; mkfdecl 8 8] (mkreport [mkfrep 8 4; mkfrep 0 8] 16 8)
    = VOk (mklayout [(8, 4); (0, 8)] 16 8) /\
  verify_checked_struct false false [mkfdecl 4 4; mkfdecl 8 8] (mkreport [mkfrep 8 4; mkfrep 0 8] 16 8)
    = VErr VerificationError.
Proof. vm_compute. repeat split; reflexivity. Qed.

(* integer constants, all three routes.  X is a C integer constant expression of promoted type T (int, unsigned,
   long, unsigned long — C12.Spec) with value c.
     generic engine   vgen_const c = vgen_load_fixup (vgen_out_value c) (vgen_return c):  the generated C function
                      stores (long long)(X) and returns (X) <= 0; _load_constant adds 2^64 to a negative value that
                      the C side did not report as <= 0       (Gen.v, regenerated from vengine_gen.py)
     CPython engine   vcpy_const c = _cffi_from_c_int_const(X)  (Gen.v, regenerated from vengine_cpy.py)
     set_source()     C12.lib_constant KMacro T c None           (C12, `#define X ...`)
   All three are c. *)
Theorem C33_int_constant_routes_agree : forall T c, C12.Proofs.promoted T -> C12.Spec.in_range T c ->
  C33.Proofs2.vgen_const c = c /\ C33.Proofs2.vcpy_const c = c /\
  lib_constant KMacro T c None = Some (Ok c).
Proof.
  intros T c P R. pose proof (C12.Proofs.in_range_promoted T c P R) as B.
  split; [apply C33.Proofs2.vgen_const_id; exact B|]. split; [apply C33.Proofs2.vcpy_const_id; exact B|].
  apply C12.Proofs.const_dotdotdot; assumption.
Qed.
Print Assumptions C33_int_constant_routes_agree.

(* both engines are the identity on the whole range [-2^63, 2^64) that a C integer constant can take *)
Theorem C33_vgen_const_id : forall c, - 2 ^ 63 <= c < 2 ^ 64 -> C33.Proofs2.vgen_const c = c.
Proof. exact C33.Proofs2.vgen_const_id. Qed.
Print Assumptions C33_vgen_const_id.

Theorem C33_vcpy_const_id : forall c, - 2 ^ 63 <= c < 2 ^ 64 -> C33.Proofs2.vcpy_const c = c.
Proof. exact C33.Proofs2.vcpy_const_id. Qed.
Print Assumptions C33_vcpy_const_id.

(* non-vacuity, and why the fix-up is there: ULLONG_MAX is stored as -1 by the C side *)
Example C33_vgen_needs_fixup :
  vgen_out_value (2 ^ 64 - 1) = -1 /\ C33.Proofs2.vgen_const (2 ^ 64 - 1) = 2 ^ 64 - 1 /\ C33.Proofs2.vgen_const (-1) = -1.
Proof. exact C33.Proofs2.vgen_needs_fixup. Qed.
