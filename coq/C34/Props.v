(* C34 — ffi.include() shares declarations instead of copying them.
   The lemmas the proofs rest on are in C34/Proofs.v, Proofs2.v (regenerated rows), Proofs3.v (bridge), Proofs4.v (C25). *)
From Coq Require Import NArith ZArith List Bool Arith.
From Coq Require Import Lia.
From Cffi Require C25.Model.
From Cffi Require Import C34.Gen C34.Model C34.Proofs C34.Proofs2 C34.Proofs3 C34.Proofs4.
Import ListNotations.

(* after a successful include every copied declaration name (typedef/struct/union/enum/anonymous,
   except 'anonymous $enum_$...') of the included parser is bound in the including parser to the SAME
   object with the same quals, every integer constant to the same value; bindings that existed
   before are unchanged; names neither bound before nor copied stay unbound *)
Theorem C34_include_shares_objects : forall self other self',
  parser_include self other = (self', None) ->
  (forall n o q, In (n, (o, q)) (decls other) -> copied n = true -> lookup n (decls self') = Some (o, q)) /\
  (forall k v, In (k, v) (consts other) -> lookup k (consts self') = Some v) /\
  (forall n v, lookup n (decls self) = Some v -> lookup n (decls self') = Some v) /\
  (forall k v, lookup k (consts self) = Some v -> lookup k (consts self') = Some v) /\
  (forall n, lookup n (decls self) = None ->
             (forall o q, In (n, (o, q)) (decls other) -> copied n = false) -> lookup n (decls self') = None).
Proof. exact parser_include_shares. Qed.
Print Assumptions C34_include_shares_objects.

(* "typedef", "struct", "union", "enum" are among the copied kinds of the regenerated table (Gen.v) *)
Theorem C34_user_kinds_are_copied :
  forallb (fun k => existsb (str_eqb k) include_kinds)
          [[116;121;112;101;100;101;102]; [115;116;114;117;99;116]; [117;110;105;111;110]; [101;110;117;109]]%N = true.
Proof. vm_compute. reflexivity. Qed.
Print Assumptions C34_user_kinds_are_copied.

(* the _declare conflict rule: the declaration loop of include raises exactly when a copied name is
   already bound to a different object or different quals *)
Theorem C34_include_conflict_rule : forall items self,
  NoDup (map fst items) ->
  (snd (include_decls self items) = None <->
   forall n o q, In (n, (o, q)) items -> copied n = true ->
                 forall v, lookup n (decls self) = Some v -> v = (o, q)).
Proof.
intros items self Hnd. split.
- destruct (include_decls self items) as [self' e] eqn:E. cbn. intros ->.
  destruct (include_decls_ok _ _ _ E) as (_ & M & S & _). intros n o q Hin Hc v Hv.
  apply M in Hv. rewrite (S n o q Hin Hc) in Hv. congruence.
- revert self. induction items as [|[name [tp quals]] rest IH]; intros self H; [reflexivity|].
  inversion Hnd as [|? ? Hnotin Hnd']; subst. rewrite include_decls_cons.
  destruct (copied name) eqn:Ec.
  + destruct (declare false self name tp quals true) as [s1|e] eqn:Ed.
    * (* the later names are other names: their bindings are those of [self] *)
      destruct (declare_ok _ _ _ _ _ _ Ed) as (_ & _ & _ & O1).
      apply IH; auto. intros n o q Hin Hc v Hv. apply (H n o q (or_intror Hin) Hc).
      rewrite <- O1; auto. intros ->. apply Hnotin. exact (in_map fst _ _ Hin).
    * destruct (declare_err _ _ _ _ _ _ Ed) as (v & Hv & Hne). elim Hne. apply (H name tp quals); cbn; auto.
  + apply IH; auto. intros n o q Hin. apply H. now right.
Qed.
Print Assumptions C34_include_conflict_rule.

(* chains: C.include(B) after B.include(A) makes A's objects visible through C *)
Theorem C34_include_chain : forall a b b' c c',
  parser_include b a = (b', None) -> NoDup (map fst (decls b')) ->
  parser_include c b' = (c', None) ->
  forall n o q, In (n, (o, q)) (decls a) -> copied n = true -> lookup n (decls c') = Some (o, q).
Proof.
intros a b b' c c' H1 Hnd H2 n o q Hin Hc.
destruct (parser_include_shares _ _ _ H1) as (A1 & _).
destruct (parser_include_shares _ _ _ H2) as (A2 & _).
apply A2; auto. apply lookup_some_in. now apply A1.
Qed.
Print Assumptions C34_include_chain.

(* including the same FFI again changes nothing *)
Theorem C34_include_idempotent : forall self other s1 s2,
  parser_include self other = (s1, None) -> parser_include s1 other = (s2, None) ->
  (forall n, lookup n (decls s2) = lookup n (decls s1)) /\ (forall k, lookup k (consts s2) = lookup k (consts s1)).
Proof.
intros self other s1 s2 H1 H2. destruct (parser_include_shares _ _ _ H1) as (A1 & B1 & _).
rewrite (parser_include_noop s1 other A1 B1) in H2. inversion H2. auto.
Qed.
Print Assumptions C34_include_idempotent.

(* the C search (loop + recursion + cap 100) is "first answer in depth-first preorder", for any own /
   descend rule, on every acyclic include graph of depth <= 100.  k bounds the module numbers of the tuple
   [included], hence (wf_world) the depth still to go; f and fp are the fuels of the search and of the
   preorder, both enough for that depth; r is the recursion argument, and r + k <= 101 keeps the cap away *)
Theorem C34_dfs_is_first_hit_in_preorder :
  forall (A : Type) (own : nat -> module -> option (fres A)) (descend : nat -> module -> bool),
  (forall i m, own i m <> Some NotFound) ->
  forall k w, wf_world w ->
  forall f fp included r,
  Forall (fun i => i < k) included -> k < f -> k <= fp -> r + k <= 101 ->
  dfs own descend f w included r = first_hit own w (preorder_d descend fp w included).
Proof. exact @dfs_first_hit. Qed.
Print Assumptions C34_dfs_is_first_hit_in_preorder.

(* the preorder list is exactly the transitive includes *)
Theorem C34_preorder_is_transitive_closure : forall k w, wf_world w -> forall fp included x,
  Forall (fun i => i < k) included -> k <= fp ->
  (In x (preorder fp w included) <-> In x included \/ exists j, In j included /\ reach w j x).
Proof.
intros k w Hwf fp included x Hinc Hfp. rewrite <- preorder_d_true. split; [apply preorder_d_reach|].
apply (preorder_d_complete _ (fun _ => True) w Hwf) with (k := k); auto.
Qed.
Print Assumptions C34_preorder_is_transitive_closure.

(* ffi.integer_const through a chain: first declaring module in depth-first order (itself first) ... *)
Theorem C34_integer_const_first_in_dfs_order : forall w m nm, wf_world w -> m <= 100 ->
  integer_const w m nm =
  match first_hit (const_own nm) w (m :: preorder m w (match nth_error w m with Some md => includes md | None => [] end)) with
  | NotFound => Error AttributeError
  | r => r
  end.
Proof.
intros w m nm Hwf Hm. unfold integer_const, fetch_int_constant_from. cbn [first_hit].
destruct (nth_error w m) as [md|] eqn:En; [|destruct m; reflexivity].
destruct (const_own nm m md) as [x|] eqn:Eo; [destruct x; auto|].
now rewrite (dfs_cap_first_hit _ _ (const_own_stops nm) w m md), preorder_d_true.
Qed.
Print Assumptions C34_integer_const_first_in_dfs_order.

(* ... and it finds the name iff the module or some transitive include declares it *)
Theorem C34_integer_const_found_iff_declared : forall w m md nm, wf_world w -> m <= 100 -> nth_error w m = Some md ->
  (integer_const w m nm <> Error AttributeError <->
   exists j mj, (j = m \/ reach w m j) /\ nth_error w j = Some mj /\ lookup nm (globals mj) <> None).
Proof.
intros w m md nm Hwf Hm En. rewrite C34_integer_const_first_in_dfs_order by auto. rewrite En.
set (l := m :: preorder m w (includes md)).
assert (Hl : forall j, In j l <-> j = m \/ reach w m j).
{ intros j. unfold l. cbn [In]. rewrite (reach_includes w m md j En).
  rewrite (C34_preorder_is_transitive_closure m w Hwf m (includes md) j) by (auto; eapply includes_below; eauto).
  split; intros [H|H]; auto. }
(* no answer: nobody on the list declares the name; an answer: the module it comes from declares it, and
   const_own never answers AttributeError *)
destruct (first_hit (const_own nm) w l) as [v| |e] eqn:Ef.
2: { split; [congruence|]. intros (j & mj & Hj & Hn & Hlk). elim Hlk.
     rewrite (first_hit_notfound _ (const_own_stops nm)) in Ef. apply Hl in Hj.
     now apply (const_own_none nm j), Ef. }
all: destruct (first_hit_origin _ _ _ _ Ef) as (i & m1 & Hi & Hn & Ho); [discriminate|].
all: split; [intros _; exists i, m1; rewrite <- Hl, <- (const_own_none nm i), Ho; repeat split; auto; discriminate|].
all: intros _ X; inversion X; subst. now destruct (const_own_error _ _ _ _ Ho).
Qed.
Print Assumptions C34_integer_const_found_iff_declared.

(* with fuel + recursion >= 102 the fuel of the model is never exhausted: the code's recursion cap (100) fires
   first.  OutOfFuel is the model's own outcome, distinct from the RuntimeError of the cap, so a fuel bug
   cannot hide behind the cap. *)
Theorem C34_dfs_never_out_of_fuel :
  forall (A : Type) (own : nat -> module -> option (fres A)) (descend : nat -> module -> bool),
  (forall i m, own i m <> Some (Error OutOfFuel)) ->
  forall f w included r, r <= 101 -> 102 <= f + r ->
  dfs own descend f w included r <> Error OutOfFuel.
Proof. exact @dfs_never_out_of_fuel. Qed.
Print Assumptions C34_dfs_never_out_of_fuel.

(* the three lookups start the search with recursion = 0 and cap_fuel = 103 units *)
Theorem C34_lookups_never_out_of_fuel : forall w m nm un,
  resolve_struct w m nm un <> Error OutOfFuel /\
  integer_const w m nm <> Error OutOfFuel /\
  lib_getattr w m nm <> Error OutOfFuel.
Proof.
intros w m nm un. repeat split.
- unfold resolve_struct, fetch_external. destruct (nth_error w m) as [md|]; [|discriminate].
  destruct (find_struct nm (structs md) 0) as [[sidx s]|]; [|discriminate].
  destruct (negb (Bool.eqb (s_union s) un)); [discriminate|].
  destruct (negb (s_external s)); [discriminate|].
  intros H. apply or_else_error in H. destruct H as [H|H]; [discriminate|]. revert H.
  apply dfs_cap_fuel_suffices. intros i m0. apply struct_own_never_error.
- unfold integer_const. intros H. apply or_else_error in H. destruct H as [H|H]; [discriminate|]. revert H.
  unfold fetch_int_constant_from. destruct (nth_error w m) as [md|]; [|discriminate].
  destruct (const_own nm m md) as [x|] eqn:Eo.
  + intros ->. revert Eo. apply const_own_no_fuel.
  + apply dfs_cap_fuel_suffices, const_own_no_fuel.
- unfold lib_getattr. destruct (nth_error w m) as [md|]; [|discriminate].
  destruct (lookup nm (globals md)) as [[v|]|]; try discriminate.
  intros H. apply or_else_error in H. destruct H as [H|H]; [discriminate|]. revert H.
  apply dfs_cap_fuel_suffices, lib_own_no_fuel.
Qed.
Print Assumptions C34_lookups_never_out_of_fuel.

(* every outcome of the search other than "not found" is some module's own answer, the RuntimeError of the cap,
   or the model's own OutOfFuel (which the two theorems above exclude for the lookups) *)
Theorem C34_dfs_outcome_origin :
  forall (A : Type) (own : nat -> module -> option (fres A)) (descend : nat -> module -> bool) f w included r x,
  dfs own descend f w included r = x -> x <> NotFound ->
  x = Error RuntimeError \/ x = Error OutOfFuel \/ exists i m1, nth_error w i = Some m1 /\ own i m1 = Some x.
Proof.
intros A own descend f w included r x H Hx.
destruct (dfs_origin _ _ _ _ _ _ _ H Hx) as [?|[(? & _)|?]]; auto.
Qed.
Print Assumptions C34_dfs_outcome_origin.

(* structs/unions: whatever "struct nm" resolves to is a real non-external definition of that kind — on any
   world, from any module *)
Theorem C34_resolve_struct_sound : forall w m nm un d,
  resolve_struct w m nm un = Found d -> defines w (fst d) (snd d) nm un.
Proof.
intros w m nm un d. unfold resolve_struct, fetch_external.
destruct (nth_error w m) as [md|] eqn:En; [|discriminate].
destruct (find_struct nm (structs md) 0) as [[sidx s]|] eqn:Ef; [|discriminate].
destruct (Bool.eqb (s_union s) un) eqn:Eu; cbn [negb]; [|discriminate].
destruct (s_external s) eqn:Ee; cbn [negb].
- destruct (dfs (struct_own nm un) (struct_descend nm) cap_fuel w (includes md) 0) as [x| |e] eqn:E; try discriminate.
  intros H; inversion H; subst.
  destruct (dfs_cap_origin _ _ _ _ _ E) as [X|(i & m1 & Hn & Ho)]; try discriminate.
  eapply struct_own_found; eauto.
- intros H; inversion H; subst. eapply defines_intro; eauto.
Qed.
Print Assumptions C34_resolve_struct_sound.

(* ffi.integer_const fails only with AttributeError (not found), RuntimeError (the cap) or FFIError because
   some module declares the name as a function / variable / non-integer constant *)
Theorem C34_integer_const_error_origin : forall w m nm e, integer_const w m nm = Error e ->
  e = AttributeError \/ e = RuntimeError \/
  (e = FFIError /\ exists j mj, nth_error w j = Some mj /\ lookup nm (globals mj) = Some GOther).
Proof.
intros w m nm e H. unfold integer_const in H. apply or_else_error in H. destruct H as [H|H]; [auto|].
right. unfold fetch_int_constant_from in H. destruct (nth_error w m) as [md|] eqn:En; [|discriminate].
assert (G : forall i m1, nth_error w i = Some m1 -> const_own nm i m1 = Some (Error e) ->
            e = RuntimeError \/ e = FFIError /\ exists j mj, nth_error w j = Some mj /\ lookup nm (globals mj) = Some GOther).
{ intros i m1 Hn Ho. destruct (const_own_error _ _ _ _ Ho). eauto 6. }
destruct (const_own nm m md) as [x|] eqn:Eo; [subst x; eauto|].
destruct (dfs_cap_origin _ _ _ _ _ H) as [X|(i & m1 & Hn & Ho)]; try discriminate; eauto.
inversion X; auto.
Qed.
Print Assumptions C34_integer_const_error_origin.

(* sharing: when module d is the only definer of "struct nm" and the including modules re-declare it
   as external (what the recompiler emits: [closed]), every module that transitively includes d
   resolves the name to d's own object — the same (module, index), hence the same ctype *)
Theorem C34_included_struct_is_the_same_object : forall w m md nm un d didx sidx s,
  wf_world w -> m <= 100 -> closed w nm ->
  nth_error w m = Some md -> find_struct nm (structs md) 0 = Some (sidx, s) ->
  s_external s = true -> s_union s = un ->
  reach w m d -> defines w d didx nm un ->
  (forall j idx, defines w j idx nm un -> j = d) ->
  resolve_struct w m nm un = Found (d, didx) /\ resolve_struct w d nm un = Found (d, didx).
Proof.
intros w m md nm un d didx sidx s Hwf Hm Hc En Ef Hext Hun Hr Hd Huniq.
pose proof Hd as (m2 & s2 & E2 & F2 & X2 & U2).
split; unfold resolve_struct; [|now rewrite E2, F2, U2, eqb_reflx, X2].
rewrite En, Ef, Hun, eqb_reflx, Hext. cbn [negb]. rewrite (fetch_external_first_hit w m md) by auto.
destruct (first_hit (struct_own nm un) w _) as [[j idx]| |e] eqn:E1.
- (* the definition found is d's, the only one *)
  apply first_hit_origin in E1; [|discriminate]. destruct E1 as (i & m1 & _ & Hn & Ho).
  apply (struct_own_found w) in Ho; auto. cbn in Ho. assert (j = d) by eauto. subst j.
  destruct Ho as (m3 & s3 & E3 & F3 & _). congruence.
- (* d is visited: the modules on the way to it have an entry, so the search descends through them *)
  exfalso. rewrite first_hit_notfound in E1 by apply struct_own_stops.
  assert (Hin : In d (preorder_d (struct_descend nm) m w (includes md))).
  { apply (pruned_preorder_complete nm m w Hwf Hc m (includes md) d); auto.
    - exists m2. rewrite F2. split; [auto|discriminate].
    - now apply (reach_includes w m md). }
  specialize (E1 d m2 Hin E2). unfold struct_own in E1. rewrite F2, X2, U2, eqb_reflx in E1. discriminate.
- apply first_hit_origin in E1; [|discriminate]. destruct E1 as (i & m1 & _ & _ & Ho).
  now apply struct_own_never_error in Ho.
Qed.
Print Assumptions C34_included_struct_is_the_same_object.

(* lib attributes (API mode: functions, globals, constants of included modules) *)
Theorem C34_lib_getattr_first_in_dfs_order : forall w m md nm, wf_world w -> m <= 100 -> nth_error w m = Some md ->
  lib_getattr w m nm =
  match lookup nm (globals md) with
  | Some (GInt v) => Found (AInt v)
  | Some GOther => Found (AObj m)
  | None => match first_hit (lib_own nm) w (preorder m w (includes md)) with
            | NotFound => Error AttributeError
            | r => r
            end
  end.
Proof.
intros w m md nm Hwf Hm En. unfold lib_getattr. rewrite En.
destruct (lookup nm (globals md)) as [[v|]|]; auto.
now rewrite (dfs_cap_first_hit _ _ (lib_own_stops nm) w m md), preorder_d_true.
Qed.
Print Assumptions C34_lib_getattr_first_in_dfs_order.

Theorem C34_lib_object_is_the_declaring_libs_object : forall w m md nm j, wf_world w -> m <= 100 -> nth_error w m = Some md ->
  lib_getattr w m nm = Found (AObj j) ->
  (j = m \/ reach w m j) /\ j <= 100 /\ lib_getattr w j nm = Found (AObj j).
Proof.
intros w m md nm j Hwf Hm En. rewrite (C34_lib_getattr_first_in_dfs_order w m md) by auto.
destruct (lookup nm (globals md)) as [[v|]|] eqn:El.
- discriminate.
- intros H. inversion H; subst. split; auto. split; auto. unfold lib_getattr. now rewrite En, El.
- destruct (first_hit (lib_own nm) w _) as [x| |e] eqn:E1; try discriminate.
  intros H. inversion H; subst.
  apply first_hit_origin in E1; [|discriminate]. destruct E1 as (i & m1 & Hi & Hn & Ho).
  assert (i = j /\ lookup nm (globals m1) = Some GOther) as [-> Hlk].
  { unfold lib_own in Ho. destruct (has_lib m1); destruct (lookup nm (globals m1)) as [[v|]|]; inversion Ho; auto. }
  apply (C34_preorder_is_transitive_closure m w Hwf m (includes md) j) in Hi; [|eapply includes_below; eauto|auto].
  apply (reach_includes w m md j En) in Hi. pose proof (reach_lt w m j Hwf Hi) as Hlt.
  split; auto. split; [exact (Nat.lt_le_incl _ _ (Nat.lt_le_trans _ _ _ Hlt Hm))|].
  unfold lib_getattr. now rewrite Hn, Hlk.
Qed.
Print Assumptions C34_lib_object_is_the_declaring_libs_object.

(* the rows read from the current source are the rows the model stands for: guards [NULL tuple; recursion > 100]
   in that order and NO other early exit (in particular none in front of ffi_fetch_int_constant's local lookup
   and delegation), recursive calls at recursion + 1, on the included_ffis of the item just looked at, `continue`
   when the item has no entry, hit when (s1->flags & (EXTERNAL|UNION)) == (s->flags & UNION), integer ops
   _CFFI_OP_CONSTANT_INT and _CFFI_OP_ENUM.  Re-checked by reflexivity against every regenerated Gen.v. *)
Theorem C34_gen_rows_as_modelled : gen_search = [std_struct; std_const; std_lib].
Proof. exact gen_rows_as_modelled. Qed.
Print Assumptions C34_gen_rows_as_modelled.

(* hence the searches that READ their parameters from Gen.v (the ones the correspondence check evaluates) are
   the searches all theorems of this file talk about — on every world, from every module *)
Theorem C34_regenerated_searches_are_the_model : forall w m nm un,
  resolve_structG w m nm un = resolve_struct w m nm un /\
  integer_constG w m nm = integer_const w m nm /\
  lib_getattrG w m nm = lib_getattr w m nm.
Proof. intros. split; [apply resolve_structG_eq|split; [apply integer_constG_eq|apply lib_getattrG_eq]]. Qed.
Print Assumptions C34_regenerated_searches_are_the_model.

(* for every list of FFIs built by successful FFI.include steps (from FFIs without includes and with arbitrary
   declarations; an FFI is no longer changed once another one includes it), the modules the recompiler emits
   (module_of: one struct_unions entry per "struct x"/"union x" declaration, included_ffis as recorded) satisfy
   the hypothesis [closed] of the sharing theorem, for every name *)
Theorem C34_recompiled_world_closed : forall ffis, built ffis -> forall nm, closed (map module_of ffis) nm.
Proof.
intros w Hb nm. pose proof (built_shares w Hb) as Hs.
intros i mi j Hi Hin (mj & Hj & Hf).
apply nth_error_map_some in Hi. destruct Hi as (fi & Hi & ->).
apply nth_error_map_some in Hj. destruct Hj as (fj & Hj & ->).
cbn [module_of includes structs] in *.
destruct (find_struct_some_in _ _ _ Hf) as (s & Hsin & Hsn).
apply in_struct_entries in Hsin. destruct Hsin as (n & o & q & Hd & Hname & _).
pose proof (struct_name_copied _ _ _ Hname) as Hc.
pose proof (Hs i fi j fj Hi Hin Hj n o q Hd Hc) as Hl.
apply lookup_some_in in Hl.
exists (module_of fi). split; [now apply map_nth_error|].
cbn [module_of structs].
apply (find_struct_in_some nm _ 0 (mkS (s_name s) (s_union s) (external_flag (fparser fi) o))); [|exact Hsn].
apply in_struct_entries. exists n, o, q. cbn. auto.
Qed.
Print Assumptions C34_recompiled_world_closed.

(* the _CFFI_F_EXTERNAL flag (Recompiler._struct_ctx, regenerated as gen_external_iff_included): after a
   successful include, the object of every copied declaration of the included FFI whose name was unbound before
   (or whose object was already marked) is in _included_declarations, so its entry is emitted EXTERNAL *)
Theorem C34_include_marks_external : forall self other self' n o q,
  gen_external_iff_included = true ->
  parser_include self other = (self', None) ->
  In (n, (o, q)) (decls other) -> copied n = true ->
  existsb (N.eqb o) (incl_decls self) = true \/ lookup n (decls self) = None ->
  external_flag self' o = true.
Proof.
intros self other self' n o q Hg Hinc Hin Hc Hpre. unfold external_flag. rewrite Hg.
unfold parser_include in Hinc.
destruct (include_decls self (decls other)) as [s1 [e|]] eqn:E1; [discriminate|].
destruct (include_consts_ok _ _ _ Hinc) as (_ & -> & _).
destruct (include_decls_ok _ _ _ E1) as (_ & _ & S & _). destruct (include_decls_marks _ _ _ E1) as (G & P).
(* the binding of n after the loop is not one of [self] unless o was marked there already *)
destruct (P n (o, q) (S n o q Hin Hc)) as [Hn|Ho]; [|exact Ho].
destruct Hpre as [Hp|Hp]; [auto|congruence].
Qed.
Print Assumptions C34_include_marks_external.

(* on a struct_unions table strictly sorted by name in byte order, with NUL-free names (what the recompiler
   emits: C25_python_sort_gives_table), the model's scan find_struct returns exactly what search_in_struct_unions
   (C25.Model.search_sorted, the model of MAKE_SEARCH_FUNC) returns: same index, that entry *)
Theorem C34_find_struct_is_search_sorted : forall l nm,
  Forall C25.Model.nulfree (map s_name l) -> C25.Model.nulfree nm ->
  (forall i j, i < j < length (map s_name l) ->
     C25.Model.lex (nth i (map s_name l) []) (nth j (map s_name l) []) = Lt) ->
  find_struct nm l 0 =
  match C25.Model.search_sorted (map s_name l) nm with
  | Some i => Some (i, nth i l sentry_dflt)
  | None => None
  end.
Proof.
intros l nm H1 H2 Hs. destruct (find_struct nm l 0) as [[i s]|] eqn:E.
- apply find_struct_sound in E. destruct E as (_ & Ei & Hn). rewrite Nat.sub_0_r in Ei.
  rewrite (proj2 (C25.Proofs.search_sorted_iff (map s_name l) nm i H1 H2 Hs)).
  + now rewrite (nth_error_nth _ _ _ Ei).
  + split; [rewrite map_length; apply nth_error_Some; congruence|].
    now rewrite nth_map_name, (nth_error_nth _ _ _ Ei).
- rewrite (proj2 (C25.Proofs.search_sorted_none (map s_name l) nm H1 H2 Hs)); [reflexivity|].
  intros Hin. apply in_map_iff in Hin. destruct Hin as (s & Hn & Hin). exact (find_struct_in_some nm l 0 s Hin Hn E).
Qed.
Print Assumptions C34_find_struct_is_search_sorted.

(* the same for the globals table (search_in_globals) *)
Theorem C34_lookup_is_search_sorted : forall (V : Type) (l : list (str * V)) nm,
  Forall C25.Model.nulfree (map fst l) -> C25.Model.nulfree nm ->
  (forall i j, i < j < length (map fst l) ->
     C25.Model.lex (nth i (map fst l) []) (nth j (map fst l) []) = Lt) ->
  lookup nm l =
  match C25.Model.search_sorted (map fst l) nm with
  | Some i => option_map snd (nth_error l i)
  | None => None
  end.
Proof.
intros V l nm H1 H2 Hs. destruct (lookup nm l) as [v|] eqn:E.
- apply lookup_some_in, In_nth_error in E. destruct E as (i & Ei).
  rewrite (proj2 (C25.Proofs.search_sorted_iff (map fst l) nm i H1 H2 Hs)); [now rewrite Ei|].
  split; [rewrite map_length; apply nth_error_Some; congruence|].
  apply nth_error_nth. exact (map_nth_error fst _ _ Ei).
- rewrite (proj2 (C25.Proofs.search_sorted_none (map fst l) nm H1 H2 Hs)); [reflexivity|].
  exact (lookup_none _ _ _ E).
Qed.
Print Assumptions C34_lookup_is_search_sorted.

Definition ex_s (c : N) : str := [115;116;114;117;99;116;32; c]%N.       (* "struct " ++ c *)
Definition ex_t (c : N) : str := [116;121;112;101;100;101;102;32; c]%N.  (* "typedef " ++ c *)
Definition ex_f (c : N) : str := [102;117;110;99;116;105;111;110;32; c]%N.  (* "function " ++ c *)

Example C34_example_inline :
  let a := mkParser [(ex_s 97, (1, 0)); (ex_t 98, (1, 0)); (ex_f 102, (2, 0))]%N [([75]%N, 42%Z)] [] in
  let b := mkParser [(ex_s 99, (3, 0))]%N [] [] in
  let clash := mkParser [(ex_s 97, (9, 0))]%N [([75]%N, 43%Z)] [] in
  (let '(b', e) := parser_include b a in
   (e, lookup (ex_s 97) (decls b'), lookup (ex_t 98) (decls b'), lookup (ex_f 102) (decls b'),
    lookup [75]%N (consts b'), incl_decls b'))
    = (None, Some (1, 0), Some (1, 0), None, Some 42%Z, [1])%N /\
  snd (parser_include clash a) = Some FFIError /\
  snd (parser_include (mkParser [] [([75]%N, 43%Z)] []) a) = Some FFIError /\
  snd (api_include [mkFFI a []; mkFFI b []] 1 1) = Some ValueError.
Proof. vm_compute. repeat split. Qed.

(* world: 0 defines struct "s" and constant K=1 and function f; 1 includes 0; 2 defines K=2; 3 includes [1; 2] *)
Example C34_example_modules :
  let S := [115]%N in let K := [75]%N in let F := [102]%N in
  let w := [ mkModule [mkS S false false] [(K, GInt 1); (F, GOther)] [] true;
             mkModule [mkS S false true] [] [0] true;
             mkModule [] [(K, GInt 2)] [] true;
             mkModule [mkS S false true] [] [1; 2] true ] in
  resolve_struct w 3 S false = Found (0, 0) /\ resolve_struct w 1 S false = Found (0, 0) /\
  resolve_struct w 3 S true = NotFound /\
  integer_const w 3 K = Found 1%Z /\ integer_const w 2 K = Found 2%Z /\
  integer_const w 3 F = Error FFIError /\ integer_const w 3 S = Error AttributeError /\
  lib_getattr w 3 F = Found (AObj 0) /\ lib_getattr w 3 K = Found (AInt 1) /\
  wf_world w.
Proof.
intros S K F w. repeat split; try (vm_compute; reflexivity).
intros i m H. do 4 (destruct i as [|i]; [injection H as <-; cbn [includes]; repeat constructor|]). now destruct i.
Qed.

(* the recursion cap: a chain of 103 modules, the name declared only at the far end *)
Fixpoint chain (n : nat) : world :=
  match n with
  | O => [mkModule [] [([75]%N, GInt 7)] [] false]
  | S k => chain k ++ [mkModule [] [] [k] false]
  end.
Example C34_example_cap :
  integer_const (chain 100) 100 [75]%N = Found 7%Z /\
  integer_const (chain 101) 101 [75]%N = Found 7%Z /\
  integer_const (chain 102) 102 [75]%N = Error RuntimeError /\
  (* a module that includes itself, and a dangling include index: the cap, resp. "not found" — never OutOfFuel *)
  integer_const [mkModule [] [] [0] false] 0 [75]%N = Error RuntimeError /\
  integer_const [mkModule [] [] [5] false] 0 [75]%N = Error AttributeError.
Proof. vm_compute. repeat split; reflexivity. Qed.

(* non-vacuity of the headline sharing theorem and of C34_recompiled_world_closed: a <- b <- c built by two
   FFI.include steps; every hypothesis of C34_included_struct_is_the_same_object holds for the emitted modules
   (closed by the bridge theorem), and its conclusion is the computed answer *)
Example C34_closed_nonvacuous :
  let S := [115]%N in
  let w0 := [mkFFI (mkParser [(ex_s 115, (1, 0)); (ex_t 116, (2, 0))]%N [] []) [];
             mkFFI (mkParser [(ex_s 98, (3, 0))]%N [] []) [];
             mkFFI (mkParser [] [] []) []] in
  let w1 := fst (api_include w0 1 0) in
  let w2 := fst (api_include w1 2 1) in
  let w := map module_of w2 in
  built w2 /\ closed w S /\ wf_world w /\ gen_external_iff_included = true /\
  w = [mkModule [mkS S false false] [] [] true;
       mkModule [mkS [98]%N false false; mkS S false true] [] [0] true;
       mkModule [mkS [98]%N false true; mkS S false true] [] [1] true] /\
  reach w 2 0 /\ defines w 0 0 S false /\ (forall j idx, defines w j idx S false -> j = 0) /\
  resolve_struct w 2 S false = Found (0, 0) /\ resolve_structG w 2 S false = Found (0, 0).
Proof.
intros S w0 w1 w2 w.
assert (Hb : built w2).
{ apply (built_include w1 2 1); [apply (built_include w0 1 0); [apply built_init| |]| |];
    try (vm_compute; reflexivity); try (apply not_included_yet_b; vm_compute; reflexivity).
  intros k fk H. do 3 (destruct k as [|k]; [now inversion H|]). now destruct k. }
split; [exact Hb|]. split; [exact (C34_recompiled_world_closed _ Hb _)|].
(* from here on the emitted world is the list computed once *)
assert (Ew : w = [mkModule [mkS S false false] [] [] true;
                  mkModule [mkS [98]%N false false; mkS S false true] [] [0] true;
                  mkModule [mkS [98]%N false true; mkS S false true] [] [1] true]) by (vm_compute; reflexivity).
clearbody w. clear Hb. subst w.
split.
{ intros i m H. do 3 (destruct i as [|i]; [injection H as <-; cbn [includes]; repeat constructor|]). now destruct i. }
split; [reflexivity|]. split; [reflexivity|].
split.
{ eapply reach_trans; [reflexivity|left; reflexivity|]. eapply reach_step; [reflexivity|left; reflexivity]. }
split.
{ eexists _, _. repeat split; reflexivity. }
split.
{ intros j idx (mj & s & Hn & Hf & He & Hu).
  do 3 (destruct j as [|j]; [try reflexivity; injection Hn as <-; cbn in Hf; injection Hf as <- <-;
                             discriminate He|]).
  now destruct j. }
split; vm_compute; reflexivity.
Qed.

(* what a changed row means (the world of seed C34-c: a <- b <- c, b declares no global of its own): with the
   row of the current source c finds a's constant; with an extra early `return NULL` in front of
   ffi_fetch_int_constant's delegation (a row the regeneration would emit, and C34_gen_rows_as_modelled reject)
   the constant is hidden *)
Example C34_early_exit_row_hides_constants :
  let w := [mkModule [] [([75]%N, GInt 7)] [] false; mkModule [] [] [0] false; mkModule [] [] [1] false] in
  const_with_row gen_row_const w 2 [75]%N = Found 7%Z /\ integer_constG w 2 [75]%N = Found 7%Z /\
  const_with_row row_with_early_exit w 2 [75]%N = NotFound.
Proof. vm_compute. repeat split; reflexivity. Qed.
