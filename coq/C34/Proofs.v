(* C34 — Parser.include keeps object identities (declare / include_decls / include_consts, then parser_include);
   the delegating lookups of generated modules are "first hit in depth-first preorder" on acyclic include graphs,
   and a few facts about them hold on any world. *)
From Coq Require Import NArith ZArith List Bool Arith Lia.
From Cffi Require Import Base.ListFacts C34.Gen C34.Model.
Import ListNotations.

Lemma str_eqb_eq : forall a b, str_eqb a b = true <-> a = b.
Proof. exact nlist_eqb_eq. Qed.

Lemma str_eqb_refl : forall a, str_eqb a a = true.
Proof. exact nlist_eqb_refl. Qed.

Lemma str_eq_dec : forall a b : str, {a = b} + {a <> b}.
Proof. exact (list_eq_dec N.eq_dec). Qed.

Lemma lookup_dict_set_same : forall V k (v : V) l, lookup k (dict_set k v l) = Some v.
Proof.
induction l as [|[k' v'] l IH]; cbn.
- now rewrite str_eqb_refl.
- destruct (str_eqb k k') eqn:E; cbn; [now rewrite str_eqb_refl|now rewrite E].
Qed.

Lemma lookup_dict_set_other : forall V k k' (v : V) l, k' <> k -> lookup k' (dict_set k v l) = lookup k' l.
Proof.
induction l as [|[k2 v2] l IH]; intros Hne; cbn.
- destruct (str_eqb k' k) eqn:E; auto. apply str_eqb_eq in E. congruence.
- destruct (str_eqb k k2) eqn:E; cbn.
  + apply str_eqb_eq in E. subst k2.
    destruct (str_eqb k' k) eqn:E2; auto. apply str_eqb_eq in E2. congruence.
  + destruct (str_eqb k' k2); auto.
Qed.

Lemma lookup_in : forall V (l : list (str * V)) k v, NoDup (map fst l) -> In (k, v) l -> lookup k l = Some v.
Proof.
induction l as [|[k' v'] l IH]; intros k v Hnd Hin; [destruct Hin|].
destruct Hin as [Hin|Hin]; cbn.
- inversion Hin; subst. now rewrite str_eqb_refl.
- inversion Hnd; subst. destruct (str_eqb k k') eqn:E.
  + apply str_eqb_eq in E. subst. exfalso. apply H1. change k' with (fst (k', v)). now apply in_map.
  + auto.
Qed.

Lemma lookup_some_in : forall V (l : list (str * V)) k v, lookup k l = Some v -> In (k, v) l.
Proof.
induction l as [|[k' v'] l IH]; intros k v; cbn; [discriminate|].
destruct (str_eqb k k') eqn:E; auto. apply str_eqb_eq in E. intros H; inversion H; subst. auto.
Qed.

Lemma lookup_none : forall V nm (l : list (str * V)), lookup nm l = None -> ~ In nm (map fst l).
Proof.
induction l as [|[k v] l IH]; cbn [lookup map In fst]; [tauto|].
destruct (str_eqb nm k) eqn:E; [discriminate|]. intros H [->|Hin]; [now rewrite str_eqb_refl in E|exact (IH H Hin)].
Qed.

Lemma existsb_set_add : forall o x s, existsb (N.eqb o) (set_add x s) = N.eqb o x || existsb (N.eqb o) s.
Proof.
intros o x s. unfold set_add. destruct (existsb (N.eqb x) s) eqn:E.
- destruct (N.eqb_spec o x) as [->|]; [now rewrite E|reflexivity].
- rewrite existsb_app. cbn. rewrite orb_false_r. apply orb_comm.
Qed.

Lemma declare_inv : forall p name obj q inc p',
  declare false p name obj q inc = inl p' ->
  lookup name (decls p) = Some (obj, q) /\ p' = p \/
  lookup name (decls p) = None /\
  p' = mkParser (dict_set name (obj, q) (decls p)) (consts p)
                (if inc then set_add obj (incl_decls p) else incl_decls p).
Proof.
intros p name obj q inc p'. unfold declare.
destruct (lookup name (decls p)) as [[po pq]|]; [|intros [= <-]; auto].
destruct (N.eqb po obj && N.eqb pq q) eqn:E; [|discriminate].
apply andb_prop in E. destruct E as [E1 E2]. apply N.eqb_eq in E1, E2. subst.
intros [= <-]; auto.
Qed.

Lemma declare_same : forall ov p name obj q inc,
  lookup name (decls p) = Some (obj, q) -> declare ov p name obj q inc = inl p.
Proof. intros ov p name obj q inc H. unfold declare. now rewrite H, !N.eqb_refl. Qed.

Lemma declare_ok : forall p name obj q inc p',
  declare false p name obj q inc = inl p' ->
  lookup name (decls p') = Some (obj, q) /\
  consts p' = consts p /\
  (forall n v, lookup n (decls p) = Some v -> lookup n (decls p') = Some v) /\
  (forall n, n <> name -> lookup n (decls p') = lookup n (decls p)).
Proof.
intros p name obj q inc p' H. destruct (declare_inv _ _ _ _ _ _ H) as [[Hl ->]|[Hl ->]]; cbn; auto.
split; [apply lookup_dict_set_same|]. split; auto. split.
- intros n v Hn. destruct (str_eq_dec n name) as [->|Hne]; [congruence|]. now rewrite lookup_dict_set_other.
- intros n Hne. now apply lookup_dict_set_other.
Qed.

Lemma declare_err : forall p name obj q inc e,
  declare false p name obj q inc = inr e ->
  exists v, lookup name (decls p) = Some v /\ v <> (obj, q).
Proof.
intros p name obj q inc e. unfold declare.
destruct (lookup name (decls p)) as [[po pq]|] eqn:El; [|discriminate].
destruct (N.eqb po obj && N.eqb pq q) eqn:E; [discriminate|]. intros _.
exists (po, pq). split; auto. intros H; inversion H; subst. now rewrite !N.eqb_refl in E.
Qed.

(* _declare(..., included=True): _included_declarations only grows, and every binding is an earlier binding
   or binds an object that is in the set *)
Lemma declare_marks : forall p name obj q p',
  declare false p name obj q true = inl p' ->
  (forall o, existsb (N.eqb o) (incl_decls p) = true -> existsb (N.eqb o) (incl_decls p') = true) /\
  (forall n v, lookup n (decls p') = Some v ->
               lookup n (decls p) = Some v \/ existsb (N.eqb (fst v)) (incl_decls p') = true).
Proof.
intros p name obj q p' H. destruct (declare_inv _ _ _ _ _ _ H) as [[Hl ->]|[Hl ->]]; cbn; auto.
split.
- intros o Ho. now rewrite existsb_set_add, Ho, orb_true_r.
- intros n v Hn. destruct (str_eq_dec n name) as [->|Hne].
  + rewrite lookup_dict_set_same in Hn. inversion Hn. right. cbn. now rewrite existsb_set_add, N.eqb_refl.
  + rewrite lookup_dict_set_other in Hn; auto.
Qed.

(* the loop of Parser.include acts on the copied names only *)
Lemma include_decls_cons : forall self name tp quals rest,
  include_decls self ((name, (tp, quals)) :: rest) =
  if copied name then
    match declare false self name tp quals true with
    | inl self' => include_decls self' rest
    | inr e => (self, Some e)
    end
  else include_decls self rest.
Proof.
intros. cbn [include_decls]. unfold copied.
destruct (startswith include_skip_prefix name); [reflexivity|]. now destruct (copied_kind name).
Qed.

Lemma include_decls_ok : forall items self self',
  include_decls self items = (self', None) ->
  consts self' = consts self /\
  (forall n v, lookup n (decls self) = Some v -> lookup n (decls self') = Some v) /\
  (forall n o q, In (n, (o, q)) items -> copied n = true -> lookup n (decls self') = Some (o, q)) /\
  (forall n, lookup n (decls self) = None ->
             (forall o q, In (n, (o, q)) items -> copied n = false) -> lookup n (decls self') = None).
Proof.
induction items as [|[name [tp quals]] rest IH]; intros self self' H.
- injection H as <-. split; [reflexivity|]. split; [auto|]. split; [intros n o q []|auto].
- rewrite include_decls_cons in H. destruct (copied name) eqn:Ec.
  + destruct (declare false self name tp quals true) as [s1|e] eqn:Ed; [|discriminate].
    destruct (declare_ok _ _ _ _ _ _ Ed) as (B & C1 & M1 & O1).
    destruct (IH _ _ H) as (C & M & S & F). split; [congruence|]. split; [|split].
    * intros n v Hn. apply M, M1, Hn.
    * intros n o q [Hin|Hin] Hc; [|exact (S n o q Hin Hc)]. injection Hin as -> -> ->. apply M, B.
    * intros n Hn Hall. apply F.
      -- destruct (str_eq_dec n name) as [->|Hne]; [|now rewrite O1].
         rewrite (Hall tp quals (or_introl eq_refl)) in Ec. discriminate.
      -- intros o q Hin. apply (Hall o q). now right.
  + destruct (IH _ _ H) as (C & M & S & F). split; [exact C|]. split; [exact M|]. split.
    * intros n o q [Hin|Hin] Hc; [|exact (S n o q Hin Hc)]. injection Hin as -> -> ->. congruence.
    * intros n Hn Hall. apply F; [exact Hn|]. intros o q Hin. apply (Hall o q). now right.
Qed.

Lemma include_decls_marks : forall items self self',
  include_decls self items = (self', None) ->
  (forall o, existsb (N.eqb o) (incl_decls self) = true -> existsb (N.eqb o) (incl_decls self') = true) /\
  (forall n v, lookup n (decls self') = Some v ->
               lookup n (decls self) = Some v \/ existsb (N.eqb (fst v)) (incl_decls self') = true).
Proof.
induction items as [|[name [tp quals]] rest IH]; intros self self' H.
- inversion H; subst. auto.
- rewrite include_decls_cons in H. destruct (copied name); [|eauto].
  destruct (declare false self name tp quals true) as [s1|e] eqn:Ed; [|discriminate].
  destruct (declare_marks _ _ _ _ _ Ed) as (G1 & P1). destruct (IH _ _ H) as (G & P). split; [auto|].
  intros n v Hn. destruct (P n v Hn) as [Hn1|]; [|auto]. destruct (P1 n v Hn1); auto.
Qed.

Lemma include_decls_noop : forall items self,
  (forall n o q, In (n, (o, q)) items -> copied n = true -> lookup n (decls self) = Some (o, q)) ->
  include_decls self items = (self, None).
Proof.
induction items as [|[name [tp quals]] rest IH]; intros self H; [reflexivity|].
rewrite include_decls_cons. destruct (copied name) eqn:Ec.
- rewrite declare_same by (apply H; cbn; auto). apply IH. intros n o q Hin. apply H. now right.
- apply IH. intros n o q Hin. apply H. now right.
Qed.

Lemma add_constants_ok : forall p k v p', add_constants p k v = inl p' ->
  lookup k (consts p') = Some v /\ decls p' = decls p /\ incl_decls p' = incl_decls p /\
  (forall n x, lookup n (consts p) = Some x -> lookup n (consts p') = Some x).
Proof.
intros p k v p'. unfold add_constants. destruct (lookup k (consts p)) as [x|] eqn:El.
- destruct (Z.eqb x v) eqn:E; [|discriminate]. intros H; inversion H; subst. apply Z.eqb_eq in E. subst. auto.
- intros H; inversion H; subst. cbn. split; [apply lookup_dict_set_same|]. do 2 (split; auto).
  intros n x Hn. destruct (str_eq_dec n k) as [->|Hne]; [congruence|]. now rewrite lookup_dict_set_other.
Qed.

Lemma include_consts_ok : forall items self self',
  include_consts self items = (self', None) ->
  decls self' = decls self /\ incl_decls self' = incl_decls self /\
  (forall n x, lookup n (consts self) = Some x -> lookup n (consts self') = Some x) /\
  (forall k v, In (k, v) items -> lookup k (consts self') = Some v).
Proof.
induction items as [|[k v] rest IH]; intros self self' H; cbn [include_consts] in H.
- inversion H; subst. repeat split; auto. intros ? ? [].
- destruct (add_constants self k v) as [s1|e] eqn:Ea; [|discriminate].
  destruct (add_constants_ok _ _ _ _ Ea) as (B & D & I & M1). destruct (IH _ _ H) as (D2 & I2 & M & S).
  repeat split.
  + congruence.
  + congruence.
  + intros n x Hn. apply M, M1, Hn.
  + intros k' v' [Hin|Hin]; [|eauto]. inversion Hin; subst. apply M, B.
Qed.

Lemma include_consts_noop : forall items self,
  (forall k v, In (k, v) items -> lookup k (consts self) = Some v) -> include_consts self items = (self, None).
Proof.
induction items as [|[k v] rest IH]; intros self H; [reflexivity|]. cbn [include_consts].
unfold add_constants. rewrite (H k v), Z.eqb_refl by (cbn; auto). apply IH. intros k' v' Hin. apply H. now right.
Qed.

Lemma parser_include_shares : forall self other self',
  parser_include self other = (self', None) ->
  (forall n o q, In (n, (o, q)) (decls other) -> copied n = true -> lookup n (decls self') = Some (o, q)) /\
  (forall k v, In (k, v) (consts other) -> lookup k (consts self') = Some v) /\
  (forall n v, lookup n (decls self) = Some v -> lookup n (decls self') = Some v) /\
  (forall k v, lookup k (consts self) = Some v -> lookup k (consts self') = Some v) /\
  (forall n, lookup n (decls self) = None ->
             (forall o q, In (n, (o, q)) (decls other) -> copied n = false) -> lookup n (decls self') = None).
Proof.
intros self other self'. unfold parser_include.
destruct (include_decls self (decls other)) as [s1 [e|]] eqn:E1; [discriminate|].
intros E2. destruct (include_decls_ok _ _ _ E1) as (C1 & M1 & S1 & F1).
destruct (include_consts_ok _ _ _ E2) as (D2 & _ & M2 & S2).
rewrite D2. repeat split; auto. intros k v Hk. apply M2. now rewrite C1.
Qed.

Lemma parser_include_noop : forall self other,
  (forall n o q, In (n, (o, q)) (decls other) -> copied n = true -> lookup n (decls self) = Some (o, q)) ->
  (forall k v, In (k, v) (consts other) -> lookup k (consts self) = Some v) ->
  parser_include self other = (self, None).
Proof.
intros self other Hd Hc. unfold parser_include. rewrite include_decls_noop by exact Hd.
now apply include_consts_noop.
Qed.

(* preorder with the pruning predicate of the search *)
Fixpoint preorder_d (descend : nat -> module -> bool) (fuel : nat) (w : world) (included : list nat) : list nat :=
  match fuel with
  | O => []
  | S f => flat_map (fun i => i :: match nth_error w i with
                                   | Some m1 => if descend i m1 then preorder_d descend f w (includes m1) else []
                                   | None => [] end) included
  end.

Lemma preorder_d_true : forall fuel w l, preorder_d (fun _ _ => true) fuel w l = preorder fuel w l.
Proof.
induction fuel; intros; cbn [preorder_d preorder]; auto.
apply flat_map_ext. intros i. destruct (nth_error w i); auto. now rewrite IHfuel.
Qed.

Lemma includes_below : forall w i m k, wf_world w -> nth_error w i = Some m -> i <= k ->
  Forall (fun j => j < k) (includes m).
Proof. intros w i m k Hwf En Hi. eapply Forall_impl; [|exact (Hwf i m En)]. cbn. intros; lia. Qed.

Lemma includes_lt : forall w m md, wf_world w -> nth_error w m = Some md -> Forall (fun i => i < m) (includes md).
Proof. intros w m md H E. exact (includes_below w m md m H E (le_n m)). Qed.

(* ffi.integer_const / lib attributes turn the "not found" of the search into an exception *)
Lemma or_else_error : forall A (x : fres A) d e,
  match x with Found a => Found a | NotFound => Error d | Error e' => Error e' end = Error e ->
  e = d \/ x = Error e.
Proof. intros A [a| |e0] d e H; inversion H; auto. Qed.

Section FirstHit.
  Context {A : Type}.
  Variable own : nat -> module -> option (fres A).

  Lemma first_hit_origin : forall w l x, first_hit own w l = x -> x <> NotFound ->
    exists i m1, In i l /\ nth_error w i = Some m1 /\ own i m1 = Some x.
  Proof.
  induction l as [|i l IH]; intros x H Hx; cbn [first_hit] in H; [congruence|].
  destruct (nth_error w i) as [m1|] eqn:En; [destruct (own i m1) as [y|] eqn:Eo|].
  1: subst y; exists i, m1; cbn; auto.
  all: destruct (IH _ H Hx) as (j & m2 & ? & ? & ?); exists j, m2; cbn; auto.
  Qed.

  Lemma first_hit_found : forall w l x, first_hit own w l = Found x ->
    exists i m1, In i l /\ nth_error w i = Some m1 /\ own i m1 = Some (Found x).
  Proof. intros w l x H. apply (first_hit_origin w l _ H). discriminate. Qed.

  Hypothesis own_stops : forall i m, own i m <> Some NotFound.

  Lemma first_hit_app : forall w a b,
    first_hit own w (a ++ b) =
    match first_hit own w a with NotFound => first_hit own w b | r => r end.
  Proof.
  induction a as [|i a IH]; intros b; cbn [first_hit app]; auto.
  destruct (nth_error w i) as [m1|]; auto.
  destruct (own i m1) as [x|] eqn:E; auto.
  destruct x; auto. exfalso. eapply own_stops; eauto.
  Qed.

  Lemma first_hit_notfound : forall w l, first_hit own w l = NotFound <->
    (forall i m1, In i l -> nth_error w i = Some m1 -> own i m1 = None).
  Proof.
  intros w l. split.
  - induction l as [|i l IH]; cbn [first_hit]; intros H j m2 Hj Hn; [destruct Hj|].
    destruct Hj as [<-|Hj].
    + rewrite Hn in H. destruct (own i m2) as [y|] eqn:Eo; [subst y; elim (own_stops _ _ Eo)|reflexivity].
    + apply (fun H' => IH H' j m2 Hj Hn). destruct (nth_error w i) as [m1|]; [|exact H].
      destruct (own i m1) as [y|] eqn:Eo; [subst y; elim (own_stops _ _ Eo)|exact H].
  - (* an answer would be some visited module's own *)
    intros H. destruct (first_hit own w l) as [a| |e] eqn:E; [|reflexivity|];
      apply first_hit_origin in E as (i & m1 & Hi & Hn & Ho); try discriminate; rewrite (H i m1 Hi Hn) in Ho; discriminate.
  Qed.
End FirstHit.

Section DFSProofs.
  Context {A : Type}.
  Variable own : nat -> module -> option (fres A).
  Variable descend : nat -> module -> bool.
  Hypothesis own_stops : forall i m, own i m <> Some NotFound.

  (* the loop: first hit over the visited modules, each followed by what its recursive call goes through *)
  Lemma dfs_loop_first_hit : forall rc (sub : module -> list nat) w l,
    (forall i m1, In i l -> nth_error w i = Some m1 -> rc (includes m1) = first_hit own w (sub m1)) ->
    dfs_loop own descend rc w l =
    first_hit own w (flat_map (fun i => i :: match nth_error w i with
                                             | Some m1 => if descend i m1 then sub m1 else []
                                             | None => [] end) l).
  Proof.
  intros rc sub w. induction l as [|i l IHl]; intros Hrc; [reflexivity|].
  assert (IHl' := IHl (fun j m1 Hj => Hrc j m1 (or_intror Hj))).
  cbn [flat_map dfs_loop app first_hit].
  destruct (nth_error w i) as [m1|] eqn:En; [|exact IHl'].
  destruct (own i m1) as [x|] eqn:Eo; [reflexivity|].
  destruct (descend i m1); [|exact IHl'].
  rewrite (first_hit_app own own_stops), (Hrc i m1 (or_introl eq_refl) En), IHl'.
  now destruct (first_hit own w (sub m1)).
  Qed.

  (* k bounds the module numbers in [included], hence (wf_world) the depth still to go; f and fp are the fuels of
     the search and of the preorder, both enough for that depth; r + k <= 101 keeps the recursion cap away *)
  Lemma dfs_first_hit : forall k w, wf_world w ->
    forall f fp included r,
    Forall (fun i => i < k) included -> k < f -> k <= fp -> r + k <= 101 ->
    dfs own descend f w included r = first_hit own w (preorder_d descend fp w included).
  Proof.
  induction k as [|k IH]; intros w Hwf f fp included r Hinc Hf Hfp Hr.
  - destruct included as [|i l]; [|inversion Hinc; lia].
    destruct f; [lia|]. now destruct fp.
  - destruct f as [|f]; [lia|]. destruct fp as [|fp]; [lia|].
    cbn [dfs preorder_d].
    destruct included as [|i0 l0]; [reflexivity|].
    replace (100 <? r) with false by (symmetry; apply Nat.ltb_ge; lia).
    apply dfs_loop_first_hit. intros i m1 Hi En. rewrite Forall_forall in Hinc. specialize (Hinc i Hi).
    apply IH; auto; try lia. eapply includes_below; eauto. lia.
  Qed.

  (* the search of a lookup, with the model's fuel, from a module of an acyclic world of depth <= 100 *)
  Lemma dfs_cap_first_hit : forall w m md, wf_world w -> m <= 100 -> nth_error w m = Some md ->
    dfs own descend cap_fuel w (includes md) 0 = first_hit own w (preorder_d descend m w (includes md)).
  Proof.
  intros w m md Hwf Hm En. apply (dfs_first_hit m); auto; unfold cap_fuel; lia.
  Qed.

End DFSProofs.

(* j is a transitive include of i *)
Inductive reach (w : world) : nat -> nat -> Prop :=
  | reach_step : forall i m j, nth_error w i = Some m -> In j (includes m) -> reach w i j
  | reach_trans : forall i m j k, nth_error w i = Some m -> In j (includes m) -> reach w j k -> reach w i k.

Lemma reach_includes : forall w i m x, nth_error w i = Some m ->
  (reach w i x <-> In x (includes m) \/ exists j, In j (includes m) /\ reach w j x).
Proof.
intros w i m x En. split.
- intros H. inversion H as [? m' ? En'|? m' ? ? En']; subst; rewrite En in En'; inversion En'; subst; eauto.
- intros [Hx|(j & Hj & Hr)]; [eapply reach_step|eapply reach_trans]; eauto.
Qed.

Lemma reach_lt : forall w i j, wf_world w -> reach w i j -> j < i.
Proof.
intros w i j Hwf Hr. induction Hr as [i m j En Hj|i m j k En Hj _ IH];
  pose proof (proj1 (Forall_forall _ _) (Hwf i m En) j Hj) as H; cbn beta in H; lia.
Qed.

(* what the (pruned) preorder lists is reached from the tuple: any world, any fuel *)
Lemma preorder_d_reach : forall descend fp w included x, In x (preorder_d descend fp w included) ->
  In x included \/ exists j, In j included /\ reach w j x.
Proof.
induction fp as [|fp IH]; intros w included x H; [destruct H|]. cbn [preorder_d] in H.
apply in_flat_map in H. destruct H as (i & Hi & [<-|Hx]); [auto|]. right. exists i. split; [exact Hi|].
destruct (nth_error w i) as [m1|] eqn:En; [|destruct Hx]. destruct (descend i m1); [|destruct Hx].
apply (reach_includes w i m1 x En), IH, Hx.
Qed.

(* ... and it lists every reached module with a property P that is inherited by the including module and makes the
   search descend: P = True for the unpruned preorder, "has an entry" for the struct search (pruned_preorder_complete).
   k bounds the module numbers of the tuple, hence (wf_world) the depth still to go. *)
Lemma preorder_d_complete : forall descend (P : nat -> Prop) w, wf_world w ->
  (forall i j, reach w i j -> P j -> P i) ->
  (forall i mi, nth_error w i = Some mi -> P i -> descend i mi = true) ->
  forall k fp included x, Forall (fun i => i < k) included -> k <= fp -> P x ->
  (In x included \/ exists j, In j included /\ reach w j x) ->
  In x (preorder_d descend fp w included).
Proof.
intros descend P w Hwf Hup Hdesc. induction k as [|k IH]; intros fp included x Hinc Hfp Hx Hr.
- destruct included; [destruct Hr as [[]|(i & [] & _)]|inversion Hinc; lia].
- destruct fp as [|fp]; [lia|]. cbn [preorder_d]. rewrite in_flat_map.
  destruct Hr as [Hr|(i & Hi & Hr)]; [exists x; cbn; auto|].
  exists i. split; [exact Hi|]. right.
  rewrite Forall_forall in Hinc. specialize (Hinc i Hi).
  assert (exists m, nth_error w i = Some m) as (m & En) by (inversion Hr; eauto).
  rewrite En, (Hdesc i m En (Hup i x Hr Hx)).
  apply IH; auto; [|lia|now apply (reach_includes w i m)]. eapply includes_below; eauto. lia.
Qed.

Lemma const_own_stops : forall nm i m, const_own nm i m <> Some NotFound.
Proof. intros nm i m. unfold const_own. destruct (lookup nm (globals m)) as [[v|]|]; discriminate. Qed.

Lemma const_own_none : forall nm i m, const_own nm i m = None <-> lookup nm (globals m) = None.
Proof. intros nm i m. unfold const_own. destruct (lookup nm (globals m)) as [[v|]|]; split; congruence. Qed.

Lemma const_own_error : forall nm i m e, const_own nm i m = Some (Error e) ->
  e = FFIError /\ lookup nm (globals m) = Some GOther.
Proof.
intros nm i m e. unfold const_own. destruct (lookup nm (globals m)) as [[v|]|]; try discriminate.
intros H; inversion H; auto.
Qed.

Lemma struct_own_stops : forall nm un i m, struct_own nm un i m <> Some NotFound.
Proof.
intros. unfold struct_own. destruct (find_struct nm (structs m) 0) as [[sidx s1]|]; [|discriminate].
destruct (negb (s_external s1) && Bool.eqb (s_union s1) un); discriminate.
Qed.

Lemma struct_own_never_error : forall nm un i m e, struct_own nm un i m <> Some (Error e).
Proof.
intros. unfold struct_own. destruct (find_struct nm (structs m) 0) as [[a b]|]; [|discriminate].
destruct (negb (s_external b) && Bool.eqb (s_union b) un); discriminate.
Qed.

(* module j holds the definition (non-external entry of that kind) of struct/union nm at index idx *)
Definition defines (w : world) (j idx : nat) (nm : str) (un : bool) : Prop :=
  exists mj s, nth_error w j = Some mj /\ find_struct nm (structs mj) 0 = Some (idx, s) /\
               s_external s = false /\ s_union s = un.

(* module j has an entry of that name, external or not (what struct_descend tests) *)
Definition has_entry (w : world) (j : nat) (nm : str) : Prop :=
  exists mj, nth_error w j = Some mj /\ find_struct nm (structs mj) 0 <> None.

Lemma defines_intro : forall w j mj nm un idx s, nth_error w j = Some mj ->
  find_struct nm (structs mj) 0 = Some (idx, s) -> s_external s = false -> Bool.eqb (s_union s) un = true ->
  defines w j idx nm un.
Proof. intros w j mj nm un idx s En Ef Ee Eu. exists mj, s. repeat split; auto. now apply eqb_prop. Qed.

Lemma struct_own_found : forall w nm un i m1 d, nth_error w i = Some m1 ->
  struct_own nm un i m1 = Some (Found d) -> defines w (fst d) (snd d) nm un.
Proof.
intros w nm un i m1 d En. unfold struct_own.
destruct (find_struct nm (structs m1) 0) as [[sidx s1]|] eqn:Ef; [|discriminate].
destruct (s_external s1) eqn:Ee; cbn [negb andb]; [discriminate|].
destruct (Bool.eqb (s_union s1) un) eqn:Eu; [|discriminate].
intros H. inversion H; subst. eapply defines_intro; eauto.
Qed.

Lemma fetch_external_first_hit : forall w m md nm un, wf_world w -> m <= 100 -> nth_error w m = Some md ->
  fetch_external w m nm un =
  first_hit (struct_own nm un) w (preorder_d (struct_descend nm) m w (includes md)).
Proof.
intros w m md nm un Hwf Hm En. unfold fetch_external. rewrite En.
now apply dfs_cap_first_hit; [apply struct_own_stops|..].
Qed.

(* the invariant the recompiler maintains: a module re-declares (as external entries) the structs and
   unions of the modules it includes *)
Definition closed (w : world) (nm : str) : Prop :=
  forall i mi j, nth_error w i = Some mi -> In j (includes mi) -> has_entry w j nm -> has_entry w i nm.

Lemma reach_has_entry : forall w nm i j, closed w nm -> reach w i j -> has_entry w j nm -> has_entry w i nm.
Proof. intros w nm i j Hc Hr. induction Hr; intros He; eauto. Qed.

Lemma descend_of_entry : forall w nm i mi, nth_error w i = Some mi -> has_entry w i nm ->
  struct_descend nm i mi = true.
Proof.
intros w nm i mi En (m' & En' & Hf). rewrite En in En'. inversion En'; subst.
unfold struct_descend. destruct (find_struct nm (structs m') 0); auto; try now elim Hf.
Qed.

Lemma pruned_preorder_complete : forall nm k w, wf_world w -> closed w nm -> forall fp included j,
  Forall (fun i => i < k) included -> k <= fp -> has_entry w j nm ->
  (In j included \/ exists i, In i included /\ reach w i j) ->
  In j (preorder_d (struct_descend nm) fp w included).
Proof.
intros nm k w Hwf Hc. apply (preorder_d_complete _ (fun i => has_entry w i nm) w Hwf).
- intros i j. now apply reach_has_entry.
- apply descend_of_entry.
Qed.

Lemma lib_own_stops : forall nm i m, lib_own nm i m <> Some NotFound.
Proof.
intros. unfold lib_own. destruct (has_lib m); destruct (lookup nm (globals m)) as [[v|]|]; discriminate.
Qed.

Section DFSAnyWorld.
  Context {A : Type}.
  Variable own : nat -> module -> option (fres A).
  Variable descend : nat -> module -> bool.

  Lemma dfs_loop_cases : forall rc w l r, dfs_loop own descend rc w l = r ->
    r = NotFound \/
    exists i m1, In i l /\ nth_error w i = Some m1 /\
      (own i m1 = Some r \/ own i m1 = None /\ rc (includes m1) = r /\ r <> NotFound).
  Proof.
  induction l as [|i l IH]; intros r H; cbn [dfs_loop] in H; [now left|].
  destruct (nth_error w i) as [m1|] eqn:En.
  1: destruct (own i m1) as [x|] eqn:Eo; [subst; right; exists i, m1; cbn; auto|].
  1: destruct (descend i m1).
  1: destruct (rc (includes m1)) as [a| |e] eqn:Er.
  1, 3: subst; right; exists i, m1; split; [now left|]; split; [exact En|]; right; repeat split; auto; discriminate.
  (* in every other case the loop goes on with the rest of the tuple *)
  all: destruct (IH r H) as [?|(j & m2 & ? & ?)]; [now left|right; exists j, m2; cbn; auto].
  Qed.

  (* every outcome of the search other than "not found" is some module's own answer, the RuntimeError of the cap, or
     the model's own OutOfFuel, and that one only when the fuel is short of the cap: fuel + recursion < 102.
     No hypothesis on the world. *)
  Lemma dfs_origin : forall f w included r x, dfs own descend f w included r = x -> x <> NotFound ->
    x = Error RuntimeError \/ (x = Error OutOfFuel /\ (r <= 101 -> f + r < 102)) \/
    exists i m1, nth_error w i = Some m1 /\ own i m1 = Some x.
  Proof.
  induction f as [|f IH]; intros w included r x H Hx; cbn [dfs] in H.
  - subst. right. left. split; [reflexivity|lia].
  - destruct included as [|i0 l0]; [congruence|].
    destruct (100 <? r) eqn:Ec; [subst; auto|]. apply Nat.ltb_ge in Ec.
    destruct (dfs_loop_cases _ _ _ _ H) as [?|(i & m1 & _ & En & [Eo|(_ & Er & _)])].
    + congruence.
    + right. right. eauto.
    + destruct (IH _ _ _ _ Er Hx) as [?|[(? & Hf)|?]]; auto. right. left. split; [assumption|lia].
  Qed.

  (* so the recursion cap fires before the fuel runs out, whenever fuel + recursion >= 102 *)
  Lemma dfs_never_out_of_fuel :
    (forall i m, own i m <> Some (Error OutOfFuel)) ->
    forall f w included r, r <= 101 -> 102 <= f + r ->
    dfs own descend f w included r <> Error OutOfFuel.
  Proof.
  intros Hown f w included r Hr Hf H.
  destruct (dfs_origin _ _ _ _ _ H) as [X|[(_ & X)|(i & m1 & _ & Eo)]]; try discriminate.
  - specialize (X Hr). lia.
  - exact (Hown _ _ Eo).
  Qed.

  (* the lookups start with recursion = 0 and cap_fuel = 103 units *)
  Lemma dfs_cap_origin : forall w included x, dfs own descend cap_fuel w included 0 = x -> x <> NotFound ->
    x = Error RuntimeError \/ exists i m1, nth_error w i = Some m1 /\ own i m1 = Some x.
  Proof.
  intros w included x H Hx. destruct (dfs_origin _ _ _ _ _ H Hx) as [?|[(_ & X)|?]]; auto.
  unfold cap_fuel in X. lia.
  Qed.

  Lemma dfs_cap_fuel_suffices : (forall i m, own i m <> Some (Error OutOfFuel)) ->
    forall w included, dfs own descend cap_fuel w included 0 <> Error OutOfFuel.
  Proof. intros Hown w included. apply dfs_never_out_of_fuel; auto; unfold cap_fuel; lia. Qed.
End DFSAnyWorld.

Lemma const_own_no_fuel : forall nm i m, const_own nm i m <> Some (Error OutOfFuel).
Proof. intros nm i m H. now destruct (const_own_error _ _ _ _ H). Qed.

Lemma lib_own_no_fuel : forall nm i m, lib_own nm i m <> Some (Error OutOfFuel).
Proof. intros. unfold lib_own. destruct (has_lib m); destruct (lookup nm (globals m)) as [[v|]|]; discriminate. Qed.

