(* C34 — the regenerated rows of the three delegating searches (C34/Gen.v, from src/c/ffi_obj.c and
   src/c/lib_obj.c) are the searches of the model: every theorem of Props.v about resolve_struct /
   integer_const / lib_getattr is a theorem about resolve_structG / integer_constG / lib_getattrG, the
   functions that read their cap, guards, increment, passed-down tuple, miss action and flag masks from Gen.v.
   An edit of any of these in the C source changes a row and [gen_rows_as_modelled] stops checking. *)
From Coq Require Import NArith ZArith List Bool Arith Lia.
From Cffi Require Import C34.Gen C34.Model C34.Proofs.
Import ListNotations.

(* the rows the hand model (dfs, struct_own, const_own, lib_own of Model.v) stands for *)
Definition std_guards : list guard := [GNullTuple; GCap 100].
Definition op_constant_int : str :=   (* "_CFFI_OP_CONSTANT_INT" *)
  [95;67;70;70;73;95;79;80;95;67;79;78;83;84;65;78;84;95;73;78;84]%N.
Definition op_enum : str := [95;67;70;70;73;95;79;80;95;69;78;85;77]%N.   (* "_CFFI_OP_ENUM" *)

(* _fetch_external_struct_or_union: NULL tuple -> not found; recursion > 100 -> RuntimeError; `continue` when the
   included ffi has no entry; hit when (s1->flags & (EXTERNAL|UNION)) == (s->flags & UNION); otherwise the
   recursive call on ffi1's own included_ffis at recursion + 1 *)
Definition std_struct : search_row :=
  mkRow [] std_guards 1 1 DownItemIncludes MissContinue [FExternal; FUnion] [FUnion] [].
(* ffi_fetch_int_constant: NO early exit in front of the local lookup or of the delegation; _CFFI_OP_CONSTANT_INT and
   _CFFI_OP_ENUM answer with the value, any other op with FFIError; then the same loop *)
Definition std_const : search_row :=
  mkRow [] std_guards 1 1 DownItemIncludes MissContinue [] [] [op_constant_int; op_enum].
(* lib_build_and_cache_attr: no early exit (other than the UTF-8 conversion of the name); the loop runs over
   included_libs; both recursive calls at recursion + 1 *)
Definition std_lib : search_row :=
  mkRow [] std_guards 1 1 DownItemIncludes MissContinue [] [] [].

Lemma gen_rows_as_modelled : gen_search = [std_struct; std_const; std_lib].
Proof. reflexivity. Qed.

Lemma gen_rows_std : gen_row_struct = std_struct /\ gen_row_const = std_const /\ gen_row_lib = std_lib.
Proof. pose proof gen_rows_as_modelled as H. now inversion H. Qed.

Section Bridge.
  Context {A : Type}.
  Variable r : search_row.
  Hypothesis Hg : sr_guards r = std_guards.
  Hypothesis Hi : sr_inc r = 1.
  Hypothesis Hd : sr_down r = DownItemIncludes.
  Variables own own' : nat -> module -> option (fres A).
  Variables descend descend' : nat -> module -> bool.
  Hypothesis Hown : forall i m, own' i m = own i m.
  Hypothesis Hdesc : forall i m, descend' i m = descend i m.

  Lemma dfs_loopG_std : forall rc rc' w cur l, (forall inc, rc' inc = rc inc) ->
    dfs_loopG r own' descend' rc' w cur l = dfs_loop own descend rc w l.
  Proof.
  intros rc rc' w cur l Hrc. induction l as [|i l IH]; cbn [dfs_loopG dfs_loop]; [reflexivity|].
  destruct (nth_error w i) as [m1|]; [|exact IH].
  rewrite Hown, Hdesc, Hd, Hrc, IH. reflexivity.
  Qed.

  Lemma dfsG_std : forall f w included recursion,
    dfsG r own' descend' f w included recursion = dfs own descend f w included recursion.
  Proof.
  induction f as [|f IH]; intros w included recursion; cbn [dfsG dfs]; [reflexivity|].
  rewrite Hg. unfold std_guards. cbn [run_guards].
  destruct included as [|i0 l0]; cbn [is_nil]; [reflexivity|].
  destruct (100 <? recursion); [reflexivity|].
  apply dfs_loopG_std. intros inc. rewrite Hi, Nat.add_1_r. apply IH.
  Qed.
End Bridge.

Lemma struct_ownG_std : forall nm un i m, struct_ownG std_struct nm un i m = struct_own nm un i m.
Proof.
intros. unfold struct_ownG, struct_own, flag_test. cbn.
destruct (find_struct nm (structs m) 0) as [[sindex s1]|]; [|reflexivity].
destruct (s_external s1), (s_union s1), un; reflexivity.
Qed.

Lemma resolve_structG_eq : forall w m nm un, resolve_structG w m nm un = resolve_struct w m nm un.
Proof.
intros. unfold resolve_structG, resolve_struct, fetch_externalG, fetch_external. rewrite (proj1 gen_rows_std).
destruct (nth_error w m) as [md|]; [|reflexivity].
now rewrite (dfsG_std std_struct) with (own := struct_own nm un) (descend := struct_descend nm)
  by auto using struct_ownG_std.
Qed.

Lemma integer_constG_eq : forall w m nm, integer_constG w m nm = integer_const w m nm.
Proof.
intros. unfold integer_constG, integer_const, fetch_int_constant_fromG, fetch_int_constant_from.
rewrite (proj1 (proj2 gen_rows_std)).
destruct (nth_error w m) as [md|]; [|reflexivity]. cbn [pre_fires std_const sr_pre_exits is_nil negb].
now rewrite (dfsG_std std_const) with (own := const_own nm) (descend := fun _ _ => true) by reflexivity.
Qed.

Lemma lib_getattrG_eq : forall w m nm, lib_getattrG w m nm = lib_getattr w m nm.
Proof.
intros. unfold lib_getattrG, lib_getattr. rewrite (proj2 (proj2 gen_rows_std)).
destruct (nth_error w m) as [md|]; [|reflexivity]. cbn [pre_fires std_lib sr_pre_exits is_nil negb].
now rewrite (dfsG_std std_lib) with (own := lib_own nm) (descend := fun _ _ => true) by reflexivity.
Qed.

(* a row with one more early `return NULL` in front of ffi_fetch_int_constant's delegation, and the search for an
   integer constant read from any row (C34_early_exit_row_hides_constants) *)
Definition row_with_early_exit : search_row :=
  mkRow [[110]%N] std_guards 1 1 DownItemIncludes MissContinue [] [] [op_constant_int; op_enum].
Definition const_with_row (r : search_row) (w : world) (m : nat) (nm : str) : fres Z :=
  match nth_error w m with
  | None => NotFound
  | Some md =>
    if pre_fires r then NotFound else
    match const_own nm m md with
    | Some x => x
    | None => dfsG r (const_ownG r nm) (fun _ _ => negb (pre_fires r)) cap_fuel w (includes md) 0
    end
  end.
