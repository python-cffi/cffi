(* C34 — bridge from the in-line FFIs (FFI.include) to the modules the recompiler emits: the invariant [shares]
   over histories of FFI.include steps, and the struct_unions table of [module_of] (Recompiler._struct_ctx), from
   which C34_recompiled_world_closed gets the hypothesis [closed] of the sharing theorem. *)
From Coq Require Import NArith ZArith List Bool Arith Lia.
From Cffi Require Import C34.Gen C34.Model C34.Proofs.
Import ListNotations.

(* histories.  The FFIs start without includes (any declarations: cdef is not modelled, its effect on
   the declaration dict is arbitrary); every step is a successful FFI.include(self = i, j) on an FFI i that
   nobody has included yet (an FFI is completed before it is included elsewhere: what it gains afterwards
   would be missing from the FFIs that already copied its declarations). *)
Definition not_included_yet (w : list ffi) (i : nat) : Prop :=
  forall k fk, nth_error w k = Some fk -> ~ In i (included_ffis fk).

(* the boolean test of it, for concrete lists *)
Lemma not_included_yet_b : forall w i,
  forallb (fun f => negb (existsb (Nat.eqb i) (included_ffis f))) w = true -> not_included_yet w i.
Proof.
intros w i H k fk Hk Hin. rewrite forallb_forall in H. specialize (H fk (nth_error_In _ _ Hk)).
apply negb_true_iff in H. enough (existsb (Nat.eqb i) (included_ffis fk) = true) by congruence.
apply existsb_exists. exists i. split; [exact Hin|apply Nat.eqb_refl].
Qed.

Inductive built : list ffi -> Prop :=
  | built_init : forall w, (forall k fk, nth_error w k = Some fk -> included_ffis fk = []) -> built w
  | built_include : forall w i j w', built w -> not_included_yet w i ->
                    api_include w i j = (w', None) -> built w'.

(* the invariant: an including FFI binds every copied name of an FFI it includes to the same object *)
Definition shares (w : list ffi) : Prop :=
  forall i fi j fj, nth_error w i = Some fi -> In j (included_ffis fi) -> nth_error w j = Some fj ->
  forall n o q, In (n, (o, q)) (decls (fparser fj)) -> copied n = true ->
                lookup n (decls (fparser fi)) = Some (o, q).

Lemma nth_error_set_nth_eq : forall (X : Type) (l : list X) n x y,
  nth_error l n = Some y -> nth_error (set_nth n x l) n = Some x.
Proof.
induction l as [|a l IH]; intros [|n] x y H; cbn in *; try discriminate; auto. eapply IH; eauto.
Qed.

Lemma nth_error_set_nth_neq : forall (X : Type) (l : list X) n k x,
  n <> k -> nth_error (set_nth n x l) k = nth_error l k.
Proof.
induction l as [|a l IH]; intros [|n] [|k] x H; cbn; auto; try congruence.
Qed.

Lemma api_include_ok : forall w i j w', api_include w i j = (w', None) ->
  exists fi fj p', i <> j /\ nth_error w i = Some fi /\ nth_error w j = Some fj /\
    parser_include (fparser fi) (fparser fj) = (p', None) /\
    w' = set_nth i (mkFFI p' (included_ffis fi ++ [j])) w.
Proof.
intros w i j w'. unfold api_include.
destruct (Nat.eqb i j) eqn:Eij; [discriminate|]. apply Nat.eqb_neq in Eij.
destruct (nth_error w i) as [fi|]; [|discriminate]. destruct (nth_error w j) as [fj|]; [|discriminate].
destruct (parser_include (fparser fi) (fparser fj)) as [p' [e|]] eqn:Ep; [discriminate|].
intros H; inversion H. exists fi, fj, p'. auto.
Qed.

Lemma built_shares : forall w, built w -> shares w.
Proof.
induction 1 as [w H0|w i j w' Hb IH Hfree Hstep].
- intros i fi j fj Hi Hin. rewrite (H0 i fi Hi) in Hin. destruct Hin.
- destruct (api_include_ok _ _ _ _ Hstep) as (fi & fj & p' & Eij & Ei & Ej & Ep & ->).
  destruct (parser_include_shares _ _ _ Ep) as (S1 & _ & S3 & _).
  intros a fa b fb Ha Hin Hb' n o q Hd Hc.
  (* nobody includes i: the included FFI b is an unchanged one *)
  assert (Hbi : b <> i /\ (a <> i \/ fa = mkFFI p' (included_ffis fi ++ [j]))).
  { destruct (Nat.eq_dec a i) as [->|Hai].
    - rewrite (nth_error_set_nth_eq _ _ _ _ _ Ei) in Ha. inversion Ha; subst fa. split; auto.
      apply in_app_or in Hin. destruct Hin as [Hin|[<-|[]]]; [|auto]. intros ->. exact (Hfree i fi Ei Hin).
    - rewrite nth_error_set_nth_neq in Ha by congruence. split; auto. intros ->. exact (Hfree a fa Ha Hin). }
  destruct Hbi as [Hbi Hfa]. rewrite nth_error_set_nth_neq in Hb' by congruence.
  destruct Hfa as [Hai| ->].
  + rewrite nth_error_set_nth_neq in Ha by congruence. eapply IH; eauto.
  + cbn [included_ffis fparser] in *. apply in_app_or in Hin. destruct Hin as [Hin|[<-|[]]].
    * apply S3. eapply IH; eauto.
    * rewrite Ej in Hb'. inversion Hb'; subst fb. eapply S1; eauto.
Qed.

Lemma startswith_app : forall p s, startswith p s = true -> s = p ++ skipn (length p) s.
Proof.
induction p as [|x p IH]; intros s H; [reflexivity|].
destruct s as [|y s]; [discriminate|]. cbn in H. apply andb_prop in H. destruct H as [H1 H2].
apply N.eqb_eq in H1. subst y. cbn. f_equal. now apply IH.
Qed.

Lemma struct_name_copied : forall n nm un, struct_name n = Some (nm, un) -> copied n = true.
Proof.
intros n nm un. unfold struct_name.
destruct (startswith kw_struct n) eqn:E1.
- (* copied ("struct " ++ rest) evaluates to true with the kind table of Gen.v, whatever rest is *)
  intros _. rewrite (startswith_app _ _ E1). generalize (skipn (length kw_struct) n). intros rest.
  vm_compute. reflexivity.
- destruct (startswith kw_union n) eqn:E2; [|discriminate].
  intros _. rewrite (startswith_app _ _ E2). generalize (skipn (length kw_union) n). intros rest.
  vm_compute. reflexivity.
Qed.

Lemma find_struct_some_in : forall nm l idx, find_struct nm l idx <> None -> exists s, In s l /\ s_name s = nm.
Proof.
induction l as [|s l IH]; intros idx H; cbn in H; [now elim H|].
destruct (str_eqb nm (s_name s)) eqn:E.
- apply str_eqb_eq in E. exists s. cbn; auto.
- destruct (IH _ H) as (s' & Hin & Hn). exists s'. cbn; auto.
Qed.

Lemma find_struct_in_some : forall nm l idx s, In s l -> s_name s = nm -> find_struct nm l idx <> None.
Proof.
induction l as [|s0 l IH]; intros idx s Hin Hn; [destruct Hin|]. cbn.
destruct (str_eqb nm (s_name s0)) eqn:E; [discriminate|].
destruct Hin as [->|Hin]; [|eapply IH; eauto].
subst nm. now rewrite str_eqb_refl in E.
Qed.

Lemma in_struct_entries : forall p s, In s (struct_entries p) <->
  exists n o q, In (n, (o, q)) (decls p) /\ struct_name n = Some (s_name s, s_union s) /\
                s_external s = external_flag p o.
Proof.
intros p s. unfold struct_entries. rewrite in_flat_map. split.
- intros ([n [o q]] & Hin & Hs). cbn [fst snd] in Hs.
  destruct (struct_name n) as [[nm un]|] eqn:E; [|destruct Hs].
  destruct Hs as [<-|[]]. exists n, o, q. cbn. auto.
- intros (n & o & q & Hin & Hs & He). exists (n, (o, q)). split; auto. cbn [fst snd]. rewrite Hs.
  left. destruct s; cbn in *. now subst.
Qed.

Lemma nth_error_map_some : forall (X Y : Type) (f : X -> Y) l n y,
  nth_error (map f l) n = Some y -> exists x, nth_error l n = Some x /\ y = f x.
Proof.
induction l as [|a l IH]; intros [|n] y H; cbn in *; try discriminate.
- inversion H. eauto.
- eauto.
Qed.

