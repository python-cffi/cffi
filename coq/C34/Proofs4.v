(* C34 x C25 — the linear scans [find_struct] / [lookup] of the model stand for search_in_struct_unions /
   search_in_globals (MAKE_SEARCH_FUNC, src/c/parse_c_type.c): on a table strictly sorted in byte order (what the
   recompiler emits, C25_python_sort_gives_table) they return exactly what C25's binary search returns. *)
From Coq Require Import NArith ZArith List Bool Arith Lia.
From Cffi Require C25.Model C25.Proofs.
From Cffi Require Import C34.Gen C34.Model C34.Proofs.
Import ListNotations.

Definition sentry_dflt : sentry := mkS [] false false.

(* a hit of the scan is an occurrence of the name, at the index it reports *)
Lemma find_struct_sound : forall nm l idx i s, find_struct nm l idx = Some (i, s) ->
  idx <= i /\ nth_error l (i - idx) = Some s /\ s_name s = nm.
Proof.
induction l as [|a l IH]; intros idx i s H; cbn [find_struct] in H; [discriminate|].
destruct (str_eqb nm (s_name a)) eqn:E.
- injection H as <- <-. apply str_eqb_eq in E. rewrite Nat.sub_diag. auto.
- destruct (IH _ _ _ H) as (Hi & Hn & Hs). replace (i - idx) with (S (i - S idx)) by lia. auto with arith.
Qed.

Lemma nth_map_name : forall l i, nth i (map s_name l) [] = s_name (nth i l sentry_dflt).
Proof. intros. change (@nil N) with (s_name sentry_dflt). apply map_nth. Qed.
