(* C10 — the base type chosen for an enum is gcc's (through the min and max of the values), the recorded
   enumerator values are the standard's, the value -> name dictionary keeps the first declared name, and the two
   encodings of (size, signedness) agree. *)
From Coq Require Import Ascii String ZArith NArith List Bool Lia.
Import ListNotations.
From Cffi Require Import Base.Wrap C03.Mem C03.MemProofs C10.Model C10.Spec C10.Gen.
Open Scope Z_scope.

(* folding a choice function that picks the R-smaller of two: the result is one of the elements and is
   R-below all of them (R = <= for min, >= for max) *)
Section Extremum.
  Variables (f : Z -> Z -> Z) (R : Z -> Z -> Prop).
  Hypothesis R_refl : forall a, R a a.
  Hypothesis R_trans : forall a b c, R a b -> R b c -> R a c.
  Hypothesis f_pick : forall a x, f a x = a \/ f a x = x.
  Hypothesis f_l : forall a x, R (f a x) a.
  Hypothesis f_r : forall a x, R (f a x) x.

  Lemma fold_extremum : forall l a,
    In (fold_left f l a) (a :: l) /\ forall x, In x (a :: l) -> R (fold_left f l a) x.
  Proof.
    induction l as [|y l IH]; intros a; cbn [fold_left].
    - split; [now left|]. intros x [<-|[]]. apply R_refl.
    - destruct (IH (f a y)) as [Hin Hle]. split.
      + destruct Hin as [E|Hin]; [|now right; right]. rewrite <- E. destruct (f_pick a y) as [->| ->]; cbn; auto.
      + intros x [<-|[<-|Hx]]; [apply R_trans with (f a y); auto; apply Hle; now left..|].
        apply Hle. now right.
  Qed.
End Extremum.

Lemma fold_min_spec : forall l a,
  In (fold_left Z.min l a) (a :: l) /\ forall x, In x (a :: l) -> fold_left Z.min l a <= x.
Proof. intros l a. apply (fold_extremum Z.min Z.le); intros; lia. Qed.

Lemma fold_max_spec : forall l a,
  In (fold_left Z.max l a) (a :: l) /\ forall x, In x (a :: l) -> x <= fold_left Z.max l a.
Proof. intros l a. apply (fold_extremum Z.max (fun m x => x <= m)); intros; lia. Qed.

Lemma fold_min_le_acc : forall l a, fold_left Z.min l a <= a.
Proof. intros l a. apply fold_min_spec. now left. Qed.

Lemma fold_min_le_in : forall l a x, In x l -> fold_left Z.min l a <= x.
Proof. intros l a x H. apply fold_min_spec. now right. Qed.

Lemma fold_min_in : forall l a, fold_left Z.min l a = a \/ In (fold_left Z.min l a) l.
Proof. intros l a. destruct (fold_min_spec l a) as [[E|H] _]; auto. Qed.

Lemma fold_max_ge_acc : forall l a, a <= fold_left Z.max l a.
Proof. intros l a. apply fold_max_spec. now left. Qed.

Lemma fold_max_ge_in : forall l a x, In x l -> x <= fold_left Z.max l a.
Proof. intros l a x H. apply fold_max_spec. now right. Qed.

Lemma fold_max_in : forall l a, fold_left Z.max l a = a \/ In (fold_left Z.max l a) l.
Proof. intros l a. destruct (fold_max_spec l a) as [[E|H] _]; auto. Qed.

Lemma list_min_spec : forall l, l <> [] -> In (list_min l) l /\ forall x, In x l -> list_min l <= x.
Proof. intros [|a l] H; [congruence|]. apply fold_min_spec. Qed.

Lemma list_max_spec : forall l, l <> [] -> In (list_max l) l /\ forall x, In x l -> x <= list_max l.
Proof. intros [|a l] H; [congruence|]. apply fold_max_spec. Qed.

Lemma forallb_range : forall l lo hi, l <> [] ->
  forallb (fun v => (lo <=? v) && (v <? hi)) l = ((lo <=? list_min l) && (list_max l <? hi)).
Proof.
  intros l lo hi Hne. destruct (list_min_spec l Hne) as [Hmi Hml]. destruct (list_max_spec l Hne) as [Hxi Hxl].
  apply Bool.eq_true_iff_eq. rewrite forallb_forall, andb_true_iff, Z.leb_le, Z.ltb_lt. split.
  - intros H. pose proof (H _ Hmi) as A. pose proof (H _ Hxi) as B.
    rewrite andb_true_iff, Z.leb_le, Z.ltb_lt in A, B. lia.
  - intros [A B] x Hx. rewrite andb_true_iff, Z.leb_le, Z.ltb_lt. specialize (Hml _ Hx). specialize (Hxl _ Hx). lia.
Qed.

Lemma existsb_neg : forall l, l <> [] -> existsb (fun v => v <? 0) l = (list_min l <? 0).
Proof.
  intros l Hne. destruct (list_min_spec l Hne) as [Hmi Hml].
  apply Bool.eq_true_iff_eq. rewrite existsb_exists, Z.ltb_lt. split.
  - intros [x [Hx Hn]]. apply Z.ltb_lt in Hn. specialize (Hml _ Hx). lia.
  - intros H. exists (list_min l). split; [exact Hmi | apply Z.ltb_lt; exact H].
Qed.

Definition ctype_name (b : basetype) : cstr :=
  match b with
  | UInt => s2l "unsigned int" | Int => s2l "int" | ULong => s2l "unsigned long" | Long => s2l "long"
  end.

(* ASSUMED of ffi.sizeof: the four candidate types have sizeof(int) = isz, sizeof(long) = lsz, signed or not *)
Definition sizes (isz lsz : Z) (name : cstr) : Z :=
  if cstr_eqb name (s2l "int") || cstr_eqb name (s2l "unsigned int") then isz
  else if cstr_eqb name (s2l "long") || cstr_eqb name (s2l "unsigned long") then lsz else 0.

Definition expected (isz lsz : Z) (vals : list Z) : result cstr :=
  match gcc_base isz lsz vals with Some b => Ok (ctype_name b) | None => Err CDefError end.

Lemma shl_m1 : forall k, 0 <= k -> Z.shiftl (- (1)) k = - 2 ^ k.
Proof. intros. rewrite Z.shiftl_mul_pow2 by lia. lia. Qed.
Lemma shl_1 : forall k, 0 <= k -> Z.shiftl 1 k = 2 ^ k.
Proof. intros. rewrite Z.shiftl_mul_pow2 by lia. lia. Qed.

Lemma fits_signed_cond : forall n mn mx, 1 <= n ->
  ((mn >=? Z.shiftl (- (1)) (8 * n - 1)) && (mx <? Z.shiftl 1 (8 * n - 1)))
  = ((- 2 ^ (8 * n - 1) <=? mn) && (mx <? 2 ^ (8 * n - 1))).
Proof. intros. rewrite shl_m1, shl_1 by lia. rewrite Z.geb_leb. reflexivity. Qed.

(* `8 * n - 0` is Gen's `8 * size - sign` with sign = 0 *)
Lemma fits_unsigned_cond : forall n mn mx, 1 <= n -> 0 <= mn ->
  ((mn >=? Z.shiftl (- (1)) (8 * n - 1)) && (mx <? Z.shiftl 1 (8 * n - 0)))
  = ((0 <=? mn) && (mx <? 2 ^ (8 * n))).
Proof.
  intros n mn mx Hn Hmn. rewrite shl_m1, shl_1 by lia. rewrite Z.geb_leb, Z.sub_0_r.
  assert (0 < 2 ^ (8 * n - 1)) by (apply Z.pow_pos_nonneg; lia).
  replace (- 2 ^ (8 * n - 1) <=? mn) with true by (symmetry; apply Z.leb_le; lia).
  replace (0 <=? mn) with true by (symmetry; apply Z.leb_le; lia). reflexivity.
Qed.

Lemma base_matches_gcc : forall isz lsz vals,
  vals <> [] -> 1 <= isz -> 1 <= lsz ->
  build_baseinttype (sizes isz lsz) vals = expected isz lsz vals.
Proof.
  intros isz lsz vals Hne Hi Hl.
  unfold expected, gcc_base. rewrite existsb_neg by assumption.
  unfold fits_signed, fits_unsigned. rewrite !forallb_range by assumption.
  unfold build_baseinttype.
  destruct vals as [|v0 vs]; [congruence|].
  set (mn := list_min (v0 :: vs)). set (mx := list_max (v0 :: vs)).
  unfold gen_needs_signed, gen_signed_branch, gen_unsigned_branch, gen_fits1, gen_fits2.
  destruct (Z.ltb_spec mn 0) as [Hneg|Hpos].
  - change (sizes isz lsz (s2l "int")) with isz. change (sizes isz lsz (s2l "long")) with lsz.
    rewrite !fits_signed_cond by assumption.
    destruct ((- 2 ^ (8 * isz - 1) <=? mn) && (mx <? 2 ^ (8 * isz - 1))); [reflexivity|].
    destruct ((- 2 ^ (8 * lsz - 1) <=? mn) && (mx <? 2 ^ (8 * lsz - 1))); reflexivity.
  - change (sizes isz lsz (s2l "unsigned int")) with isz. change (sizes isz lsz (s2l "unsigned long")) with lsz.
    rewrite !fits_unsigned_cond by assumption.
    destruct ((0 <=? mn) && (mx <? 2 ^ (8 * isz))); [reflexivity|].
    destruct ((0 <=? mn) && (mx <? 2 ^ (8 * lsz))); reflexivity.
Qed.

Fixpoint c_value_from (cur : Z) (decls : list (option Z)) (k : nat) : Z :=
  match k with
  | O => match nth 0%nat decls None with Some v => v | None => cur end
  | S k' => match nth k decls None with Some v => v | None => c_value_from cur decls k' + 1 end
  end.

Lemma c_value_from_0 : forall decls k, c_value_from 0 decls k = c_value decls k.
Proof. induction k as [|k IH]; cbn; [reflexivity|]. rewrite IH. reflexivity. Qed.

Lemma c_value_from_cons : forall d ds cur k,
  c_value_from cur (d :: ds) (S k) =
  c_value_from (match d with Some v => v | None => cur end + 1) ds k.
Proof.
  intros d ds cur. induction k as [|k IH].
  - cbn. destruct ds as [|[v|] ds]; cbn; destruct d; reflexivity.
  - change (c_value_from cur (d :: ds) (S (S k))) with
      (match nth (S k) ds None with Some v => v | None => c_value_from cur (d :: ds) (S k) + 1 end).
    rewrite IH. reflexivity.
Qed.

Lemma assign_values_spec : forall decls cur k, (k < length decls)%nat ->
  nth k (assign_values (fun v => v) (fun v => v) (fun v => v + 1) cur decls) 0 = c_value_from cur decls k.
Proof.
  induction decls as [|d ds IH]; intros cur k Hk; [cbn in Hk; lia|].
  destruct k as [|k].
  - cbn. destruct d; reflexivity.
  - rewrite c_value_from_cons. cbn [assign_values nth]. apply IH. cbn in Hk. lia.
Qed.

Lemma assign_values_length : forall e r n decls cur, length (assign_values e r n cur decls) = length decls.
Proof. induction decls as [|d ds IH]; cbn; intros; [reflexivity|]. rewrite IH. reflexivity. Qed.

Lemma dict_get_set : forall d k x v, dict_get (dict_set d k x) v = if v =? k then Some x else dict_get d v.
Proof.
  induction d as [|[k' x'] d IH]; intros k x v; cbn.
  - reflexivity.
  - destruct (Z.eqb_spec k k') as [->|Hne]; cbn.
    + destruct (v =? k'); reflexivity.
    + rewrite IH. destruct (Z.eqb_spec v k') as [->|]; [|reflexivity].
      destruct (Z.eqb_spec k' k); [congruence|reflexivity].
Qed.

(* filling from the last pair to the first is a fold_right over the pairs: each earlier pair overrides
   what the later ones have set *)
Lemma dict2_is_first_name : forall names vals v,
  dict_get (build_dict2 names vals) v = first_name names vals v.
Proof.
  intros names vals v. unfold build_dict2. rewrite <- fold_left_rev_right, rev_involutive.
  revert vals. induction names as [|nm names IH]; intros [|x vals]; try reflexivity.
  cbn [combine fold_right first_name fst snd]. rewrite dict_get_set, Z.eqb_sym. destruct (x =? v); [reflexivity | apply IH].
Qed.

Definition enc_ok (size sg : Z) : bool :=
  match py_enum_prim gen_py_enum_prim size sg with
  | Some id => opt_z_eqb (assoc id py_prim) (prim_int c_idents c_prim_int size (sg =? 1)) &&
               match assoc id py_prim with Some i => 0 <=? i | None => false end
  | None => false
  end.

Lemma gen_enc_ok : forallb (fun s => enc_ok s 0 && enc_ok s 1) [1; 2; 4; 8] = true.
Proof. vm_compute. reflexivity. Qed.

Lemma assoc_app_some : forall B k (v : B) l r, assoc k l = Some v -> assoc k (l ++ r) = Some v.
Proof.
  induction l as [|[k' v'] l IH]; intros r; cbn; [discriminate|]. destruct (cstr_eqb k k'); auto.
Qed.

(* Model.le_bytes and Model.le_value are C03.Mem.encode_le and decode_le written again (le_value as a
   fold_right): the statements about them are the same up to conversion *)
Lemma le_bytes_length : forall n v, List.length (le_bytes n v) = n.
Proof. exact length_encode_le. Qed.

Lemma le_value_bytes : forall n v, le_value (le_bytes n v) = v mod 2 ^ (8 * Z.of_nat n).
Proof. exact decode_encode_le. Qed.

Lemma pow256 : forall n, 256 ^ Z.of_nat n = 2 ^ (8 * Z.of_nat n).
Proof. intros. change 256 with (2 ^ 8). rewrite <- Z.pow_mul_r by lia. reflexivity. Qed.

Lemma wrap_is_wrap : forall size signed x, 1 <= size -> wrap size signed x = Wrap.wrap signed (8 * size) x.
Proof.
  intros size signed x Hs. unfold wrap. cbv zeta.
  destruct signed; [symmetry; apply wrap_signed_leb; lia | reflexivity].
Qed.

