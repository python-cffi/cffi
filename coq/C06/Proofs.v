(* C06 — lemmas. Generic part (any tables) first, then the instantiation on C06/Gen.v, where the
   finite domains are enumerated completely by vm_compute and lifted with forallb_forall. *)
From Coq Require Import Ascii String ZArith NArith List Bool Lia.
Import ListNotations.
From Cffi Require Import Base.ListFacts C06.Model C06.Gen.
Open Scope Z_scope.

Lemma cstr_eqb_eq : forall a b, cstr_eqb a b = true <-> a = b.
Proof. exact nlist_eqb_eq. Qed.

Lemma cstr_eqb_refl : forall a, cstr_eqb a a = true.
Proof. intros. apply cstr_eqb_eq. reflexivity. Qed.

Lemma memb_In : forall x l, memb x l = true <-> In x l.
Proof.
  intros x l. unfold memb. rewrite existsb_exists. split.
  - intros [y [Hy He]]. apply cstr_eqb_eq in He. subst. exact Hy.
  - intros H. exists x. split; [exact H | apply cstr_eqb_refl].
Qed.

Lemma subsetb_incl : forall a b, subsetb a b = true -> forall x, In x a -> In x b.
Proof.
  intros a b H x Hx. unfold subsetb in H. rewrite forallb_forall in H. apply memb_In. apply H. exact Hx.
Qed.

Lemma same_set_iff : forall a b, same_set a b = true -> forall x, In x a <-> In x b.
Proof.
  intros a b H x. unfold same_set in H. apply andb_true_iff in H. destruct H as [H1 H2].
  split; eapply subsetb_incl; eassumption.
Qed.

Lemma nodupb_NoDup : forall l, nodupb l = true -> NoDup l.
Proof.
  induction l as [|x l IH]; cbn; intros H; constructor.
  - apply andb_true_iff in H. destruct H as [H _]. intros Hin. apply memb_In in Hin.
    unfold memb in Hin. rewrite Hin in H. discriminate.
  - apply IH. apply andb_true_iff in H. tauto.
Qed.

Definition zrange (n : Z) : list Z := map Z.of_nat (seq 0 (Z.to_nat n)).

Lemma forall_zrange : forall (P : Z -> bool) n,
  forallb P (zrange n) = true -> forall i, 0 <= i < n -> P i = true.
Proof.
  intros P n H i Hi. rewrite forallb_forall in H. apply H. unfold zrange.
  apply in_map_iff. exists (Z.to_nat i). split; [lia|]. apply in_seq. lia.
Qed.

Lemma name_of_range : forall names i nm, name_of names i = Some nm -> 0 <= i < Z.of_nat (length names).
Proof.
  intros names i nm H. unfold name_of in H. destruct (Z.ltb_spec i 0); [discriminate|].
  split; [lia|]. destruct (Z.ltb_spec i (Z.of_nat (length names))) as [|Hge]; [assumption|].
  rewrite nth_overflow in H by lia. discriminate.
Qed.

Lemma assoc_In : forall B k (l : list (cstr * B)) v, assoc k l = Some v -> In (k, v) l.
Proof.
  induction l as [|[k' v'] l IH]; cbn; intros v H; [discriminate|].
  destruct (cstr_eqb k k') eqn:E.
  - apply cstr_eqb_eq in E. inversion H; subst. left. reflexivity.
  - right. apply IH. exact H.
Qed.

Lemma opt_z_eqb_eq a b : opt_z_eqb a b = true -> a = b.
Proof. destruct a, b; cbn; intros H; try discriminate; [apply Z.eqb_eq in H; subst|]; reflexivity. Qed.

Definition test_ok (prims : list (cstr * Z)) (names : list (option cstr)) (sfx : N * N) (t : std_test) : bool :=
  (t_size t =? t_len t + 2) && (Z.of_nat (length (t_lit t)) =? t_len t) &&
  match assoc (t_res t) prims with
  | Some i => match name_of names i with
              | Some nm => cstr_eqb nm (t_lit t ++ [fst sfx; snd sfx])
              | None => false
              end
  | None => false
  end.

Definition item_ok prims names sfx (it : std_item) : bool :=
  match it with
  | ITest t => test_ok prims names sfx t
  | ISub _ _ cases => forallb (fun c => forallb (test_ok prims names sfx) (snd c)) cases
  end.

Definition table_ok prims names (tb : std_table) : bool :=
  (2 <=? std_minsize tb) &&
  forallb (fun c => forallb (item_ok prims names (std_suffix tb)) (snd c)) (std_cases tb).

Lemma select_case_forallb : forall A (P : A -> bool) c (cases : list (N * list A)),
  forallb (fun x => forallb P (snd x)) cases = true -> forallb P (select_case c cases) = true.
Proof.
  induction cases as [|[c' body] cases IH]; cbn; intros H; [reflexivity|].
  apply andb_true_iff in H. destruct H as [H1 H2]. destruct (N.eqb c c'); auto.
Qed.

Lemma firstn_app_exact : forall (l r : cstr) n, n = length l -> firstn n (l ++ r) = l.
Proof. intros l r n ->. apply firstn_length_app. Qed.

Lemma two_more : forall (p l : cstr) a b,
  length p = (length l + 2)%nat -> firstn (length l) p = l ->
  nth (length l) p 0%N = a -> nth (length l + 1) p 0%N = b -> p = l ++ [a; b].
Proof.
  intros p l a b Hlen Hf Ha Hb.
  pose proof (firstn_skipn (length l) p) as Hp. rewrite Hf in Hp.
  assert (Hs : length (skipn (length l) p) = 2%nat) by (rewrite skipn_length; lia).
  remember (skipn (length l) p) as r eqn:Er. clear Er.
  destruct r as [|x [|y [|z r]]]; cbn in Hs; try discriminate.
  subst p. rewrite nth_middle in Ha. rewrite app_nth2_plus in Hb. cbn in Hb. subst. reflexivity.
Qed.

Lemma run_test_sound : forall prims names sfx p t i,
  test_ok prims names sfx t = true ->
  char_at p (Z.of_nat (length p) - 2) = fst sfx -> char_at p (Z.of_nat (length p) - 1) = snd sfx ->
  run_test prims p (Z.of_nat (length p)) t = Some i -> name_of names i = Some p.
Proof.
  intros prims names sfx p t i Hok Ha Hb Hrun.
  unfold run_test in Hrun. destruct (_ && _) eqn:Hc in Hrun; [|discriminate].
  apply andb_true_iff in Hc. destruct Hc as [Hsz Hmem]. apply Z.eqb_eq in Hsz.
  unfold test_ok in Hok. rewrite Hrun in Hok.
  apply andb_true_iff in Hok. destruct Hok as [Hok Hnm]. apply andb_true_iff in Hok.
  destruct Hok as [Hs Hl]. apply Z.eqb_eq in Hs. apply Z.eqb_eq in Hl.
  destruct (name_of names i) as [nm|]; [|discriminate]. apply cstr_eqb_eq in Hnm. subst nm. f_equal.
  unfold memcmp_eq in Hmem. apply cstr_eqb_eq in Hmem.
  rewrite <- Hl, Nat2Z.id in Hmem. rewrite (firstn_length_app (t_lit t) [0%N]) in Hmem.
  symmetry. apply two_more.
  - lia.
  - exact Hmem.
  - unfold char_at in Ha. rewrite <- Ha. f_equal. lia.
  - unfold char_at in Hb. rewrite <- Hb. f_equal. lia.
Qed.

Lemma run_tests_sound : forall prims names sfx p ts i,
  forallb (test_ok prims names sfx) ts = true ->
  char_at p (Z.of_nat (length p) - 2) = fst sfx -> char_at p (Z.of_nat (length p) - 1) = snd sfx ->
  run_tests prims p (Z.of_nat (length p)) ts = Some i -> name_of names i = Some p.
Proof.
  induction ts as [|t ts IH]; cbn; intros i Hok Ha Hb Hrun; [discriminate|].
  apply andb_true_iff in Hok. destruct Hok as [H1 H2].
  destruct (run_test prims p (Z.of_nat (length p)) t) eqn:E.
  - inversion Hrun; subst. eapply run_test_sound; eassumption.
  - apply IH; assumption.
Qed.

Lemma run_items_sound : forall prims names sfx p its i,
  forallb (item_ok prims names sfx) its = true ->
  char_at p (Z.of_nat (length p) - 2) = fst sfx -> char_at p (Z.of_nat (length p) - 1) = snd sfx ->
  run_items prims p (Z.of_nat (length p)) its = Some i -> name_of names i = Some p.
Proof.
  induction its as [|it its IH]; cbn; intros i Hok Ha Hb Hrun; [discriminate|].
  apply andb_true_iff in Hok. destruct Hok as [H1 H2].
  destruct (run_item prims p (Z.of_nat (length p)) it) eqn:E.
  - inversion Hrun; subst. destruct it as [t|m pos cases]; cbn in E, H1.
    + eapply run_test_sound; eassumption.
    + destruct (Z.of_nat (length p) >=? m); [|discriminate].
      eapply run_tests_sound; try eassumption. apply select_case_forallb. exact H1.
  - apply IH; assumption.
Qed.

Lemma search_std_sound : forall prims names tb p i,
  table_ok prims names tb = true -> search_std prims tb p = Some i -> name_of names i = Some p.
Proof.
  intros prims names tb p i Hok Hs. unfold search_std in Hs. cbv zeta in Hs.
  destruct (_ || _) eqn:G in Hs; [discriminate|].
  apply orb_false_iff in G. destruct G as [G Gb]. apply orb_false_iff in G. destruct G as [_ Ga].
  apply negb_false_iff, N.eqb_eq in Ga. apply negb_false_iff, N.eqb_eq in Gb.
  unfold table_ok in Hok. apply andb_true_iff in Hok. destruct Hok as [_ Hok].
  eapply run_items_sound; try eassumption. apply select_case_forallb. exact Hok.
Qed.

Lemma gen_table_ok : table_ok c_prim c_primitive_name c_std_typename = true.
Proof. vm_compute. reflexivity. Qed.

Lemma std_typename_sound : forall (p : cstr) i,
  search_std c_prim c_std_typename p = Some i -> name_of c_primitive_name i = Some p.
Proof. intros. eapply search_std_sound; [apply gen_table_ok | eassumption]. Qed.

Definition complete_at (i : Z) : bool :=
  match name_of c_primitive_name i with
  | Some nm => if ends_with_t nm then opt_z_eqb (search_std c_prim c_std_typename nm) (Some i) else true
  | None => true
  end.

Lemma gen_complete : forallb complete_at (zrange c_num_prim) = true.
Proof. vm_compute. reflexivity. Qed.

Lemma gen_names_len : Z.of_nat (length c_primitive_name) = c_num_prim.
Proof. vm_compute. reflexivity. Qed.

Lemma forall_named : forall (P : Z -> bool) i nm, forallb P (zrange c_num_prim) = true ->
  name_of c_primitive_name i = Some nm -> P i = true.
Proof.
  intros P i nm H Hn. apply (forall_zrange P c_num_prim H). rewrite <- gen_names_len.
  exact (name_of_range _ _ _ Hn).
Qed.

Lemma std_typename_complete : forall i nm,
  name_of c_primitive_name i = Some nm -> ends_with_t nm = true ->
  search_std c_prim c_std_typename nm = Some i.
Proof.
  intros i nm Hn He. pose proof (forall_named _ i nm gen_complete Hn) as H. unfold complete_at in H.
  rewrite Hn, He in H. apply opt_z_eqb_eq. exact H.
Qed.

(* the conditions on the table's numbers under which the C reads stay in bounds: memcmp length within the literal
   (+NUL) and within the size tested before it; POS below the minimal size *)
Definition test_in_bounds (t : std_test) : bool :=
  (0 <=? t_len t) && (t_len t <=? Z.of_nat (length (t_lit t)) + 1) && (t_len t <=? t_size t).

Definition reads_in_bounds (tb : std_table) : bool :=
  (0 <=? std_pos tb) && (std_pos tb <? std_minsize tb) && (2 <=? std_minsize tb) &&
  forallb (fun c => forallb (fun it => match it with
     | ITest t => test_in_bounds t
     | ISub m pos cases => (0 <=? pos) && (pos <? m) && forallb (fun c2 => forallb test_in_bounds (snd c2)) cases
     end) (snd c)) (std_cases tb).

Lemma gen_indices_dense : map snd c_prim = zrange c_num_prim /\ NoDup (map fst c_prim).
Proof. split; [vm_compute; reflexivity | apply nodupb_NoDup; vm_compute; reflexivity]. Qed.

Definition p2i_entry_ok (e : cstr * cstr) : bool :=
  match assoc (snd e) py_prim with
  | Some i => match name_of c_primitive_name i with Some nm => cstr_eqb nm (fst e) | None => false end
  | None => false
  end.

Lemma gen_p2i_ok : forallb p2i_entry_ok py_primitive_to_index = true.
Proof. vm_compute. reflexivity. Qed.

Lemma p2i_forward : forall name id, In (name, id) py_primitive_to_index ->
  exists i, assoc id py_prim = Some i /\ name_of c_primitive_name i = Some name.
Proof.
  intros name id H. pose proof gen_p2i_ok as G. rewrite forallb_forall in G. specialize (G _ H).
  unfold p2i_entry_ok in G. cbn [fst snd] in G.
  destruct (assoc id py_prim) as [i|]; [|discriminate]. exists i. split; [reflexivity|].
  destruct (name_of c_primitive_name i) as [nm|]; [|discriminate]. apply cstr_eqb_eq in G. congruence.
Qed.

Definition index_has_entry (i : Z) : bool :=
  match name_of c_primitive_name i with
  | Some nm => match assoc nm py_primitive_to_index with
               | Some id => opt_z_eqb (assoc id py_prim) (Some i)
               | None => false
               end
  | None => true
  end.

Lemma gen_index_has_entry : forallb index_has_entry (zrange c_num_prim) = true.
Proof. vm_compute. reflexivity. Qed.

Lemma p2i_backward : forall i name, name_of c_primitive_name i = Some name ->
  exists id, In (name, id) py_primitive_to_index /\ assoc id py_prim = Some i.
Proof.
  intros i name Hn. pose proof (forall_named _ i name gen_index_has_entry Hn) as H.
  unfold index_has_entry in H. rewrite Hn in H.
  destruct (assoc name py_primitive_to_index) as [id|] eqn:E; [|discriminate].
  exists id. split; [apply assoc_In; exact E | apply opt_z_eqb_eq; exact H].
Qed.

Lemma gen_p2i_nodup : NoDup (map fst py_primitive_to_index).
Proof. apply nodupb_NoDup. vm_compute. reflexivity. Qed.

Lemma gen_void_index : assoc (s2l "VOID") c_prim = Some 0 /\ name_of c_primitive_name 0 = None.
Proof. split; vm_compute; reflexivity. Qed.

Lemma gen_same_names :
  same_set (map fst py_all_primitive_types) (map fst py_primitive_to_index) = true /\
  same_set (map fst py_all_primitive_types) (map fst c_enum_primitive_types) = true /\
  same_set (map fst py_all_primitive_types) (somes c_primitive_name) = true.
Proof. split; [|split]; vm_compute; reflexivity. Qed.

Definition kind_entry_ok (e : cstr * N) : bool :=
  match assoc (fst e) c_enum_primitive_types with
  | Some fs => match kind_of_flags fs with Some k => N.eqb k (snd e) | None => false end
  | None => false
  end.

Lemma gen_kinds_ok : forallb kind_entry_ok py_all_primitive_types = true.
Proof. vm_compute. reflexivity. Qed.

Lemma prim_int_cases_default : forall cs d size sign,
  ~ In size (map fst cs) -> prim_int_cases cs d size sign = d.
Proof.
  induction cs as [|[k [a b]] cs IH]; cbn; intros d size sign H; [reflexivity|].
  destruct (Z.eqb_spec size k); [exfalso; apply H; left; congruence|]. apply IH. tauto.
Qed.

Definition prim_int_ok (size : Z) (sign : bool) : bool :=
  match prim_int c_idents c_prim_int size sign with
  | Some i => match name_of c_primitive_name i with
              | Some nm => cstr_eqb nm (intn_name size sign) &&
                           match assoc nm c_enum_primitive_types with
                           | Some fs => Bool.eqb (has_flag CT_PRIMITIVE_SIGNED fs) sign &&
                                        Bool.eqb (has_flag CT_PRIMITIVE_UNSIGNED fs) (negb sign)
                           | None => false
                           end
              | None => false
              end
  | None => false
  end.

Lemma gen_prim_int_sizes : map fst (pim_cases c_prim_int) = [1; 2; 4; 8].
Proof. vm_compute. reflexivity. Qed.

Lemma gen_prim_int_ok : forallb (fun s => prim_int_ok s true && prim_int_ok s false) [1; 2; 4; 8] = true.
Proof. vm_compute. reflexivity. Qed.
