(* C06 x C07 — the primitive layer of the type-string parser model (coq/C07/Model.v, coq/C07/PyModel.v:
   hand-written PRIM_* constants, `standard_typenames`, `py_prims`) agrees with the tables regenerated
   from the sources in coq/C06/Gen.v.  C07's tables thereby become checked facts about the current
   parse_c_type.h / parse_c_type.c / cffi_opcode.py. *)
From Coq Require Import Ascii String ZArith NArith List Bool Lia.
Import ListNotations.
From Cffi Require Import C06.Model C06.Gen C06.Proofs.
From Cffi Require C07.Model C07.PyModel.
Local Open Scope Z_scope.

Module M7 := C07.Model.
Module P7 := C07.PyModel.

Lemma assoc7_In {A} : forall (tbl : list (M7.str * A)) s v, M7.assoc_str tbl s = Some v -> In (s, v) tbl.
Proof.
  induction tbl as [|[k w] tbl IH]; intros s v H; cbn in H; [discriminate|].
  destruct (M7.str_eqb k s) eqn:E.
  - change (cstr_eqb k s = true) in E. (* C07's str_eqb is the same fixpoint *)
    apply cstr_eqb_eq in E. inversion H; subst. left. reflexivity.
  - right. apply IH. exact H.
Qed.

Lemma name_of_somes : forall names i nm, name_of names i = Some nm -> In nm (somes names).
Proof.
  intros names i nm. unfold name_of. destruct (i <? 0); [discriminate|].
  generalize (Z.to_nat i). clear i. induction names as [|x names IH]; intros [|n] H; cbn in H; try discriminate.
  - subst x. left. reflexivity.
  - destruct x; [right|]; eapply IH; exact H.
Qed.

Lemma std7_rows_found :
  forallb (fun row => opt_z_eqb (search_std c_prim c_std_typename (fst row)) (Some (snd row)))
          M7.standard_typenames = true.
Proof. vm_compute. reflexivity. Qed.

Lemma std6_names_agree :
  forallb (fun nm => opt_z_eqb (M7.search_standard_typename nm) (search_std c_prim c_std_typename nm))
          (somes c_primitive_name) = true.
Proof. vm_compute. reflexivity. Qed.

Definition prim7 : list (cstr * Z) :=
  [ (s2l "VOID", M7.PRIM_VOID); (s2l "BOOL", M7.PRIM_BOOL); (s2l "CHAR", M7.PRIM_CHAR);
    (s2l "SCHAR", M7.PRIM_SCHAR); (s2l "UCHAR", M7.PRIM_UCHAR); (s2l "SHORT", M7.PRIM_SHORT);
    (s2l "USHORT", M7.PRIM_USHORT); (s2l "INT", M7.PRIM_INT); (s2l "UINT", M7.PRIM_UINT);
    (s2l "LONG", M7.PRIM_LONG); (s2l "ULONG", M7.PRIM_ULONG); (s2l "LONGLONG", M7.PRIM_LONGLONG);
    (s2l "ULONGLONG", M7.PRIM_ULONGLONG); (s2l "FLOAT", M7.PRIM_FLOAT); (s2l "DOUBLE", M7.PRIM_DOUBLE);
    (s2l "LONGDOUBLE", M7.PRIM_LONGDOUBLE); (s2l "FLOATCOMPLEX", M7.PRIM_FLOATCOMPLEX);
    (s2l "DOUBLECOMPLEX", M7.PRIM_DOUBLECOMPLEX) ]%string.

Definition prim_row_ok (row : cstr * Z) : bool :=
  opt_z_eqb (assoc (fst row) c_prim) (Some (snd row)) && opt_z_eqb (assoc (fst row) py_prim) (Some (snd row)).

Lemma prim7_ok_b : forallb prim_row_ok prim7 = true.
Proof. vm_compute. reflexivity. Qed.

Definition spell_word (w : P7.word) : cstr :=
  match w with
  | P7.WM P7.Msigned => s2l "signed" | P7.WM P7.Munsigned => s2l "unsigned"
  | P7.WM P7.Mshort => s2l "short" | P7.WM P7.Mlong => s2l "long"
  | P7.WB P7.Bint => s2l "int" | P7.WB P7.Bchar => s2l "char" | P7.WB P7.Bvoid => s2l "void"
  | P7.WB P7.Bbool => s2l "_Bool" | P7.WB P7.Bfloat => s2l "float" | P7.WB P7.Bdouble => s2l "double"
  | P7.WComplex => s2l "_Complex"
  end%string.

(* ' '.join(names) *)
Fixpoint spell_words (ws : list P7.word) : cstr :=
  match ws with
  | [] => []
  | [w] => spell_word w
  | w :: ws' => spell_word w ++ 32%N :: spell_words ws'
  end.

(* the index the Python side gives a primitive type NAME: `void` is model.void_type (PRIM_VOID); the two
   complex spellings are aliases in commontypes.COMMON_TYPES (src/cffi/commontypes.py:17-18, copied by hand
   here: the one part of this statement that is not regenerated); everything else goes through
   PRIMITIVE_TO_INDEX *)
Definition py_aliases : list (cstr * cstr) :=
  [ (s2l "float _Complex", s2l "_cffi_float_complex_t");
    (s2l "double _Complex", s2l "_cffi_double_complex_t") ]%string.

Definition py_index_of (name : cstr) : option Z :=
  if cstr_eqb name (s2l "void") then assoc (s2l "VOID") py_prim
  else
    let name' := match assoc name py_aliases with Some a => a | None => name end in
    match assoc name' py_primitive_to_index with
    | Some id => assoc id py_prim
    | None => None
    end.

Lemma py_prims_ok_b :
  forallb (fun row => opt_z_eqb (py_index_of (spell_words (fst row))) (Some (snd row))) P7.py_prims = true.
Proof. vm_compute. reflexivity. Qed.

(* non-vacuity: the three routes of py_index_of all occur *)
Example py_index_examples :
  py_index_of (s2l "void") = Some 0 /\ py_index_of (s2l "unsigned long long") = Some 12 /\
  py_index_of (s2l "double _Complex") = Some 49 /\ py_index_of (s2l "unsigned") = None.
Proof. vm_compute. repeat split. Qed.
