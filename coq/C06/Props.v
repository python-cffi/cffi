(* C06 — Primitive type facts agree across all type tables (the compiler part of the property is
   decided on the implementation by the gcc probe of tools/props/c06.py).
   The lemmas are in C06/Proofs.v and C06/Compose07.v. All tables (named py_xxx and c_xxx) are those of C06/Gen.v, regenerated
   from /repo's sources on every run; the interpreting functions are in C06/Model.v. *)
From Coq Require Import Ascii String ZArith NArith List Bool.
Import ListNotations.
From Cffi Require Import C06.Model C06.Gen C06.Proofs C06.Compose07.
From Cffi Require C07.Model C07.PyModel.
Open Scope Z_scope.

(* PRIM_* (cffi_opcode.py) and _CFFI_PRIM_* (parse_c_type.h) are the same list of (name, value), with
   the same _NUM_PRIM and the same three "unknown" codes *)
Theorem C06_prim_constants_agree :
  py_prim = c_prim /\ py_num_prim = c_num_prim /\ py_unknown_prims = c_unknown_prims.
Proof. split; [|split]; reflexivity. Qed.
Print Assumptions C06_prim_constants_agree.

(* the values are exactly 0, 1, ..., _NUM_PRIM-1 in order; no constant name is defined twice;
   primitive_name[] has _NUM_PRIM entries (the assert of build_primitive_type) *)
Theorem C06_prim_indices_dense :
  map snd c_prim = zrange c_num_prim /\ NoDup (map fst c_prim) /\
  Z.of_nat (length c_primitive_name) = c_num_prim.
Proof. exact (conj (proj1 gen_indices_dense) (conj (proj2 gen_indices_dense) gen_names_len)). Qed.
Print Assumptions C06_prim_indices_dense.

(* name <-> index bijection, identical in Python and C. Domain: all entries of PRIMITIVE_TO_INDEX,
   all integers i (name_of is None outside [0, _NUM_PRIM)). *)
Theorem C06_name_index_bijection :
  (forall name id, In (name, id) py_primitive_to_index ->
     exists i, assoc id py_prim = Some i /\ name_of c_primitive_name i = Some name) /\
  (forall i name, name_of c_primitive_name i = Some name ->
     exists id, In (name, id) py_primitive_to_index /\ assoc id py_prim = Some i) /\
  NoDup (map fst py_primitive_to_index) /\
  (assoc (s2l "VOID") c_prim = Some 0 /\ name_of c_primitive_name 0 = None).
Proof. exact (conj p2i_forward (conj p2i_backward (conj gen_p2i_nodup gen_void_index))). Qed.
Print Assumptions C06_name_index_bijection.

(* the four tables list the same set of names, each once *)
Theorem C06_same_name_sets : forall n,
  (In n (map fst py_all_primitive_types) <-> In n (map fst py_primitive_to_index)) /\
  (In n (map fst py_all_primitive_types) <-> In n (map fst c_enum_primitive_types)) /\
  (In n (map fst py_all_primitive_types) <-> In n (somes c_primitive_name)).
Proof.
  intros n. destruct gen_same_names as [A [B C]].
  exact (conj (same_set_iff _ _ A n) (conj (same_set_iff _ _ B n) (same_set_iff _ _ C n))).
Qed.
Print Assumptions C06_same_name_sets.

Theorem C06_names_listed_once :
  NoDup (map fst py_all_primitive_types) /\ NoDup (map fst c_enum_primitive_types) /\ NoDup (somes c_primitive_name).
Proof. split; [|split]; apply nodupb_NoDup; vm_compute; reflexivity. Qed.
Print Assumptions C06_names_listed_once.

(* kind letter of model.py ('c' 'i' 'f' 'j') = the unique primary CT_PRIMITIVE_* flag of the backend *)
Theorem C06_kinds_agree_with_flags : forall name k,
  In (name, k) py_all_primitive_types ->
  exists fs, assoc name c_enum_primitive_types = Some fs /\ kind_of_flags fs = Some k.
Proof.
  intros name k H. pose proof gen_kinds_ok as G. rewrite forallb_forall in G. specialize (G _ H).
  unfold kind_entry_ok in G. cbn [fst snd] in G.
  destruct (assoc name c_enum_primitive_types) as [fs|]; [|discriminate]. exists fs. split; [reflexivity|].
  destruct (kind_of_flags fs) as [k'|]; [|discriminate]. apply N.eqb_eq in G. congruence.
Qed.
Print Assumptions C06_kinds_agree_with_flags.

(* _cffi_prim_int(size, sign), for ALL integers size: for 1,2,4,8 the index of intN_t / uintN_t (N = 8*size),
   whose backend flags carry the requested signedness; for every other size _CFFI__UNKNOWN_PRIM (-1) *)
Theorem C06_prim_int_correct : forall size sign,
  (In size [1; 2; 4; 8] ->
     exists i fs, prim_int c_idents c_prim_int size sign = Some i /\
                  name_of c_primitive_name i = Some (intn_name size sign) /\
                  assoc (intn_name size sign) c_enum_primitive_types = Some fs /\
                  has_flag CT_PRIMITIVE_SIGNED fs = sign /\ has_flag CT_PRIMITIVE_UNSIGNED fs = negb sign) /\
  (~ In size [1; 2; 4; 8] -> prim_int c_idents c_prim_int size sign = Some (-1)).
Proof.
  intros size sign. split.
  - intros Hin. pose proof gen_prim_int_ok as G. rewrite forallb_forall in G. specialize (G _ Hin).
    apply andb_true_iff in G. destruct G as [Gt Gf].
    assert (H : prim_int_ok size sign = true) by (destruct sign; assumption). clear Gt Gf.
    unfold prim_int_ok in H.
    destruct (prim_int c_idents c_prim_int size sign) as [i|] eqn:E1; [|discriminate].
    destruct (name_of c_primitive_name i) as [nm|] eqn:E2; [|discriminate].
    apply andb_true_iff in H. destruct H as [H1 H2]. apply cstr_eqb_eq in H1. subst nm.
    destruct (assoc (intn_name size sign) c_enum_primitive_types) as [fs|] eqn:E3; [|discriminate].
    apply andb_true_iff in H2. destruct H2 as [H2 H3]. apply Bool.eqb_prop in H2. apply Bool.eqb_prop in H3.
    exists i, fs. repeat split; assumption.
  - intros Hn. unfold prim_int. rewrite prim_int_cases_default by (rewrite gen_prim_int_sizes; exact Hn).
    vm_compute. reflexivity.
Qed.
Print Assumptions C06_prim_int_correct.

(* search_standard_typename, for ALL strings p (any length, any bytes): a hit is the primitive of exactly
   that name *)
Theorem C06_std_typename_sound : forall (p : cstr) i,
  search_std c_prim c_std_typename p = Some i -> name_of c_primitive_name i = Some p.
Proof. exact std_typename_sound. Qed.
Print Assumptions C06_std_typename_sound.

(* ... and every primitive whose name ends in "_t" is found at its own index (all i) *)
Theorem C06_std_typename_complete : forall i nm,
  name_of c_primitive_name i = Some nm -> ends_with_t nm = true ->
  search_std c_prim c_std_typename nm = Some i.
Proof. exact std_typename_complete. Qed.
Print Assumptions C06_std_typename_complete.

(* the generic statement behind C06_std_typename_sound: it holds for every table passing table_ok *)
Theorem C06_std_typename_sound_any_table : forall prims names tb p i,
  table_ok prims names tb = true -> search_std prims tb p = Some i -> name_of names i = Some p.
Proof. exact search_std_sound. Qed.
Print Assumptions C06_std_typename_sound_any_table.

(* the numbers of the regenerated switch cascade meet the conditions under which the C reads stay in bounds:
   every memcmp length is at most |literal|+1 and at most the size tested before it, every p[POS] has POS below the
   minimal size of its branch.  A check on the table only: the model reads with nth/firstn, which cannot leave a
   list, so the reads themselves are not a theorem here *)
Theorem C06_std_reads_in_bounds : reads_in_bounds c_std_typename = true.
Proof. vm_compute. reflexivity. Qed.
Print Assumptions C06_std_reads_in_bounds.

(* the index the C parser gives a *_t name is the one the Python code generator emits for it *)
Theorem C06_std_typename_matches_python : forall name,
  In name (map fst py_all_primitive_types) -> ends_with_t name = true ->
  exists id i, In (name, id) py_primitive_to_index /\ assoc id py_prim = Some i /\
               search_std c_prim c_std_typename name = Some i.
Proof.
  intros name Hin He.
  apply (proj1 (same_set_iff _ _ (proj1 gen_same_names) name)) in Hin.
  apply in_map_iff in Hin. destruct Hin as [[n id] [Hn Hin]]. cbn in Hn. subst n.
  destruct (p2i_forward _ _ Hin) as [i [Hi Hname]].
  exists id, i. exact (conj Hin (conj Hi (std_typename_complete _ _ Hname He))).
Qed.
Print Assumptions C06_std_typename_matches_python.

(* C06 x C07: the primitive layer of the type-string parser model (coq/C07) is the regenerated one.
   C07.Model.search_standard_typename (a hand-written 36-row table used by the parser model and by every
   C07/C08/C30 theorem) returns, for ALL strings, what the regenerated switch cascade of
   search_standard_typename() returns *)
Theorem C06_C07_std_typename_same : forall s,
  C07.Model.search_standard_typename s = search_std c_prim c_std_typename s.
Proof.
  intros s. destruct (search_std c_prim c_std_typename s) as [i|] eqn:E6.
  - pose proof (std_typename_sound s i E6) as Hn. apply name_of_somes in Hn.
    pose proof (proj1 (forallb_forall _ _) std6_names_agree s Hn) as Hb. cbv beta in Hb.
    apply opt_z_eqb_eq in Hb. rewrite Hb. exact E6.
  - destruct (M7.search_standard_typename s) as [v|] eqn:E7; [|reflexivity].
    unfold M7.search_standard_typename in E7. apply assoc7_In in E7.
    pose proof (proj1 (forallb_forall _ _) std7_rows_found _ E7) as Hb. cbn [fst snd] in Hb.
    apply opt_z_eqb_eq in Hb. congruence.
Qed.
Print Assumptions C06_C07_std_typename_same.

(* the 18 PRIM_* constants C07.Model defines by hand (prim7: name, C07's value) are the _CFFI_PRIM_* of
   parse_c_type.h and the PRIM_* of cffi_opcode.py *)
Theorem C06_C07_prim_constants : forall n v, In (n, v) prim7 ->
  assoc n c_prim = Some v /\ assoc n py_prim = Some v.
Proof.
  intros n v H. pose proof (proj1 (forallb_forall _ _) prim7_ok_b _ H) as Hb.
  unfold prim_row_ok in Hb. cbn [fst snd] in Hb. apply andb_true_iff in Hb as [H1 H2].
  split; apply opt_z_eqb_eq; assumption.
Qed.
Print Assumptions C06_C07_prim_constants.

(* every row (words, index) of C07.PyModel.py_prims (the Python parser model's primitive table): the name
   ' '.join(words) has that index through cffi_opcode.PRIMITIVE_TO_INDEX / PRIM_* (void: PRIM_VOID; the two
   `_Complex` spellings through the COMMON_TYPES aliases, hand-copied in Compose07.py_aliases) *)
Theorem C06_C07_py_prims : forall ws v, In (ws, v) C07.PyModel.py_prims ->
  py_index_of (spell_words ws) = Some v.
Proof.
  intros ws v H. pose proof (proj1 (forallb_forall _ _) py_prims_ok_b _ H) as Hb. cbn [fst snd] in Hb.
  apply opt_z_eqb_eq. exact Hb.
Qed.
Print Assumptions C06_C07_py_prims.

(* non-vacuity *)
Example C06_example_search :
  map (search_std c_prim c_std_typename)
      [s2l "uint16_t"; s2l "uint_least64_t"; s2l "_cffi_double_complex_t"; s2l "int8_t"; s2l "size_t";
       s2l "uint16_x"; s2l "uint17_t"; s2l "int_t"; s2l "xint16_t"; s2l "_t"; []]
  = [Some 20; Some 37; Some 49; Some 17; Some 28; None; None; None; None; None; None].
Proof. vm_compute. reflexivity. Qed.

Example C06_example_tables :
  assoc (s2l "long double") py_all_primitive_types = Some 102%N /\
  assoc (s2l "ssize_t") py_primitive_to_index = Some (s2l "SSIZE") /\
  name_of c_primitive_name 29 = Some (s2l "ssize_t") /\ ends_with_t (s2l "ssize_t") = true /\
  prim_int c_idents c_prim_int 4 false = Some 22 /\ intn_name 4 false = s2l "uint32_t" /\
  prim_int c_idents c_prim_int 3 true = Some (-1).
Proof. vm_compute. repeat split. Qed.
