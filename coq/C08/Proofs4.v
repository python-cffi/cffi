(* C08 — the length of an array type is printed in full: `decimal n` (the model of sprintf "%llu") has no
   bound on the number of digits below the fuel 25, reads back as n, and needs at most 20 digits for a
   64-bit length; the buffer of new_array_type (size regenerated into Gen.v) must hold '[' digits ']' NUL. *)
From Coq Require Import List Arith NArith ZArith Lia Bool String.
Import ListNotations.
From Cffi Require Import C07.Model C07.Realize C08.Gen C08.Model.
Open Scope Z_scope.

(* reading a decimal numeral (strtoull without the checks) *)
Definition dec_value (s : str) : Z := fold_left (fun a c => a * 10 + (Z.of_N c - 48)) s 0.

Lemma dec_value_snoc : forall s c, dec_value (s ++ [c]) = dec_value s * 10 + (Z.of_N c - 48).
Proof. intros. unfold dec_value. rewrite fold_left_app. reflexivity. Qed.

Definition digit_of (n : Z) : N := N.of_nat (Z.to_nat (48 + n mod 10)).

Lemma digit_of_spec : forall n, Z.of_N (digit_of n) = 48 + n mod 10 /\ 0 <= n mod 10 < 10.
Proof.
  intros n. pose proof (Z.mod_pos_bound n 10 ltac:(lia)). unfold digit_of.
  rewrite nat_N_Z, Z2Nat.id by lia. lia.
Qed.

Lemma digit_of_is_digit : forall n, is_digit (digit_of n) = true.
Proof.
  intros n. destruct (digit_of_spec n). unfold is_digit, in_range.
  apply andb_true_iff. split; apply N.leb_le; lia.
Qed.

(* the accumulator, once: after this every fact is about dec_digits f n [], whose last digit is written last *)
Lemma dec_digits_acc : forall f n acc, dec_digits f n acc = dec_digits f n [] ++ acc.
Proof.
  induction f as [|f IH]; intros n acc; [reflexivity|]. cbn [dec_digits]. fold (digit_of n).
  destruct (n / 10 =? 0); [reflexivity|]. rewrite IH, (IH _ [_]), <- app_assoc. reflexivity.
Qed.

Lemma dec_digits_snoc : forall f n,
  dec_digits (S f) n [] = (if n / 10 =? 0 then [] else dec_digits f (n / 10) []) ++ [digit_of n].
Proof. intros. cbn [dec_digits]. fold (digit_of n). destruct (n / 10 =? 0); [reflexivity | apply dec_digits_acc]. Qed.

Lemma div10_bound : forall n k, 0 <= n < 10 ^ Z.of_nat (S k) -> 0 <= n / 10 < 10 ^ Z.of_nat k.
Proof.
  intros n k Hn. rewrite Nat2Z.inj_succ, Z.pow_succ_r in Hn by lia.
  split; [apply Z.div_pos; lia | apply Z.div_lt_upper_bound; lia].
Qed.

Lemma dec_digits_value : forall f n, 0 <= n < 10 ^ Z.of_nat f -> dec_value (dec_digits f n []) = n.
Proof.
  induction f as [|f IH]; intros n Hn; [cbn in *; lia|].
  rewrite dec_digits_snoc, dec_value_snoc. destruct (digit_of_spec n) as [-> _].
  pose proof (Z.div_mod n 10 ltac:(lia)). destruct (Z.eqb_spec (n / 10) 0) as [Hz|Hnz]; [change (dec_value []) with 0; lia|].
  rewrite IH by (apply div10_bound; exact Hn). lia.
Qed.

Lemma dec_digits_length : forall f n k, 0 <= n < 10 ^ Z.of_nat k -> (0 < k)%nat ->
  (List.length (dec_digits f n []) <= k)%nat.
Proof.
  induction f as [|f IH]; intros n k Hn Hk; [cbn; lia|].
  rewrite dec_digits_snoc, app_length. cbn [List.length]. destruct (Z.eqb_spec (n / 10) 0) as [Hz|Hnz]; [cbn; lia|].
  destruct k as [|k]; [lia|]. apply div10_bound in Hn.
  assert (0 < k)%nat by (destruct k; [cbn in Hn|]; lia). specialize (IH (n / 10) k Hn). lia.
Qed.

Lemma dec_digits_all_digits : forall f n, forallb is_digit (dec_digits f n []) = true.
Proof.
  induction f as [|f IH]; intros n; [reflexivity|]. rewrite dec_digits_snoc, forallb_app. cbn [forallb].
  rewrite digit_of_is_digit. destruct (n / 10 =? 0); [reflexivity | rewrite IH; reflexivity].
Qed.

Lemma dec_digits_leading : forall f n, 0 < n < 10 ^ Z.of_nat f ->
  exists c r, dec_digits f n [] = c :: r /\ c <> 48%N.
Proof.
  induction f as [|f IH]; intros n Hn; [cbn in Hn; lia|].
  rewrite dec_digits_snoc. destruct (Z.eqb_spec (n / 10) 0) as [Hz|Hnz].
  - exists (digit_of n), []. split; [reflexivity|].
    destruct (digit_of_spec n). pose proof (Z.div_mod n 10 ltac:(lia)). lia.
  - destruct (IH (n / 10)) as (c & r & -> & Hc); [pose proof (div10_bound n f ltac:(lia)); lia|].
    exists c, (r ++ [digit_of n]). split; [reflexivity | exact Hc].
Qed.

Lemma decimal_all_digits : forall n, forallb is_digit (decimal n) = true.
Proof. intros. apply dec_digits_all_digits. Qed.

Theorem array_length_rendered_in_full : forall n, 0 <= n < 2 ^ 64 ->
  dec_value (decimal n) = n /\ (List.length (decimal n) <= 20)%nat.
Proof.
  intros n Hn. change (2 ^ 64) with 18446744073709551616 in Hn. unfold decimal. split.
  - apply dec_digits_value. change (10 ^ Z.of_nat 25) with 10000000000000000000000000. lia.
  - apply (dec_digits_length 25 n 20); [|lia].
    change (10 ^ Z.of_nat 20) with 100000000000000000000. lia.
Qed.

(* what new_array_type writes into extra_text: '[' digits ']' and the terminating NUL *)
Definition array_extra_bytes (n : Z) : Z := Z.of_nat (List.length ([c_lbr] ++ decimal n ++ [c_rbr])) + 1.

Lemma array_extra_bytes_bound : forall n, 0 <= n < 2 ^ 64 -> array_extra_bytes n <= 23.
Proof.
  intros n Hn. unfold array_extra_bytes. rewrite !app_length. cbn [List.length].
  destruct (array_length_rendered_in_full n Hn) as [_ Hl]. lia.
Qed.

Lemma array_extra_bytes_attained : array_extra_bytes (2 ^ 64 - 1) = 23.
Proof. vm_compute. reflexivity. Qed.
