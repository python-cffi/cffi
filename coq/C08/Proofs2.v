(* C08 — ct_name with text inserted at ct_name_position is the C declaration of Spec.v. *)
From Coq Require Import List Arith NArith ZArith Lia Bool String.
Import ListNotations.
From Cffi Require Import C07.Model C07.Realize C08.Gen C08.Model C08.Proofs C08.Spec.

Lemma getcname_nil : forall T, getcname T [] = fst (cname T).
Proof. intros. unfold getcname, insert_at. cbn [app]. apply firstn_skipn. Qed.

(* both embeddings (Spec.emb, Spec.grp) at once *)
Definition hole_text (T : ctype) (d : str) (k : dkind) : str :=
  match k with
  | DTight => d
  | DStar => if is_array T then [c_lpar] ++ d ++ [c_rpar] else 32%N :: d
  end.

Lemma decl_is_getcname : forall T d k, decl T d k = getcname T (hole_text T d k).
Proof.
  fix IH 1. intros T d k. destruct T as [|p|t|t len|ret args ell|ak n sz].
  - cbn [decl]. unfold getcname. cbn [cname fst snd]. change 4 with (List.length (s2l "void")).
    rewrite insert_at_end. destruct k; reflexivity.
  - cbn [decl]. unfold getcname. cbn [cname fst snd]. rewrite insert_at_end. destruct k; reflexivity.
  - cbn [decl]. rewrite IH. rewrite getcname_ptr. cbn [hole_text is_array].
    destruct k; cbn [emb]; destruct (is_array t); reflexivity.
  - cbn [decl]. rewrite IH. rewrite getcname_arr. cbn [hole_text is_array]. unfold array_suffix.
    destruct k; cbn [grp]; reflexivity.
  - cbn [decl]. rewrite IH. rewrite getcname_func. cbn [hole_text is_array].
    assert (Hargs : map (fun a => decl a [] DTight) args = map (fun a => fst (cname a)) args).
    { clear - IH. induction args as [|a args IHa]; [reflexivity|]. cbn [map].
      rewrite IHa, IH. cbn [hole_text]. rewrite getcname_nil. reflexivity. }
    rewrite Hargs. destruct k; cbn [emb grp]; rewrite <- ?app_assoc; reflexivity.
  - cbn [decl]. unfold getcname. cbn [cname fst snd]. rewrite insert_at_end. destruct k; reflexivity.
Qed.

Theorem position_is_hole : forall T x, getcname T x = decl_string T x.
Proof. intros. unfold decl_string. rewrite decl_is_getcname. reflexivity. Qed.

Corollary cname_is_abstract_declarator : forall T, fst (cname T) = decl_string T [].
Proof. intros. rewrite <- position_is_hole. symmetry. apply getcname_nil. Qed.

(* getctype of both FFIs, in terms of the specification only: white space is stripped; a text that
   begins with '*' is a pointer declarator (precedence applies); '[' and '(' are suffixes and attach
   directly; anything else (a name) is separated from the type by one space *)
Definition getctype_spec (T : ctype) (replace_with : str) : str :=
  let x := strip replace_with in
  if first_is x c_star then decl T x DStar
  else if nonempty x && negb (first_is x c_lbr) && negb (first_is x c_lpar) then decl_string T (32%N :: x)
  else decl_string T x.

Lemma first_is_only : forall y a b, first_is y a = true -> a <> b -> first_is y b = false.
Proof.
  intros [|c y] a b H Hab; [reflexivity|]. cbn in *. apply N.eqb_eq in H. subst c. apply N.eqb_neq. exact Hab.
Qed.
