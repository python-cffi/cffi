(* C08 — the re-parsing half on the class kw_type (void and the keyword primitives _Bool ... long double, pointers,
   arrays of known length): for every such T that the backend can build, the C parser model of C07 (parse_c_type.c +
   realize) reads ct_name back, c_typeof osz g (fst (cname T)) = Some T (reparse_keyword_types).  syn turns T into a
   primitive index and a declarator tree sd; the tokens of the tree, laid out with cffi's blanks, spell fst (cname T)
   (go_text, through Spec.decl_string and Proofs2.cname_is_abstract_declarator); the tree applied to the primitive
   denotes T (go_meaning); C07.Agree.agree_partial equates the C parser on that spelling with the meaning of the tree. *)
From Coq Require Import List Arith NArith ZArith Lia Bool String.
Import ListNotations.
From Cffi Require Import C25.Model C07.Model C07.Realize C07.PyModel C07.Specs C07.Tables C07.Sequel C07.Sequel2 C07.Agree.
From Cffi Require Import C08.Gen C08.Model C08.Proofs C08.Spec C08.Proofs2 C08.Proofs4.

(* stars, then an optional parenthesised inner declarator, then array lengths:  * * ( inner ) [a][b] *)
Inductive sd := SDn (stars : nat) (inner : option sd) (arrs : list Z).

Fixpoint to_decl (s : sd) : PyModel.decl :=
  match s with
  | SDn st inner arrs =>
    D (repeat HStar st) None
      (match inner with Some i => Some (None, to_decl i) | None => None end)
      [] (map (fun n => ALLit (decimal n)) arrs)
  end.

(* T, outside-in: arrays are collected (outermost first), then the stars under them; an array found under
   stars closes the current segment, which becomes the parenthesised inner declarator of the next one *)
Fixpoint go (T : ctype) (arrs : list Z) (stars : nat) (grp : option sd) : option (Z * sd) :=
  match T with
  | CVoid => Some (0%Z, SDn stars grp arrs)
  | CPrim p => if ((1 <=? p) && (p <=? 15))%Z then Some (p, SDn stars grp arrs) else None
  | CPtr t => go t arrs (S stars) grp
  | CArr t (Some n) =>
    if ((0 <=? n) && (n <=? MAX_SSIZE_T))%Z then
      match stars with
      | O => go t (arrs ++ [n]) O grp
      | S _ => go t [n] O (Some (SDn stars grp arrs))
      end
    else None
  | _ => None
  end.
Definition syn (T : ctype) : option (Z * sd) := go T [] O None.

Fixpoint kw_type (T : ctype) : bool :=
  match T with
  | CVoid => true
  | CPrim p => ((1 <=? p) && (p <=? 15))%Z
  | CPtr t => kw_type t
  | CArr t (Some n) => ((0 <=? n) && (n <=? MAX_SSIZE_T))%Z && kw_type t
  | _ => false
  end.

Lemma go_total : forall T arrs stars grp, kw_type T = true -> exists p s, go T arrs stars grp = Some (p, s).
Proof.
  induction T as [|p|t IH|t IH len|ret _ args ell|k n sz]; intros arrs stars grp H; cbn in H; try discriminate.
  - eexists _, _. reflexivity.
  - cbn. rewrite H. eexists _, _. reflexivity.
  - cbn. apply IH. exact H.
  - destruct len as [n|]; [|discriminate]. apply andb_true_iff in H as [Hn Ht]. cbn. rewrite Hn.
    destruct stars; apply IH; exact Ht.
Qed.

(* go read as a relation: the five ways in which a call succeeds *)
Lemma go_cases (p : Z) (s : sd) (P : ctype -> list Z -> nat -> option sd -> Prop) :
  (forall arrs st gr, p = 0%Z -> s = SDn st gr arrs -> P CVoid arrs st gr) ->
  (forall arrs st gr, (1 <= p <= 15)%Z -> s = SDn st gr arrs -> P (CPrim p) arrs st gr) ->
  (forall t arrs st gr, P t arrs (S st) gr -> P (CPtr t) arrs st gr) ->
  (forall t n arrs gr, (0 <= n <= MAX_SSIZE_T)%Z -> P t (arrs ++ [n]) O gr -> P (CArr t (Some n)) arrs O gr) ->
  (forall t n arrs st gr, (0 <= n <= MAX_SSIZE_T)%Z ->
     P t [n] O (Some (SDn (S st) gr arrs)) -> P (CArr t (Some n)) arrs (S st) gr) ->
  forall T arrs st gr, go T arrs st gr = Some (p, s) -> P T arrs st gr.
Proof.
  intros Hvoid Hprim Hptr Harr0 HarrS.
  induction T as [|q|t IH|t IH len|ret _ args ell|k n sz]; intros arrs st gr H; cbn [go] in H; try discriminate.
  - injection H as <- <-. apply Hvoid; reflexivity.
  - destruct ((1 <=? q) && (q <=? 15))%Z eqn:E; [|discriminate]. injection H as <- <-.
    apply Hprim; [lia | reflexivity].
  - apply Hptr, IH, H.
  - destruct len as [n|]; [|discriminate].
    destruct ((0 <=? n) && (n <=? MAX_SSIZE_T))%Z eqn:En; [|discriminate].
    destruct st; [apply Harr0 | apply HarrS]; try lia; apply IH, H.
Qed.

Lemma go_prim_range : forall T arrs stars gr p s, go T arrs stars gr = Some (p, s) -> (0 <= p <= 15)%Z.
Proof. intros T arrs st gr p s. apply (go_cases p s (fun _ _ _ _ => (0 <= p <= 15)%Z)); intros; lia. Qed.

(* the tokens of a declarator tree, each with the blank cffi writes before it: one before a '*' that does not
   follow '(' (bare), none before a bracket or a length; sd_text is the text they spell *)
Definition stars_w (bare : bool) (n : nat) : list (str * str) :=
  match n with
  | O => []
  | S k => ((if bare then [] else [32%N]), [c_star]) :: repeat ([32%N], [c_star]) k
  end.
Definition arrs_w (arrs : list Z) : list (str * str) :=
  flat_map (fun n => [([], [c_lbr]); ([], decimal n); ([], [c_rbr])]) arrs.
Fixpoint sd_w (bare : bool) (s : sd) : list (str * str) :=
  match s with
  | SDn st inner arrs =>
    stars_w bare st
    ++ (match inner with Some i => [([], [c_lpar])] ++ sd_w true i ++ [([], [c_rpar])] | None => [] end)
    ++ arrs_w arrs
  end.
Definition flat (w : list (str * str)) : str := List.concat (map (fun wt => fst wt ++ snd wt) w).
Definition sd_text (bare : bool) (s : sd) : str := flat (sd_w bare s).

Definition base_name (p : Z) : str := if (p =? 0)%Z then s2l "void" else nth (Z.to_nat p) primitive_names [].

Lemma flat_app : forall a b, flat (a ++ b) = flat a ++ flat b.
Proof. intros. unfold flat. rewrite map_app, concat_app. reflexivity. Qed.

Lemma flat_cons : forall w t r, flat ((w, t) :: r) = w ++ t ++ flat r.
Proof. intros. unfold flat. cbn [map List.concat fst snd]. rewrite <- app_assoc. reflexivity. Qed.

Lemma stars_w_step : forall b n, stars_w b (S n) = ((if b then [] else [32%N]), [c_star]) :: stars_w false n.
Proof. intros b [|k]; reflexivity. Qed.

Lemma sd_text_SDn : forall b st inner arrs,
  sd_text b (SDn st inner arrs) =
  flat (stars_w b st) ++ (match inner with Some i => [c_lpar] ++ sd_text true i ++ [c_rpar] | None => [] end)
  ++ flat (arrs_w arrs).
Proof.
  intros. unfold sd_text. cbn [sd_w]. rewrite !flat_app. destruct inner; [|reflexivity].
  cbn [app]. rewrite flat_cons, flat_app, flat_cons. reflexivity.
Qed.

Lemma flat_arrs_snoc : forall arrs n, flat (arrs_w (arrs ++ [n])) = flat (arrs_w arrs) ++ [c_lbr] ++ decimal n ++ [c_rbr].
Proof. intros. unfold arrs_w. rewrite flat_map_app, flat_app. reflexivity. Qed.

Definition kind_of (stars : nat) : dkind := match stars with O => DTight | S _ => DStar end.

Lemma emb_sd_text : forall st gr arrs,
  emb (sd_text true (SDn st gr arrs)) (kind_of st) = sd_text false (SDn st gr arrs).
Proof. intros [|st] gr arrs; [reflexivity|]. rewrite !sd_text_SDn, !stars_w_step, !flat_cons. reflexivity. Qed.

Lemma go_text : forall T arrs stars gr p s, go T arrs stars gr = Some (p, s) ->
  decl T (sd_text true (SDn stars gr arrs)) (kind_of stars) = base_name p ++ sd_text false s.
Proof.
  intros T arrs st gr p s. revert T arrs st gr.
  apply (go_cases p s (fun T arrs st gr =>
           decl T (sd_text true (SDn st gr arrs)) (kind_of st) = base_name p ++ sd_text false s)).
  - intros arrs st gr -> ->. cbn [decl]. rewrite emb_sd_text. reflexivity.
  - intros arrs st gr Hp ->. cbn [decl]. rewrite emb_sd_text. unfold base_name.
    replace (p =? 0)%Z with false by (symmetry; apply Z.eqb_neq; lia). reflexivity.
  - intros t arrs st gr <-. cbn [decl kind_of]. rewrite emb_sd_text, !sd_text_SDn, stars_w_step, flat_cons. reflexivity.
  - intros t n arrs gr _ <-. cbn [decl kind_of Spec.grp]. rewrite !sd_text_SDn, flat_arrs_snoc, <- !app_assoc. reflexivity.
  - intros t n arrs st gr _ <-. cbn [decl kind_of Spec.grp]. rewrite (sd_text_SDn true O).
    unfold array_suffix, arrs_w. cbn [flat_map].
    (* the digits as a variable: left in place, the conversion below unfolds dec_digits *)
    generalize (decimal n). intros d. reflexivity.
Qed.

Lemma cname_is_syn_text : forall T p s, syn T = Some (p, s) -> fst (cname T) = base_name p ++ sd_text false s.
Proof.
  intros T p s H. rewrite cname_is_abstract_declarator. unfold decl_string.
  exact (go_text T [] O None p s H).
Qed.

(* the pairs of sd_w are the tokens of the tree (sd_w_tokens), validly separated whatever stands before them
   (sd_w_sep): no word among them except a length, which follows '[' *)
Lemma decl_tokens_to_decl : forall st inner arrs,
  decl_tokens (to_decl (SDn st inner arrs)) =
  repeat [c_star] st
  ++ (match inner with Some i => [[c_lpar]] ++ decl_tokens (to_decl i) ++ [[c_rpar]] | None => [] end)
  ++ List.concat (map alen_tokens (map (fun n => ALLit (decimal n)) arrs)).
Proof.
  intros. cbn [to_decl decl_tokens]. f_equal.
  - induction st; cbn; [reflexivity|]. rewrite IHst. reflexivity.
  - destruct inner; reflexivity.
Qed.

Lemma sd_w_tokens : forall s b, map snd (sd_w b s) = decl_tokens (to_decl s).
Proof.
  fix IH 1. intros [st inner arrs] b. rewrite decl_tokens_to_decl. cbn [sd_w]. rewrite !map_app.
  apply f_equal2; [|apply f_equal2].
  - destruct st; [reflexivity|]. cbn [stars_w map repeat snd]. apply f_equal.
    induction st as [|st IHs]; [reflexivity|]. cbn [repeat map snd]. rewrite IHs. reflexivity.
  - destruct inner as [i|]; [|reflexivity]. rewrite !map_app, IH. reflexivity.
  - induction arrs as [|n arrs IHa]; [reflexivity|].
    change (arrs_w (n :: arrs)) with ([([], [c_lbr]); ([], decimal n); ([], [c_rbr])] ++ arrs_w arrs).
    rewrite map_app, IHa. reflexivity.
Qed.

Lemma sep_ok_loose : forall prev w t rest, is_ws w = true -> (wordy_end prev && wordy_start t)%bool = false ->
  sep_ok prev ((w, t) :: rest) = sep_ok t rest.
Proof. intros prev w t rest Hw Ht. cbn [sep_ok]. rewrite Hw, Ht. reflexivity. Qed.

Lemma sep_ok_app : forall a b prev, sep_ok prev a = true -> (forall x, sep_ok x b = true) -> sep_ok prev (a ++ b) = true.
Proof.
  induction a as [|[w t] a IH]; intros b prev Ha Hb; [apply Hb|]. cbn [app sep_ok] in *.
  apply andb_true_iff in Ha as [-> Ha]. apply IH; assumption.
Qed.

Lemma sd_w_sep : forall s b prev, sep_ok prev (sd_w b s) = true.
Proof.
  fix IH 1. intros [st inner arrs] b prev. cbn [sd_w]. apply sep_ok_app; [|intros x; apply sep_ok_app; [|intros y]].
  - destruct st as [|st]; [reflexivity|]. cbn [stars_w]. rewrite sep_ok_loose by (destruct b; reflexivity || apply andb_false_r).
    induction st as [|st IHs]; [reflexivity|]. cbn [repeat]. rewrite sep_ok_loose by reflexivity. exact IHs.
  - destruct inner as [i|]; [|reflexivity]. cbn [app]. rewrite sep_ok_loose by (reflexivity || apply andb_false_r).
    apply sep_ok_app; [apply IH | intros z; apply sep_ok_loose; reflexivity || apply andb_false_r].
  - revert y. induction arrs as [|n arrs IHa]; intros y; [reflexivity|].
    change (arrs_w (n :: arrs)) with ([([], [c_lbr]); ([], decimal n); ([], [c_rbr])] ++ arrs_w arrs). cbn [app].
    rewrite !sep_ok_loose by (reflexivity || apply andb_false_r). apply IHa.
Qed.

Lemma digit_val_digit : forall c, is_digit c = true ->
  digit_val c = Some (Z.of_N c - 48)%Z /\ (Z.of_N c - 48 <? 10)%Z = true.
Proof.
  intros c H. unfold digit_val. unfold is_digit in H. rewrite H. split; [reflexivity|].
  apply andb_true_iff in H as [H1 H2]. apply N.leb_le in H1. apply N.leb_le in H2. apply Z.ltb_lt. lia.
Qed.

Lemma digits_fold : forall s acc k, forallb is_digit s = true ->
  fst (digits 10 s acc k) = fold_left (fun a c => (a * 10 + (Z.of_N c - 48))%Z) s acc.
Proof.
  induction s as [|c s IH]; intros acc k H; [reflexivity|].
  cbn [forallb] in H. apply andb_true_iff in H as [Hc Hs]. destruct (digit_val_digit c Hc) as [Hv Hlt].
  cbn [digits fold_left]. rewrite Hv, Hlt. apply IH. exact Hs.
Qed.

Lemma all_digits_10 : forall s, forallb is_digit s = true -> all_digits 10 s = true.
Proof.
  intros s H. unfold all_digits. rewrite forallb_forall in *. intros c Hc.
  destruct (digit_val_digit c (H c Hc)) as [-> Hlt]. exact Hlt.
Qed.

Lemma py_int_decimal : forall n, (0 <= n <= MAX_SSIZE_T)%Z -> py_int (decimal n) = Some n.
Proof.
  intros n Hn. unfold MAX_SSIZE_T in Hn.
  destruct (Z.eq_dec n 0) as [->|Hnz]; [reflexivity|].
  pose proof (decimal_all_digits n) as Hd.
  assert (Hv : dec_value (decimal n) = n)
    by (apply array_length_rendered_in_full; change (2 ^ 64)%Z with 18446744073709551616%Z; lia).
  destruct (dec_digits_leading 25 n) as (c & r & E & Hc);
    [change (10 ^ Z.of_nat 25)%Z with 10000000000000000000000000%Z; lia|].
  fold (decimal n) in E. rewrite E in *.
  rewrite Tokens.py_int_decimal, all_digits_10, digits_fold by assumption.
  cbn [forallb] in Hd. apply andb_true_iff in Hd as [-> _]. cbn [andb]. f_equal. exact Hv.
Qed.

Lemma alen_val_decimal : forall gl n, (0 <= n <= MAX_SSIZE_T)%Z ->
  alen_val gl (ALLit (decimal n)) = Some (Some n).
Proof.
  intros gl n Hn. cbn [alen_val]. rewrite py_int_decimal by exact Hn.
  replace (n <=? MAX_SSIZE_T)%Z with true by (symmetry; apply Z.leb_le; lia). reflexivity.
Qed.

Lemma lenval_decimal : forall gl n, (0 <= n <= MAX_SSIZE_T)%Z -> lenval gl (ALLit (decimal n)) = Some n.
Proof. intros. unfold lenval. rewrite alen_val_decimal by assumption. reflexivity. Qed.

Definition sd_stars (s : sd) : nat := match s with SDn st _ _ => st end.
Definition group_ok (ok : sd -> Prop) (gr : option sd) : Prop :=
  match gr with Some i => (0 < sd_stars i)%nat /\ ok i | None => True end.
Definition sd_ok : sd -> Prop :=
  fix ok (s : sd) : Prop :=
    match s with
    | SDn st inner arrs => Forall (fun n => (0 <= n <= MAX_SSIZE_T)%Z) arrs /\ group_ok ok inner
    end.

Lemma plain_stars : forall n, forallb hitem_plain (repeat HStar n) = true.
Proof. induction n; cbn; auto. Qed.

Lemma arrays_valid : forall gl arrs, Forall (fun n => (0 <= n <= MAX_SSIZE_T)%Z) arrs ->
  Forall (fun a => alen_val gl a <> None) (map (fun n => ALLit (decimal n)) arrs).
Proof.
  intros gl arrs H. induction H as [|n arrs Hn _ IH]; cbn [map]; constructor; [|exact IH].
  rewrite alen_val_decimal by exact Hn. discriminate.
Qed.

Lemma to_decl_sdecl : forall gl s, sd_ok s -> sdecl gl (to_decl s).
Proof.
  intros gl. fix IH 1. intros [st inner arrs] [Ha Hi]. cbn [to_decl].
  destruct inner as [i|].
  - destruct Hi as [Hpos Hi]. apply SD1.
    + apply plain_stars.
    + apply arrays_valid. exact Ha.
    + apply IH. exact Hi.
    + destruct i as [ist iin iarrs]. cbn [to_decl sd_stars] in *. destruct ist; [lia|]. reflexivity.
  - apply SD0; [apply plain_stars | apply arrays_valid; exact Ha].
Qed.

Lemma go_ok : forall T arrs stars gr p s,
  Forall (fun n => (0 <= n <= MAX_SSIZE_T)%Z) arrs -> group_ok sd_ok gr ->
  go T arrs stars gr = Some (p, s) -> sd_ok s.
Proof.
  intros T arrs st gr p s Ha Hg H. revert T arrs st gr H Ha Hg.
  apply (go_cases p s (fun _ arrs _ gr =>
           Forall (fun n => (0 <= n <= MAX_SSIZE_T)%Z) arrs -> group_ok sd_ok gr -> sd_ok s)).
  - intros arrs st gr _ -> Ha Hg. split; assumption.
  - intros arrs st gr _ -> Ha Hg. split; assumption.
  - intros t arrs st gr IH. exact IH.
  - intros t n arrs gr Hn IH Ha Hg. apply IH; [|exact Hg].
    apply Forall_app. split; [exact Ha | constructor; [exact Hn | constructor]].
  - intros t n arrs st gr Hn IH Ha Hg. apply IH.
    + constructor; [exact Hn | constructor].
    + split; [cbn; lia | split; assumption].
Qed.

(* the C07 type tree of T; function types are outside the class kw_type and get a placeholder *)
Fixpoint mty_of (T : ctype) : mty :=
  match T with
  | CVoid => MVoid
  | CPrim p => MPrim p
  | CPtr t => MPtr (mty_of t)
  | CArr t len => MArr (mty_of t) len
  | CFunc r _ _ => MVoid
  | CAgg k n sz => MAgg k n sz
  end.

Lemma nstars_repeat : forall n, nstars (repeat HStar n) = n.
Proof. induction n; cbn; [reflexivity|]. unfold nstars in *. cbn. rewrite IHn. reflexivity. Qed.

Definition arrays_over (gl : list (str * gkind)) (arrs : list Z) (m : mty) : mty :=
  fold_right (fun a acc => MArr acc (lenval gl a)) m (map (fun n => ALLit (decimal n)) arrs).

Lemma apply_to_decl : forall gl st inner arrs m,
  apply_decl gl (to_decl (SDn st inner arrs)) m =
  let m2 := arrays_over gl arrs (wrap_ptrs st m) in
  match inner with Some i => apply_decl gl (to_decl i) m2 | None => m2 end.
Proof.
  intros. cbn [to_decl apply_decl fold_right]. rewrite nstars_repeat. unfold arrays_over.
  destruct inner; reflexivity.
Qed.

Lemma arrays_over_snoc : forall gl arrs n m, (0 <= n <= MAX_SSIZE_T)%Z ->
  arrays_over gl (arrs ++ [n]) m = arrays_over gl arrs (MArr m (Some n)).
Proof.
  intros. unfold arrays_over. rewrite map_app, fold_right_app. cbn [map fold_right].
  rewrite lenval_decimal by assumption. reflexivity.
Qed.

Lemma go_meaning : forall gl T arrs stars gr p s, go T arrs stars gr = Some (p, s) ->
  apply_decl gl (to_decl s) (prim_mty p) = apply_decl gl (to_decl (SDn stars gr arrs)) (mty_of T).
Proof.
  intros gl T arrs st gr p s. revert T arrs st gr.
  apply (go_cases p s (fun T arrs st gr =>
           apply_decl gl (to_decl s) (prim_mty p) = apply_decl gl (to_decl (SDn st gr arrs)) (mty_of T))).
  - intros arrs st gr -> ->. reflexivity.
  - intros arrs st gr Hp ->. unfold prim_mty.
    replace (p =? 0)%Z with false by (symmetry; apply Z.eqb_neq; lia). reflexivity.
  - intros t arrs st gr ->. rewrite !apply_to_decl. cbv zeta. rewrite wrap_ptrs_S. reflexivity.
  - intros t n arrs gr Hn ->. rewrite !apply_to_decl. cbv zeta. rewrite arrays_over_snoc by exact Hn. reflexivity.
  - intros t n arrs st gr Hn ->. rewrite (apply_to_decl gl O). cbv zeta. unfold arrays_over, wrap_ptrs.
    cbn [map fold_right Nat.iter mty_of]. rewrite lenval_decimal by exact Hn. reflexivity.
Qed.

Definition kw_words (p : Z) : list word :=
  nth (Z.to_nat p)
      [ [WB Bvoid]; [WB Bbool]; [WB Bchar]; [WM Msigned; WB Bchar]; [WM Munsigned; WB Bchar]; [WM Mshort];
        [WM Munsigned; WM Mshort]; [WB Bint]; [WM Munsigned; WB Bint]; [WM Mlong]; [WM Munsigned; WM Mlong];
        [WM Mlong; WM Mlong]; [WM Munsigned; WM Mlong; WM Mlong]; [WB Bfloat]; [WB Bdouble];
        [WM Mlong; WB Bdouble] ] [].
Definition base_tokens (p : Z) : list str := List.concat (map stok_tokens (map stok_of_word (kw_words p))).

Definition words_w (toks : list str) : list (str * str) :=
  match toks with [] => [] | t :: r => ([], t) :: map (pair [32%N]) r end.

Lemma words_w_snd : forall toks, map snd (words_w toks) = toks.
Proof. intros [|t r]; [reflexivity|]. cbn [words_w map snd]. rewrite map_map. cbn [snd]. rewrite map_id. reflexivity. Qed.

Definition kw_check (p : Z) : bool :=
  negb (match kw_words p with [] => true | _ => false end) && sign_ok (kw_words p)
  && match py_spec_abs (kw_words p) with Some q => (q =? p)%Z | None => false end
  && str_eqb (flat (words_w (base_tokens p))) (base_name p)
  && sep_ok [] (words_w (base_tokens p)).

Lemma kw_check_all : forallb kw_check (map Z.of_nat (seq 0 16)) = true.
Proof. vm_compute. reflexivity. Qed.

Lemma kw_facts : forall p, (0 <= p <= 15)%Z ->
  kw_words p <> [] /\ sign_ok (kw_words p) = true /\ py_spec_abs (kw_words p) = Some p /\
  flat (words_w (base_tokens p)) = base_name p /\ sep_ok [] (words_w (base_tokens p)) = true.
Proof.
  intros p Hp. pose proof kw_check_all as H. rewrite forallb_forall in H.
  assert (Hin : In p (map Z.of_nat (seq 0 16))).
  { apply in_map_iff. exists (Z.to_nat p). split; [lia|]. apply in_seq. lia. }
  specialize (H p Hin). unfold kw_check in H. rewrite !andb_true_iff in H.
  destruct H as [[[[Hne Hsign] Hspec] Hbase] Hsep].
  split; [intros E; rewrite E in Hne; discriminate|]. split; [exact Hsign|].
  split; [destruct (py_spec_abs (kw_words p)) as [q|]; [apply Z.eqb_eq in Hspec; congruence | discriminate]|].
  split; [apply str_eqb_eq; exact Hbase | exact Hsep].
Qed.

Theorem reparse_keyword_types : forall (g : genv) (osz : nat) T p s,
  syn T = Some (p, s) ->
  build (mty_of T) = Some (RT T) ->
  table_ok (map fst (g_globals g)) ->
  (S (nops (to_decl s)) <= osz)%nat -> (cost (to_decl s) < 999)%nat ->
  c_typeof osz g (fst (cname T)) = Some T.
Proof.
  intros g osz T p s Hsyn Hbuild Htab Hroom Hdepth.
  pose proof (go_prim_range _ _ _ _ _ _ Hsyn) as Hp.
  destruct (kw_facts p Hp) as (Hne & Hsign & Hspec & Hbase & Hsep).
  assert (Hok : sd_ok s) by (eapply (go_ok T [] O None); [constructor | exact I | exact Hsyn]).
  set (ws := kw_words p). set (d := to_decl s).
  assert (Hd : sdecl (g_globals g) d) by (apply to_decl_sdecl; exact Hok).
  set (wtoks := words_w (base_tokens p) ++ sd_w false s).
  assert (Hspell : spell wtoks [] = fst (cname T)).
  { unfold spell. fold (flat wtoks). unfold wtoks. rewrite app_nil_r, flat_app, Hbase.
    symmetry. apply cname_is_syn_text. exact Hsyn. }
  assert (Htok : map snd wtoks = te_tokens (simple_te [] ws d)).
  { unfold wtoks, simple_te. cbn [map app]. rewrite map_app, words_w_snd, sd_w_tokens, te_tokens_TE. reflexivity. }
  assert (Hseps : sep_ok [] wtoks = true) by (apply sep_ok_app; [exact Hsep | intros x; apply sd_w_sep]).
  rewrite <- Hspell, (agree_partial g osz [] ws d wtoks [] Hne Hsign Htab Hd Htok Hseps eq_refl Hroom Hdepth).
  unfold denote.
  assert (Hpy : denote_mty g (simple_te [] ws d) = Some (mty_of T)).
  { unfold simple_te. rewrite denote_mty_TE, filter_specs, denote_base_words by assumption.
    fold ws in Hspec. rewrite Hspec. cbn [option_map]. f_equal.
    unfold d. rewrite (go_meaning (g_globals g) T [] O None p s Hsyn).
    rewrite apply_to_decl. reflexivity. }
  rewrite Hpy, Hbuild. reflexivity.
Qed.
