(* C08 — insertion at ct_name_position composes (insert_compose), which gives the step equations getcname_ptr /
   _arr / _func and the '[' after the position exactly for arrays; names without '&' (no_amp, wf_names; the digits
   of an array length by Proofs4) make the marker test of FFI.getctype and the replace of get_c_name agree with
   ffi_getctype (getctype_agree, replace_char_marked). *)
From Coq Require Import List Arith NArith ZArith Lia Bool String.
Import ListNotations.
From Cffi Require Import Base.ListFacts C07.Model C07.Realize C08.Gen C08.Model C08.Proofs4.

Local Open Scope nat_scope.

Lemma insert_at_length n p x : List.length (insert_at n p x) = List.length n + List.length x.
Proof.
  unfold insert_at. rewrite !app_length.
  pose proof (firstn_skipn p n) as H. apply (f_equal (@List.length N)) in H. rewrite app_length in H. lia.
Qed.

Lemma split_at (n : str) p : p <= List.length n -> exists h t, n = h ++ t /\ List.length h = p.
Proof.
  intros Hp. exists (firstn p n), (skipn p n).
  split; [symmetry; apply firstn_skipn | apply firstn_length_le; exact Hp].
Qed.

Lemma insert_at_app h t x : insert_at (h ++ t) (List.length h) x = h ++ x ++ t.
Proof.
  unfold insert_at. rewrite skipn_length_app, firstn_app, Nat.sub_diag, firstn_all. cbn [firstn].
  rewrite app_nil_r. reflexivity.
Qed.

Lemma insert_at_end (n x : str) : insert_at n (List.length n) x = n ++ x.
Proof. unfold insert_at. rewrite firstn_all, skipn_all, app_nil_r. reflexivity. Qed.

Lemma insert_compose n p x k y : p <= List.length n -> k <= List.length x ->
  insert_at (insert_at n p x) (p + k) y = insert_at n p (insert_at x k y).
Proof.
  intros Hp Hk. destruct (split_at n p Hp) as (h & t & -> & <-). destruct (split_at x k Hk) as (a & b & -> & <-).
  rewrite !insert_at_app, <- app_length, <- app_assoc, (app_assoc h a), insert_at_app, <- !app_assoc.
  reflexivity.
Qed.

Lemma skipn_insert n p x k : p <= List.length n -> k <= List.length x ->
  skipn (p + k) (insert_at n p x) = skipn k x ++ skipn p n.
Proof.
  intros Hp Hk. destruct (split_at n p Hp) as (h & t & -> & <-). destruct (split_at x k Hk) as (a & b & -> & <-).
  rewrite insert_at_app, <- app_length, <- app_assoc, (app_assoc h a), !skipn_length_app. reflexivity.
Qed.

(* the function case has the same shape as on_top *)
Lemma cname_func ret args ell :
  cname (CFunc ret args ell) =
  on_top (cname ret)
         (s2l "(*)" ++ [c_lpar]
          ++ sep_commas (map (fun a => fst (cname a)) args ++ if ell then [s2l "..."] else [])
          ++ [c_rpar]) 2.
Proof.
  cbn [cname]. destruct (cname ret) as [rn rp]. unfold on_top, insert_at. cbn [fst snd].
  f_equal. rewrite <- !app_assoc. reflexivity.
Qed.

Lemma on_top_pos_le (b : str * nat) (e : str) k : snd b <= List.length (fst b) -> k <= List.length e ->
  snd (on_top b e k) <= List.length (fst (on_top b e k)).
Proof. intros Hb Hk. unfold on_top. cbn [fst snd]. rewrite insert_at_length. lia. Qed.

Lemma cname_pos_le : forall c, snd (cname c) <= List.length (fst (cname c)).
Proof.
  fix IH 1. intros c. destruct c as [|p|t|t len|ret args ell|k n sz]; try rewrite cname_func; cbn [cname].
  - cbn. lia.
  - apply le_n.
  - apply on_top_pos_le; [apply IH | destruct (is_array t); cbn; lia].
  - apply on_top_pos_le; [apply IH | lia].
  - apply on_top_pos_le; [apply IH | cbn; lia].
  - apply le_n.
Qed.

Definition tail_of (c : ctype) : str := skipn (snd (cname c)) (fst (cname c)).

(* a text put on top of a type's name: the hole moves into that text; what follows the hole is the rest of that text,
   then what followed the hole of the type *)
Lemma getcname_on_top t e k y : k <= List.length e ->
  insert_at (fst (on_top (cname t) e k)) (snd (on_top (cname t) e k)) y = getcname t (insert_at e k y).
Proof. intros Hk. apply insert_compose; [apply cname_pos_le | exact Hk]. Qed.

Lemma tail_on_top t e k : k <= List.length e ->
  skipn (snd (on_top (cname t) e k)) (fst (on_top (cname t) e k)) = skipn k e ++ tail_of t.
Proof. intros Hk. apply skipn_insert; [apply cname_pos_le | exact Hk]. Qed.

Theorem getcname_ptr t y :
  getcname (CPtr t) y =
  getcname t (if is_array t then [c_lpar; c_star] ++ y ++ [c_rpar] else [32%N; c_star] ++ y).
Proof.
  unfold getcname at 1. cbn [cname]. rewrite getcname_on_top by (destruct (is_array t); cbn; lia).
  destruct (is_array t); unfold insert_at; cbn; rewrite ?app_nil_r; reflexivity.
Qed.

Theorem getcname_arr t len y :
  getcname (CArr t len) y =
  getcname t (y ++ match len with Some n => [c_lbr] ++ decimal n ++ [c_rbr] | None => [c_lbr; c_rbr] end).
Proof. unfold getcname at 1. cbn [cname]. rewrite getcname_on_top by lia. reflexivity. Qed.

Theorem getcname_func ret args ell y :
  getcname (CFunc ret args ell) y =
  getcname ret ([c_lpar; c_star] ++ y ++ [c_rpar] ++ [c_lpar]
                ++ sep_commas (map (fun a => fst (cname a)) args ++ if ell then [s2l "..."] else [])
                ++ [c_rpar]).
Proof. unfold getcname at 1. rewrite cname_func, getcname_on_top by (cbn; lia). reflexivity. Qed.

Theorem tail_bracket_iff_array : forall c, first_is (tail_of c) c_lbr = is_array c.
Proof.
  fix IH 1. intros c. unfold tail_of.
  destruct c as [|p|t|t len|ret args ell|k n sz].
  - reflexivity.
  - cbn [cname fst snd]. rewrite skipn_all. reflexivity.
  - cbn [cname is_array]. rewrite tail_on_top by (destruct (is_array t); cbn; lia).
    specialize (IH t). destruct (is_array t); [reflexivity | exact IH].
  - cbn [cname is_array]. rewrite tail_on_top by lia. destruct len; reflexivity.
  - rewrite cname_func, tail_on_top by (cbn; lia). reflexivity.
  - cbn [cname fst snd]. rewrite skipn_all. reflexivity.
Qed.

Definition no_amp (s : str) : bool := forallb (fun c => negb (N.eqb c 38)) s.

Fixpoint wf_names (c : ctype) : bool :=
  match c with
  | CAgg _ n _ => no_amp n
  | CPtr t | CArr t _ => wf_names t
  | CFunc r args _ => wf_names r && forallb wf_names args
  | _ => true
  end.

Lemma no_amp_app a b : no_amp (a ++ b) = no_amp a && no_amp b.
Proof. unfold no_amp. apply forallb_app. Qed.

Lemma no_amp_split n s : no_amp s = true -> no_amp (firstn n s) = true /\ no_amp (skipn n s) = true.
Proof. intros H. rewrite <- (firstn_skipn n s), no_amp_app in H. apply andb_true_iff. exact H. Qed.

Lemma no_amp_firstn n s : no_amp s = true -> no_amp (firstn n s) = true.
Proof. intros H. apply (no_amp_split n s H). Qed.

Lemma no_amp_skipn n s : no_amp s = true -> no_amp (skipn n s) = true.
Proof. intros H. apply (no_amp_split n s H). Qed.

Lemma no_amp_insert n p x : no_amp n = true -> no_amp x = true -> no_amp (insert_at n p x) = true.
Proof.
  intros Hn Hx. destruct (no_amp_split p n Hn) as [Hf Hs].
  unfold insert_at. rewrite !no_amp_app, Hf, Hx, Hs. reflexivity.
Qed.

Lemma no_amp_digits s : forallb is_digit s = true -> no_amp s = true.
Proof.
  unfold no_amp. rewrite !forallb_forall. intros H c Hc. specialize (H c Hc).
  destruct (N.eqb_spec c 38); [subst c; discriminate H | reflexivity].
Qed.

Lemma no_amp_dec_digits : forall f n acc, no_amp acc = true -> no_amp (dec_digits f n acc) = true.
Proof. intros f n acc Ha. rewrite dec_digits_acc, no_amp_app, Ha, no_amp_digits by apply dec_digits_all_digits. reflexivity. Qed.

Lemma no_amp_prims : forallb no_amp primitive_names = true.
Proof. vm_compute. reflexivity. Qed.

Lemma no_amp_sep_commas l : forallb no_amp l = true -> no_amp (sep_commas l) = true.
Proof.
  destruct l as [|x r]; [reflexivity|]. cbn [forallb sep_commas]. intros H.
  apply andb_true_iff in H as [Hx Hr]. rewrite no_amp_app, Hx. cbn [andb].
  induction r as [|y r IH]; [reflexivity|]. cbn [map List.concat forallb] in *.
  apply andb_true_iff in Hr as [Hy Hr]. rewrite !no_amp_app, Hy, (IH Hr). reflexivity.
Qed.

Lemma cname_no_amp : forall c, wf_names c = true -> no_amp (fst (cname c)) = true.
Proof.
  fix IH 1. intros c Hw. destruct c as [|p|t|t len|ret args ell|k n sz].
  - reflexivity.
  - cbn [cname fst].
    destruct (nth_in_or_default (Z.to_nat p) primitive_names []) as [Hin|Hd].
    + pose proof no_amp_prims as H. rewrite forallb_forall in H. apply H. exact Hin.
    + rewrite Hd. reflexivity.
  - cbn [cname]. unfold on_top. cbn [fst]. apply no_amp_insert; [apply IH; exact Hw|].
    destruct (is_array t); reflexivity.
  - cbn [cname]. unfold on_top. cbn [fst]. apply no_amp_insert; [apply IH; exact Hw|].
    destruct len as [n|]; [|reflexivity].
    rewrite !no_amp_app, (no_amp_digits (decimal n)) by apply decimal_all_digits. reflexivity.
  - rewrite cname_func. unfold on_top. cbn [fst]. cbn [wf_names] in Hw.
    apply andb_true_iff in Hw as [Hr Ha].
    apply no_amp_insert; [apply IH; exact Hr|].
    rewrite !no_amp_app. cbn [andb].
    assert (Hargs : forallb no_amp (map (fun a => fst (cname a)) args) = true).
    { clear - IH Ha. induction args as [|a args IHa]; [reflexivity|]. cbn [forallb map] in *.
      apply andb_true_iff in Ha as [H0 H1]. rewrite (IH a H0), (IHa H1). reflexivity. }
    rewrite no_amp_sep_commas.
    + reflexivity.
    + rewrite forallb_app, Hargs. destruct ell; reflexivity.
  - cbn [cname fst]. exact Hw.
Qed.

Lemma contains_probe_cons c s : N.eqb c 38 = false -> contains [38%N; 91%N] (c :: s) = contains [38%N; 91%N] s.
Proof. intros H. cbn [contains is_prefix]. rewrite N.eqb_sym, H. reflexivity. Qed.

Lemma contains_no_amp : forall s, no_amp s = true -> contains [38%N; 91%N] s = false.
Proof.
  induction s as [|c s IH]; intros H; [reflexivity|].
  cbn [no_amp forallb] in H. apply andb_true_iff in H as [Hc Hs]. apply negb_true_iff in Hc.
  rewrite contains_probe_cons by exact Hc. apply IH. exact Hs.
Qed.

Lemma contains_marker : forall h t, no_amp h = true -> no_amp t = true ->
  contains [38%N; 91%N] (h ++ 38%N :: t) = first_is t 91%N.
Proof.
  induction h as [|c h IH]; intros t Hh Ht.
  - cbn [app contains is_prefix]. rewrite N.eqb_refl. cbn [andb].
    destruct t as [|x t']; [reflexivity|]. cbn [first_is is_prefix].
    rewrite N.eqb_sym. destruct (N.eqb x 91); [reflexivity|]. cbn [andb orb].
    apply contains_no_amp. exact Ht.
  - cbn [no_amp forallb] in Hh. apply andb_true_iff in Hh as [Hc Hh]. apply negb_true_iff in Hc.
    cbn [app]. rewrite contains_probe_cons by exact Hc. apply IH; assumption.
Qed.

Lemma getcname_split c : wf_names c = true ->
  exists h, no_amp h = true /\ no_amp (tail_of c) = true /\ forall r, getcname c r = h ++ r ++ tail_of c.
Proof.
  intros Hw. destruct (no_amp_split (snd (cname c)) _ (cname_no_amp c Hw)) as [Hf Hs].
  exists (firstn (snd (cname c)) (fst (cname c))). split; [exact Hf|]. split; [exact Hs | reflexivity].
Qed.

Theorem marker_test_iff_array : forall c, wf_names c = true ->
  contains py_probe (getcname c py_marker) = is_array c.
Proof.
  intros c Hw. destruct (getcname_split c Hw) as (h & Hh & Ht & E).
  rewrite E. unfold py_probe, py_marker. cbn [app]. rewrite contains_marker by assumption.
  apply tail_bracket_iff_array.
Qed.

(* the two flags of ffi_getctype read as the cascade of FFI.getctype: parentheses around a '*' on an array, else a
   blank before anything but a suffix, else the text as it is *)
Lemma getctype_c_cascade c x :
  getctype_c c x =
  let y := strip x in
  getcname c (if first_is y c_star && is_array c then [c_lpar] ++ y ++ [c_rpar]
              else if nonempty y && negb (first_is y c_lbr) && negb (first_is y c_lpar) then 32%N :: y else y).
Proof.
  unfold getctype_c. cbv zeta. destruct (first_is (strip x) c_star && is_array c); cbn [negb andb app]; [reflexivity|].
  rewrite app_nil_r. destruct (nonempty (strip x) && negb (first_is (strip x) c_lbr) && negb (first_is (strip x) c_lpar));
    reflexivity.
Qed.

Theorem getctype_agree : forall c x, wf_names c = true -> getctype_c c x = getctype_py c x.
Proof.
  intros c x Hw. rewrite getctype_c_cascade. unfold getctype_py. cbv zeta.
  rewrite (marker_test_iff_array c Hw).
  set (y := strip x).
  assert (Hstar : is_prefix py_star y = first_is y c_star).
  { unfold py_star. destruct y as [|a y']; [reflexivity|]. cbn. rewrite N.eqb_sym, andb_true_r. reflexivity. }
  assert (Hns : first_in y py_nospace = (first_is y c_lbr || first_is y c_lpar)%bool).
  { unfold py_nospace. destruct y as [|a y']; [reflexivity|]. cbn. rewrite orb_false_r. reflexivity. }
  rewrite Hstar, Hns, negb_orb, andb_assoc. reflexivity.
Qed.

Lemma replace_char_no_amp : forall s r, no_amp s = true -> replace_char s 38%N r = s.
Proof.
  induction s as [|c s IH]; intros r H; [reflexivity|].
  cbn [no_amp forallb] in H. apply andb_true_iff in H as [Hc Hs]. apply negb_true_iff in Hc.
  cbn [replace_char flat_map]. rewrite Hc. cbn [app]. f_equal. apply IH. exact Hs.
Qed.

Lemma replace_char_marked : forall h t r, no_amp h = true -> no_amp t = true ->
  replace_char (h ++ 38%N :: t) 38%N r = h ++ r ++ t.
Proof.
  intros h t r Hh Ht. unfold replace_char. rewrite flat_map_app. cbn [flat_map]. rewrite N.eqb_refl.
  fold (replace_char h 38%N r). fold (replace_char t 38%N r).
  rewrite !replace_char_no_amp by assumption. reflexivity.
Qed.

Lemma qualify_0 : forall x, qualify 0 x = x.
Proof. reflexivity. Qed.
