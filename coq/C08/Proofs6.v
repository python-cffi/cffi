(* C08 — the property's SECOND sentence, "getctype(T, x) names the type x builds over T", for the declarator
   texts x = "*", "[n]", "[]" and "( * )(args)":  ffi_getctype (ffi_obj.c:625) applied to T and that text returns
   exactly ct_name of the pointer / array / function-pointer type over T as the backend's constructors
   (new_pointer_type, new_array_type, fb_build_name; Model.cname) build it — for EVERY ctype T, including the
   parenthesis that an array T needs around '*'.  Nothing here speaks of the C parser: Props.v composes these
   with Proofs5.reparse_keyword_types (C08_typeof_getctype_suffix: typeof(getctype(T, "*")) = pointer-to-T and
   typeof(getctype(T, "[n]")) = T[n] on the re-parsing class). *)
From Coq Require Import List Arith NArith ZArith Lia Bool String.
Import ListNotations.
From Cffi Require Import C07.Model C07.Realize C08.Gen C08.Model C08.Proofs C08.Spec C08.Proofs2.

Lemma lstrip_cons_nonspace : forall c r, is_cspace c = false -> lstrip (c :: r) = c :: r.
Proof. intros c r H. cbn [lstrip]. rewrite H. reflexivity. Qed.

Lemma strip_bracketed : forall a m b, is_cspace a = false -> is_cspace b = false ->
  strip (a :: m ++ [b]) = a :: m ++ [b].
Proof.
  intros a m b Ha Hb. unfold strip. rewrite lstrip_cons_nonspace by exact Ha.
  change (a :: m ++ [b]) with ((a :: m) ++ [b]). rewrite rev_app_distr. cbn [rev app].
  rewrite lstrip_cons_nonspace by exact Hb.
  transitivity (rev (rev (a :: m)) ++ [b]); [reflexivity | rewrite rev_involutive; reflexivity].
Qed.

Lemma getctype_empty : forall T, getctype_c T [] = fst (cname T).
Proof. intros. unfold getctype_c. cbn. apply getcname_nil. Qed.

Lemma getctype_star : forall T, getctype_c T [c_star] = fst (cname (CPtr T)).
Proof.
  intros T. unfold getctype_c. change (strip [c_star]) with [c_star].
  cbn [first_is nonempty]. rewrite N.eqb_refl. cbn [cname on_top fst getcname].
  unfold getcname. destruct (is_array T); reflexivity.
Qed.

Lemma getctype_suffix_text : forall T x, strip x = x -> (first_is x c_lbr || first_is x c_lpar)%bool = true ->
  getctype_c T x = getcname T x.
Proof.
  intros T x Hs Hx. rewrite getctype_c_cascade, Hs. cbv zeta.
  assert (E : first_is x c_star = false /\ (negb (first_is x c_lbr) && negb (first_is x c_lpar))%bool = false).
  { destruct x as [|a x]; [discriminate|]. cbn in *. apply orb_true_iff in Hx as [Hx|Hx]; apply N.eqb_eq in Hx;
      subst a; split; reflexivity. }
  destruct E as [-> E]. rewrite <- andb_assoc, E, andb_false_r. reflexivity.
Qed.

Lemma getctype_array : forall T n, getctype_c T ([c_lbr] ++ decimal n ++ [c_rbr]) = fst (cname (CArr T (Some n))).
Proof. intros. apply getctype_suffix_text; [apply strip_bracketed|]; reflexivity. Qed.

Lemma getctype_open_array : forall T, getctype_c T [c_lbr; c_rbr] = fst (cname (CArr T None)).
Proof. intros. apply getctype_suffix_text; reflexivity. Qed.

(* x = "( * )(args)": the text fb_build_name puts at the position of the result type *)
Definition func_suffix (args : list ctype) (ell : bool) : str :=
  s2l "(*)" ++ [c_lpar] ++ sep_commas (map (fun a => fst (cname a)) args ++ if ell then [s2l "..."] else []) ++ [c_rpar].

Lemma getctype_funcptr : forall T args ell, getctype_c T (func_suffix args ell) = fst (cname (CFunc T args ell)).
Proof.
  intros T args ell. rewrite cname_func. apply getctype_suffix_text; [|reflexivity].
  unfold func_suffix. set (inner := sep_commas _).
  apply (strip_bracketed c_lpar ([c_star; c_rpar; c_lpar] ++ inner) c_rpar); reflexivity.
Qed.
