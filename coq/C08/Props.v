(* C08 — C type names round-trip through getctype and typeof.

   Model (C08/Model.v): `cname T` = (ct_name, ct_name_position) as built by ctypedescr_new_on_top,
   new_pointer_type, new_array_type, fb_build_name; `getcname` = b_getcname; `getctype_c` =
   ffi_getctype (ffi_obj.c); `getctype_py` = FFI.getctype (api.py) with its literals regenerated
   into C08/Gen.v.  Lemma files, in reading order: Proofs4 (the decimal numeral of an array length), Proofs (insertion
   at the position, marker test, get_c_name), Spec and Proofs2 (the position is the hole of the printer), Proofs6 (the
   one-step suffix texts), Proofs5 (re-parsing by C07's parser).

   FULL STATEMENT: for every ctype T and declarator text x, both FFIs: typeof(getctype(T)) is T and
   typeof(getctype(T, x)) is the type x builds over T.
   PROVED: the name position is the declarator hole: for every T and x, ct_name with x inserted at
   ct_name_position is the C declaration of T around x according to the independent precedence-based
   printer of C08/Spec.v (C08_position_is_hole; step lemmas _pointer, _array, _function); ffi_getctype
   is that printer applied to the stripped text, with '*' texts as pointer declarators
   (C08_getctype_is_spec); FFI.getctype and model.get_c_name (third copy of the logic, on the Python type
   objects) produce the same text as ffi_getctype for all x and all T whose names contain no '&' (wf_names;
   C08_getctype_c_eq_py, C08_get_c_name_eq_getctype); the marker test of FFI.getctype holds exactly for arrays
   (C08_marker_test).
   RE-PARSING HALF, PARTIAL: C08_reparse_keyword_types / C08_typeof_getctype_keyword_types prove the first
   sentence of the property, typeof(getctype(T)) = T, for the C-side parser (parse_c_type.c + realize, model
   of coq/C07; composition with C07.Agree.agree_partial) on the class named
   Proofs5.kw_type: void and the keyword primitives _Bool ... long double, pointers, arrays with a length,
   in any nesting (a part of C07's sub-grammar C07.Sequel.sdecl, which also admits open arrays and pointers to
   functions without parameters: ct_name prints those (the C parser model reads the names of CArr (CPrim 7) None
   and CFunc (CPrim 7) [] false back, by computation), but Proofs5.go has no case for them; qualifiers never appear in a ct_name).  SECOND SENTENCE (getctype(T, x) names the type x builds over T): C08_getctype_suffix_is_name — for EVERY
   T, ffi_getctype(T, "*"), (T, "[n]"), (T, "[]") and (T, "( * )(args)") return exactly ct_name of the backend's
   pointer-to-T / T[n] / T[] / function-pointer-returning-T type (with the parentheses an array T needs);
   C08_typeof_getctype_suffix composes the first two with the re-parsing theorem: typeof(getctype(T, "*")) = T* and
   typeof(getctype(T, "[n]")) = T[n] on the kw_type class (C side).  MISSING: function types, *_t / typedef / struct / union / enum names, open arrays, the
   Python-side parser (C07_agree_partial relates it to the C side on the same class), and getctype(T, x) for
   other x (identifiers, composite declarators such as "*[3]" or "( * )[3]").  Those are decided by the correspondence runs (both FFIs, gcc). *)
From Coq Require Import List Arith NArith ZArith Lia Bool String.
Import ListNotations.
From Cffi Require Import C07.Model C07.Realize C08.Gen C08.Model C08.Proofs C08.Spec C08.Proofs2 C08.Proofs4.
From Cffi Require C07.PyModel C07.Tables C07.Sequel C07.Sequel2 C07.Agree C08.Proofs5 C08.Proofs6.

(* ct_name_position never points outside the name *)
Theorem C08_position_in_range : forall T, (snd (cname T) <= List.length (fst (cname T)))%nat.
Proof. exact cname_pos_le. Qed.
Print Assumptions C08_position_in_range.

(* inserting y at the position of 'pointer to T' is inserting " *y" (or "( *y)" for arrays) at the
   position of T: the position is the declarator hole *)
Theorem C08_position_is_hole_pointer : forall T y,
  getcname (CPtr T) y =
  getcname T (if is_array T then [c_lpar; c_star] ++ y ++ [c_rpar] else [32%N; c_star] ++ y).
Proof. exact getcname_ptr. Qed.
Print Assumptions C08_position_is_hole_pointer.

Theorem C08_position_is_hole_array : forall T len y,
  getcname (CArr T len) y =
  getcname T (y ++ match len with Some n => [c_lbr] ++ decimal n ++ [c_rbr] | None => [c_lbr; c_rbr] end).
Proof. exact getcname_arr. Qed.
Print Assumptions C08_position_is_hole_array.

Theorem C08_position_is_hole_function : forall ret args ell y,
  getcname (CFunc ret args ell) y =
  getcname ret ([c_lpar; c_star] ++ y ++ [c_rpar] ++ [c_lpar]
                ++ sep_commas (map (fun a => fst (cname a)) args ++ if ell then [s2l "..."] else [])
                ++ [c_rpar]).
Proof. exact getcname_func. Qed.
Print Assumptions C08_position_is_hole_function.

(* the character after the hole is '[' exactly for array types *)
Theorem C08_tail_bracket_iff_array : forall T, first_is (tail_of T) c_lbr = is_array T.
Proof. exact tail_bracket_iff_array. Qed.
Print Assumptions C08_tail_bracket_iff_array.

(* FFI.getctype's test  '&[' in getcname(T, '&')  is true exactly for arrays (names without '&') *)
Theorem C08_marker_test : forall T, wf_names T = true ->
  contains py_probe (getcname T py_marker) = is_array T.
Proof. exact marker_test_iff_array. Qed.
Print Assumptions C08_marker_test.

(* ffi_getctype (C) and FFI.getctype (Python) return the same text, for every type whose names contain
   no '&' and every replacement text *)
Theorem C08_getctype_c_eq_py : forall T x, wf_names T = true -> getctype_c T x = getctype_py T x.
Proof. exact getctype_agree. Qed.
Print Assumptions C08_getctype_c_eq_py.

(* THE position theorem: for EVERY ctype T and EVERY text x, the name with x inserted at ct_name_position is
   `decl_string T x`, the declaration of T around the declarator x printed outside-in with C's precedence
   rule (C08/Spec.v, written without reference to names or positions) *)
Theorem C08_position_is_hole : forall T x, getcname T x = decl_string T x.
Proof. exact position_is_hole. Qed.
Print Assumptions C08_position_is_hole.

Theorem C08_cname_is_abstract_declarator : forall T, fst (cname T) = decl_string T [].
Proof. exact cname_is_abstract_declarator. Qed.
Print Assumptions C08_cname_is_abstract_declarator.

(* ffi_getctype in terms of the specification only (all T, all x) *)
Theorem C08_getctype_is_spec : forall T x, getctype_c T x = getctype_spec T x.
Proof.
  intros T x. rewrite getctype_c_cascade. unfold getctype_spec, decl_string. cbv zeta. set (y := strip x).
  rewrite !decl_is_getcname. cbn [hole_text].
  destruct (first_is y c_star) eqn:Es; cbn [andb];
    [|destruct (nonempty y && negb (first_is y c_lbr) && negb (first_is y c_lpar))%bool; reflexivity].
  (* a text that begins with '*' is not empty and begins with neither '[' nor '(' *)
  assert (Hne : nonempty y = true) by (destruct y; [discriminate|reflexivity]).
  rewrite Hne, (first_is_only y c_star c_lbr), (first_is_only y c_star c_lpar) by (assumption || discriminate).
  destruct (is_array T); reflexivity.
Qed.
Print Assumptions C08_getctype_is_spec.

(* model.BaseTypeByIdentity.get_c_name (quals = 0) applied to the '&'-marked name computes the same text *)
Theorem C08_get_c_name_eq_getctype : forall T x, wf_names T = true ->
  get_c_name_py (getcname T py_marker) x 0 = getctype_py T x.
Proof.
  intros T x Hw. unfold get_c_name_py, getctype_py.
  change gc_probe with py_probe. change gc_star with py_star. change gc_lparen with py_lparen.
  change gc_rparen with py_rparen. change gc_nospace with py_nospace. change gc_space with py_space.
  rewrite qualify_0. destruct (getcname_split T Hw) as (h & Hh & Ht & E).
  assert (Hrep : forall r, replace_char (getcname T py_marker) (hd 0%N gc_marker) r = getcname T r).
  { intros r. rewrite !E. apply replace_char_marked; assumption. }
  rewrite Hrep. f_equal. destruct (strip x); reflexivity.
Qed.
Print Assumptions C08_get_c_name_eq_getctype.

(* the length of an array type is printed IN FULL: for every 64-bit length n (in particular every
   Py_ssize_t length < 2^63) the numeral inside the brackets of the name reads back as n; it has up to 20
   digits, so "[n]" plus the terminating NUL needs up to 23 bytes (attained by 2^64-1) *)
Theorem C08_array_length_rendered_in_full : forall n, (0 <= n < 2 ^ 64)%Z ->
  dec_value (decimal n) = n /\ (List.length (decimal n) <= 20)%nat.
Proof. exact array_length_rendered_in_full. Qed.
Print Assumptions C08_array_length_rendered_in_full.

(* ... and the buffer `char extra_text[N]` of new_array_type (N regenerated from _cffi_backend.c into Gen.v)
   holds that text for every length *)
Theorem C08_array_name_buffer_suffices : forall n, (0 <= n < 2 ^ 64)%Z ->
  (array_extra_bytes n <= c_array_extra_text_size)%Z.
Proof.
  intros n Hn. pose proof (array_extra_bytes_bound n Hn).
  assert (23 <= c_array_extra_text_size)%Z by (vm_compute; discriminate). lia.
Qed.
Print Assumptions C08_array_name_buffer_suffices.

Example C08_example_lengths :
  fst (cname (CArr (CPrim 2) (Some 9223372036854775807%Z))) = s2l "char[9223372036854775807]" /\
  fst (cname (CPtr (CArr (CPrim 2) (Some 10000000000000%Z)))) = s2l "char(*)[10000000000000]" /\
  array_extra_bytes 10000000000000 = 17%Z /\ array_extra_bytes (2 ^ 64 - 1) = 23%Z.
Proof. vm_compute. repeat split; reflexivity. Qed.

(* the property's first sentence as a theorem, on the class `kw_type` (keyword primitives, pointers, arrays):
   the C parser reads ct_name / getctype(T, "") back as T.  `syn T = Some (p, s)` names the class (it holds for every
   T with kw_type T = true, C08_reparse_class); `build (mty_of T) = Some (RT T)` says that T is a type the backend
   can build (e.g. no array of void, total size within Py_ssize_t); osz and 999 are the parser's output-buffer size
   and nesting limit. *)
Theorem C08_reparse_keyword_types : forall (g : genv) (osz : nat) T p s,
  Proofs5.syn T = Some (p, s) ->
  build (Proofs5.mty_of T) = Some (RT T) ->
  Tables.table_ok (map fst (g_globals g)) ->
  (S (Sequel.nops (Proofs5.to_decl s)) <= osz)%nat -> (Sequel2.cost (Proofs5.to_decl s) < 999)%nat ->
  c_typeof osz g (fst (cname T)) = Some T.
Proof. exact Proofs5.reparse_keyword_types. Qed.
Print Assumptions C08_reparse_keyword_types.

Theorem C08_typeof_getctype_keyword_types : forall (g : genv) (osz : nat) T p s,
  Proofs5.syn T = Some (p, s) -> build (Proofs5.mty_of T) = Some (RT T) ->
  Tables.table_ok (map fst (g_globals g)) ->
  (S (Sequel.nops (Proofs5.to_decl s)) <= osz)%nat -> (Sequel2.cost (Proofs5.to_decl s) < 999)%nat ->
  c_typeof osz g (getctype_c T []) = Some T.
Proof. intros. rewrite Proofs6.getctype_empty. eapply Proofs5.reparse_keyword_types; eassumption. Qed.
Print Assumptions C08_typeof_getctype_keyword_types.

Theorem C08_reparse_class : forall T, Proofs5.kw_type T = true -> exists p s, Proofs5.syn T = Some (p, s).
Proof. intros T H. apply Proofs5.go_total. exact H. Qed.
Print Assumptions C08_reparse_class.

(* the property's second sentence for the one-step declarator texts, ALL T: getctype(T, x) is ct_name of the type the
   backend builds by applying x's constructor to T (new_pointer_type / new_array_type / fb_build_name) *)
Theorem C08_getctype_suffix_is_name : forall T,
  getctype_c T (s2l "*") = fst (cname (CPtr T)) /\
  (forall n, getctype_c T ([c_lbr] ++ decimal n ++ [c_rbr]) = fst (cname (CArr T (Some n)))) /\
  getctype_c T (s2l "[]") = fst (cname (CArr T None)) /\
  (forall args ell, getctype_c T (Proofs6.func_suffix args ell) = fst (cname (CFunc T args ell))).
Proof.
  intros T. split; [apply Proofs6.getctype_star|]. split; [apply Proofs6.getctype_array|].
  split; [apply Proofs6.getctype_open_array | apply Proofs6.getctype_funcptr].
Qed.
Print Assumptions C08_getctype_suffix_is_name.

(* ... and typeof of that text is the pointer / array type, on the re-parsing class (C-side parser); hypotheses as in
   C08_reparse_keyword_types, for the result type *)
Theorem C08_typeof_getctype_suffix : forall (g : genv) (osz : nat) T,
  Tables.table_ok (map fst (g_globals g)) ->
  (forall p s, Proofs5.syn (CPtr T) = Some (p, s) -> build (Proofs5.mty_of (CPtr T)) = Some (RT (CPtr T)) ->
     (S (Sequel.nops (Proofs5.to_decl s)) <= osz)%nat -> (Sequel2.cost (Proofs5.to_decl s) < 999)%nat ->
     c_typeof osz g (getctype_c T (s2l "*")) = Some (CPtr T)) /\
  (forall n p s, Proofs5.syn (CArr T (Some n)) = Some (p, s) ->
     build (Proofs5.mty_of (CArr T (Some n))) = Some (RT (CArr T (Some n))) ->
     (S (Sequel.nops (Proofs5.to_decl s)) <= osz)%nat -> (Sequel2.cost (Proofs5.to_decl s) < 999)%nat ->
     c_typeof osz g (getctype_c T ([c_lbr] ++ decimal n ++ [c_rbr])) = Some (CArr T (Some n))).
Proof.
  intros g osz T Htab. split.
  - intros p s Hs Hb Hr Hc. change (s2l "*") with [c_star]. rewrite Proofs6.getctype_star.
    eapply Proofs5.reparse_keyword_types; eassumption.
  - intros n p s Hs Hb Hr Hc. rewrite Proofs6.getctype_array. eapply Proofs5.reparse_keyword_types; eassumption.
Qed.
Print Assumptions C08_typeof_getctype_suffix.

(* non-vacuity: T = int[3]; "*" needs the parentheses; the hypotheses for "int( * )[3]" and "int[7][3]" hold *)
Example C08_example_suffix :
  let T := CArr (CPrim 7) (Some 3%Z) in
  let g := mkGenv [] [] [] [] in
  getctype_c T (s2l "*") = s2l "int(*)[3]" /\
  getctype_c T (s2l "[7]") = s2l "int[7][3]" /\ decimal 7 = s2l "7" /\
  getctype_c (CPrim 7) (Proofs6.func_suffix [CPrim 2; CPtr CVoid] true) = s2l "int(*)(char, void *, ...)" /\
  (exists p s, Proofs5.syn (CPtr T) = Some (p, s) /\ build (Proofs5.mty_of (CPtr T)) = Some (RT (CPtr T)) /\
               (S (Sequel.nops (Proofs5.to_decl s)) <= 100)%nat /\ (Sequel2.cost (Proofs5.to_decl s) < 999)%nat) /\
  c_typeof 100 g (getctype_c T (s2l "*")) = Some (CPtr T) /\
  c_typeof 100 g (getctype_c T (s2l "[7]")) = Some (CArr T (Some 7%Z)).
Proof.
  cbv zeta. split; [vm_compute; reflexivity|]. split; [vm_compute; reflexivity|]. split; [vm_compute; reflexivity|].
  split; [vm_compute; reflexivity|]. split.
  - eexists _, _. split; [vm_compute; reflexivity|]. split; [vm_compute; reflexivity|]. split; vm_compute; lia.
  - split; vm_compute; reflexivity.
Qed.

(* non-vacuity of the re-parsing theorem: array of 16 pointers to arrays of 3 pointers to unsigned long,
   empty declaration context *)
Example C08_example_reparse :
  let T := CArr (CPtr (CArr (CPtr (CPrim 10)) (Some 3%Z))) (Some 16%Z) in
  let g := mkGenv [] [] [] [] in
  Proofs5.kw_type T = true /\
  fst (cname T) = s2l "unsigned long *(" ++ s2l "*[16])[3]" /\
  (exists p s, Proofs5.syn T = Some (p, s) /\ build (Proofs5.mty_of T) = Some (RT T) /\
               (S (Sequel.nops (Proofs5.to_decl s)) <= 100)%nat /\ (Sequel2.cost (Proofs5.to_decl s) < 999)%nat) /\
  c_typeof 100 g (fst (cname T)) = Some T.
Proof.
  cbv zeta. split; [reflexivity|]. split; [vm_compute; reflexivity|]. split.
  - eexists _, _. split; [vm_compute; reflexivity|]. split; [vm_compute; reflexivity|]. split; vm_compute; lia.
  - vm_compute. reflexivity.
Qed.

(* non-vacuity *)
Example C08_example :
  let T := CArr (CPtr (CFunc (CPtr (CArr (CPrim 7) (Some 3%Z))) [CPrim 2; CPtr CVoid] true)) (Some 5%Z) in
  wf_names T = true /\
  fst (cname T) = s2l "int(*(* *[5])(char, void *, ...))[3]" /\
  getctype_c T (s2l " *x ") = s2l "int(*(* *(*x)[5])(char, void *, ...))[3]" /\
  getctype_py T (s2l " *x ") = s2l "int(*(* *(*x)[5])(char, void *, ...))[3]" /\
  getctype_c (CPtr (CPrim 7)) (s2l "v") = s2l "int * v" /\
  decl_string T (s2l "x") = s2l "int(*(* *x[5])(char, void *, ...))[3]" /\
  get_c_name_py (getcname T py_marker) (s2l "*x") 0 = s2l "int(*(* *(*x)[5])(char, void *, ...))[3]" /\
  qualify 5 (s2l " *x") = s2l " volatile const *x".
Proof. vm_compute. repeat split; reflexivity. Qed.
