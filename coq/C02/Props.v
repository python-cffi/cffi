(* C02 — Bitfield reads and writes are range-exact, round-trip and isolated.

   T: the field's integer ctype (unit size 1..8 bytes, signedness; _Bool is a 1-byte unsigned type),
   w = cf_bitsize, sh = cf_bitshift, `placement T w sh`: 1 <= w, 0 <= sh, sh + w <= 8 * size.
   data: the bytes of the storage unit (the only bytes the code reads or writes), v: ANY Python int.
   BUB = C undefined behaviour (shift count out of range, signed overflow).
   Spec (C02/Spec.v): the field is bits [sh, sh+w) of the little-endian unit; c_bitfield_value is
   their unsigned / two's complement reading; accepted = representable range, plus 1 for a signed
   1-bit field. *)
From Coq Require Import ZArith List Bool Lia.
From Cffi Require Import C03.Mem C03.Store C02.Spec C02.Model C02.Proofs C02.IR C02.Gen C02.Interp C02.GenProofs.
From Cffi Require Import C02.Proofs2 C02.Layout.
From Cffi Require C01.Spec C01.Model.
Import ListNotations.
Open Scope Z_scope.

(* no shift by >= 64, no signed overflow is ever evaluated — including full-width (64-bit) fields *)
Theorem C02_no_ub : forall T w sh v data, placement T w sh -> unit_ok T data ->
  fst (bf_write T w sh v data) <> BUB /\ bf_read T w sh data <> BUB.
Proof. exact no_ub. Qed.
Print Assumptions C02_no_ub.

(* assignment succeeds iff v is in the field's range (a signed 1-bit field also accepts 1) *)
Theorem C02_accept_iff : forall T w sh v data, placement T w sh -> unit_ok T data ->
  (exists data', bf_write T w sh v data = (BOk tt, data')) <-> accepted (isigned T) w v.
Proof. exact accept_iff. Qed.
Print Assumptions C02_accept_iff.

(* ... after which reading the field returns v (-1 for that signed 1-bit case) *)
Theorem C02_roundtrip : forall T w sh v data data', placement T w sh -> unit_ok T data ->
  bf_write T w sh v data = (BOk tt, data') ->
  bf_read T w sh data' = BOk (if isigned T && (w =? 1) && (v =? 1) then -1 else v).
Proof. exact roundtrip. Qed.
Print Assumptions C02_roundtrip.

(* ... and no other bit of the storage unit has changed: the new unit has the same length and every
   bit outside [sh, sh+w) is the old bit (the enclosing object: C02_isolated_object below) *)
Theorem C02_isolated : forall T w sh v data data', placement T w sh -> unit_ok T data ->
  bf_write T w sh v data = (BOk tt, data') ->
  unit_ok T data' /\
  forall i, 0 <= i -> ~ (sh <= i < sh + w) ->
    Z.testbit (read_raw_unsigned data') i = Z.testbit (read_raw_unsigned data) i.
Proof. exact isolated. Qed.
Print Assumptions C02_isolated.

(* the same inside the enclosing object `mem` (any struct/union content around the unit, which
   sits at byte offset `off`): an accepted write keeps the object's length, every byte outside the
   unit and every bit of the unit outside [sh, sh+w), and reads back v; a rejected one returns
   the object unchanged *)
Theorem C02_isolated_object : forall T w sh v off mem, placement T w sh ->
  (off + isize T <= List.length mem)%nat -> bytes_ok mem ->
  let r := bf_write_at T w sh v off mem in
  if acceptb (isigned T) w v then
    fst r = BOk tt /\
    List.length (snd r) = List.length mem /\
    (forall j d, (j < off \/ off + isize T <= j)%nat -> nth j (snd r) d = nth j mem d) /\
    (forall i, 0 <= i -> ~ (sh <= i < sh + w) ->
       Z.testbit (read_raw_unsigned (unit_at off (isize T) (snd r))) i =
       Z.testbit (read_raw_unsigned (unit_at off (isize T) mem)) i) /\
    bf_read_at T w sh off (snd r) = BOk (if isigned T && (w =? 1) && (v =? 1) then -1 else v)
  else r = (BErr OverflowError, mem).
Proof.
  intros T w sh v off mem P Hlen Hb. cbv zeta. unfold bf_write_at, bf_read_at.
  pose proof (unit_ok_unit_at T off mem Hlen Hb) as U.
  pose proof (write_exact T w sh v _ P U) as H.
  destruct (acceptb (isigned T) w v).
  - destruct H as [d' [E [[L' B'] Bits]]]. rewrite E. cbn [fst snd].
    split; [reflexivity|]. split; [apply MemProofs.splice_length; lia|].
    split; [intros j d Hj; apply MemProofs.nth_splice_outside; lia|].
    assert (unit_at off (isize T) (splice off d' mem) = d') as ->
      by (rewrite <- L'; apply MemProofs.unit_at_splice; lia).
    split; [|exact (roundtrip T w sh v _ d' P U E)].
    intros i Hi Out. rewrite Bits by exact Hi.
    rewrite in_field_outside by exact Out. reflexivity.
  - rewrite H. cbn. rewrite MemProofs.splice_same by exact Hlen. reflexivity.
Qed.
Print Assumptions C02_isolated_object.

(* isolation with respect to the OTHER fields of the object (absolute-bit view, C02/Proofs2.v).
   The object `mem` is one little-endian number; a field (T, w, sh) at byte offset `off` is its bits
   [8*off+sh, 8*off+sh+w), whatever the type and offset of the storage unit it is accessed through. *)
Theorem C02_read_abs : forall T w sh off mem, placement T w sh ->
  (off + isize T <= List.length mem)%nat -> bytes_ok mem ->
  bf_read_at T w sh off mem =
  BOk (c_bitfield_value (isigned T) w (8 * Z.of_nat off + sh) (decode_le mem)).
Proof. exact read_abs. Qed.
Print Assumptions C02_read_abs.

(* a write (any v, accepted or rejected) keeps the object's length and changes no bit of the object
   outside the field's absolute range *)
Theorem C02_write_frame_abs : forall T w sh v off mem, placement T w sh ->
  (off + isize T <= List.length mem)%nat -> bytes_ok mem ->
  let mem' := snd (bf_write_at T w sh v off mem) in
  List.length mem' = List.length mem /\ bytes_ok mem' /\
  forall j, 0 <= j -> ~ (8 * Z.of_nat off + sh <= j < 8 * Z.of_nat off + sh + w) ->
    Z.testbit (decode_le mem') j = Z.testbit (decode_le mem) j.
Proof. exact write_frame_abs. Qed.
Print Assumptions C02_write_frame_abs.

(* two bit-fields with disjoint absolute bit ranges — their storage units may have different types
   and offsets and overlap partially, e.g. `char a:3; int b:5` — : writing one never changes what
   is read through the other *)
Theorem C02_fields_noninterfere : forall T1 w1 sh1 off1 T2 w2 sh2 off2 v mem,
  placement T1 w1 sh1 -> placement T2 w2 sh2 ->
  (off1 + isize T1 <= List.length mem)%nat -> (off2 + isize T2 <= List.length mem)%nat ->
  bytes_ok mem ->
  (8 * Z.of_nat off1 + sh1 + w1 <= 8 * Z.of_nat off2 + sh2 \/
   8 * Z.of_nat off2 + sh2 + w2 <= 8 * Z.of_nat off1 + sh1) ->
  bf_read_at T2 w2 sh2 off2 (snd (bf_write_at T1 w1 sh1 v off1 mem)) = bf_read_at T2 w2 sh2 off2 mem.
Proof. exact fields_noninterfere. Qed.
Print Assumptions C02_fields_noninterfere.

(* ... nor the bytes [off2, off2+n2) of a neighbouring member that is not a bit-field *)
Theorem C02_field_write_keeps_bytes : forall T1 w1 sh1 off1 v mem off2 n2,
  placement T1 w1 sh1 -> (off1 + isize T1 <= List.length mem)%nat ->
  (off2 + n2 <= List.length mem)%nat -> bytes_ok mem ->
  (8 * Z.of_nat off1 + sh1 + w1 <= 8 * Z.of_nat off2 \/
   8 * Z.of_nat (off2 + n2) <= 8 * Z.of_nat off1 + sh1) ->
  unit_at off2 n2 (snd (bf_write_at T1 w1 sh1 v off1 mem)) = unit_at off2 n2 mem.
Proof. exact field_write_keeps_bytes. Qed.
Print Assumptions C02_field_write_keeps_bytes.

(* Composition with the layout function (C01 model of b_complete_struct_or_union): in ANY struct of
   C01's class without (anonymous) unions and with bit-field types of size <= alignment, for any two
   distinct entries c1, c2 of the field table the layout function emits (anonymous structs' fields
   included) with c1 a bit-field: the placement premises hold (C01_fields_within_object — the unit
   lies inside the object), and writing c1 (any v) changes neither what is read through c2 if c2 is
   a bit-field, nor the bytes of c2 otherwise.  `ity_for T c`: T is any integer ctype (either
   signedness) whose size is the size the layout function computed for c's declared type, <= 8. *)
Theorem C02_layout_fields_disjoint : forall t ti,
  C01.Spec.in_class t -> C01.Spec.bf_size_le_align t -> C01.Spec.union_free t ->
  C01.Model.cffi_layout t = C01.Model.Ok ti ->
  forall i j c1 c2, i <> j ->
  nth_error (C01.Model.ti_fields ti) i = Some c1 -> nth_error (C01.Model.ti_fields ti) j = Some c2 ->
  0 <= C01.Model.cf_bitsize c1 ->
  forall T1 v mem, ity_for T1 c1 -> C01.Model.ti_size ti <= Z.of_nat (List.length mem) -> bytes_ok mem ->
  let w1 := C01.Model.cf_bitsize c1 in let sh1 := C01.Model.cf_bitshift c1 in
  let off1 := Z.to_nat (C01.Model.cf_offset c1) in
  let w2 := C01.Model.cf_bitsize c2 in let sh2 := C01.Model.cf_bitshift c2 in
  let off2 := Z.to_nat (C01.Model.cf_offset c2) in
  let mem' := snd (bf_write_at T1 w1 sh1 v off1 mem) in
  placement T1 w1 sh1 /\ (off1 + isize T1 <= List.length mem)%nat /\
  (0 <= w2 -> forall T2, ity_for T2 c2 -> bf_read_at T2 w2 sh2 off2 mem' = bf_read_at T2 w2 sh2 off2 mem) /\
  (w2 < 0 -> unit_at off2 (Z.to_nat (C01.Model.size_of (C01.Model.cf_type c2))) mem' =
             unit_at off2 (Z.to_nat (C01.Model.size_of (C01.Model.cf_type c2))) mem).
Proof. exact layout_fields_disjoint. Qed.
Print Assumptions C02_layout_fields_disjoint.

(* acceptb is the boolean form of `accepted` *)
Theorem C02_acceptb_spec : forall sg w v, 1 <= w -> acceptb sg w v = true <-> accepted sg w v.
Proof. exact acceptb_spec. Qed.
Print Assumptions C02_acceptb_spec.

(* _Bool fields.  C and gcc only admit width 1 ("width exceeds its type" otherwise), so the
   property's class contains `_Bool x:1` only; there the accepted values are exactly {0, 1}.
   (cffi's cdef also accepts `_Bool x:3`, which no C compiler does; the code then treats it as a
   3-bit unsigned field, which is what the general theorems say about it.) *)
Theorem C02_bool_field : forall T sh v data, placement T 1 sh -> ibool T = true -> unit_ok T data ->
  (exists data', bf_write T 1 sh v data = (BOk tt, data')) <-> (v = 0 \/ v = 1).
Proof.
  intros T sh v data P Hb U. rewrite (accept_iff T 1 sh v data P U).
  destruct P as [_ _ _ _ Pb]. destruct (Pb Hb) as [_ Sg]. rewrite Sg.
  unfold accepted, fmin, fmax. change (2 ^ 1 - 1) with 1.
  split; [intros [H|[H _]]; [lia|discriminate]|intros H; left; lia].
Qed.
Print Assumptions C02_bool_field.

(* an out-of-range v raises OverflowError and changes nothing *)
Theorem C02_reject_pure : forall T w sh v data, placement T w sh -> unit_ok T data ->
  ~ accepted (isigned T) w v -> bf_write T w sh v data = (BErr OverflowError, data).
Proof. exact reject_pure. Qed.
Print Assumptions C02_reject_pure.

(* the value read is the value C reads from the same storage: c_bitfield_value (C02/Spec.v) is the
   two's-complement reading of bits [sh, sh+w) of the little-endian unit, i.e. gcc's x86-64
   convention written down independently of the model; that gcc really reads this value is
   checked on every run against a gcc-compiled accessor (no C semantics is available in Coq here) *)
Theorem C02_reads_like_C : forall T w sh data, placement T w sh -> unit_ok T data ->
  bf_read T w sh data = BOk (c_bitfield_value (isigned T) w sh (read_raw_unsigned data)).
Proof. exact read_like_C. Qed.
Print Assumptions C02_reads_like_C.

(* the source's own expressions (regenerated into C02/Gen.v), run by the C-expression evaluator
   inside the code's control skeleton (including the regenerated way `value` is obtained from
   the Python object: PyLong_AsLongLong + error check), compute exactly the model — on every placement, every unit
   content and every v; so all theorems above hold of them, in particular no UB *)
Theorem C02_gen_read_refines : forall T w sh data, placement T w sh -> unit_ok T data ->
  gen_read T w sh data = bf_read T w sh data.
Proof. exact gen_read_refines. Qed.
Print Assumptions C02_gen_read_refines.

Theorem C02_gen_write_refines : forall T w sh data, placement T w sh -> unit_ok T data ->
  forall v, gen_write T w sh v data = bf_write T w sh v data.
Proof. exact gen_write_refines. Qed.
Print Assumptions C02_gen_write_refines.

(* non-vacuity: placements exist (incl. the full 64-bit width), both outcomes occur, and the
   documented exception is real *)
Example C02_ex_placement : placement (mk_ity 8 true false) 64 0 /\ placement (mk_ity 4 false false) 5 27 /\
                           placement (mk_ity 1 false true) 1 7 /\ unit_ok (mk_ity 2 true false) [170; 85].
Proof.
  repeat split; cbn; try lia; try discriminate; try (intros; discriminate);
    repeat constructor; lia.
Qed.
Example C02_ex_width64 : bf_write (mk_ity 8 true false) 64 0 5 (repeat 255 8) = (BOk tt, [5; 0; 0; 0; 0; 0; 0; 0]) /\
                         bf_read (mk_ity 8 true false) 64 0 [5; 0; 0; 0; 0; 0; 0; 0] = BOk 5 /\
                         bf_write (mk_ity 8 false false) 64 0 5 (repeat 0 8) = (BOk tt, [5; 0; 0; 0; 0; 0; 0; 0]) /\
                         fst (bf_write (mk_ity 8 false false) 64 0 (2 ^ 64) (repeat 0 8)) = BErr OverflowError.
Proof. vm_compute. repeat split. Qed.
Example C02_ex_signed1 : bf_write (mk_ity 4 true false) 1 3 1 [0; 0; 0; 0] = (BOk tt, [8; 0; 0; 0]) /\
                         bf_read (mk_ity 4 true false) 1 3 [8; 0; 0; 0] = BOk (-1) /\
                         fst (bf_write (mk_ity 4 true false) 1 3 2 [0; 0; 0; 0]) = BErr OverflowError.
Proof. vm_compute. repeat split. Qed.
Example C02_ex_gen : gen_write (mk_ity 2 false false) 5 9 21 [255; 255] = (BOk tt, [255; 235]) /\
                     gen_read (mk_ity 2 false false) 5 9 [255; 235] = BOk 21.
Proof. vm_compute. repeat split. Qed.

(* `struct { char a:3; int b:5; }` (gcc: a = bits 0..2 via a 1-byte unit, b = bits 3..7 via a 4-byte
   unit at the same offset): the hypotheses of C02_fields_noninterfere hold, and writing a = -3 into
   an all-ones object leaves b's reading -1 while a reads -3 *)
Example C02_ex_two_units :
  let Tc := mk_ity 1 true false in let Ti := mk_ity 4 true false in
  placement Tc 3 0 /\ placement Ti 5 3 /\
  snd (bf_write_at Tc 3 0 (-3) 0 [255; 255; 255; 255]) = [253; 255; 255; 255] /\
  bf_read_at Ti 5 3 0 [253; 255; 255; 255] = BOk (-1) /\ bf_read_at Tc 3 0 0 [253; 255; 255; 255] = BOk (-3).
Proof.
  cbv zeta. split; [|split]; [constructor; cbn; try lia; discriminate ..|]. vm_compute. repeat split.
Qed.
