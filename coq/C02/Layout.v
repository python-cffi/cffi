(* C02 x C01 — the bit-fields of a struct laid out by cffi's layout function (C01 model) do not
   interfere.  C01_fields_within_object discharges `placement` and `off + isize T <= length mem`;
   C01_fields_disjoint gives the disjoint absolute bit ranges; C02's fields_noninterfere does the
   rest.  C01's declaration syntax abstracts an integer type as (size, alignment): the theorem
   quantifies over every `ity` of that size (any signedness). *)
From Coq Require Import ZArith List Bool Lia.
From Cffi Require Import C03.Mem C03.MemProofs C03.Store C02.Spec C02.Model C02.Proofs C02.Proofs2.
From Cffi Require Import C01.Spec C01.Model C01.Proofs C01.Proofs2.
Import ListNotations.
Open Scope Z_scope.

Lemma ordpairs_nth (A : Type) (R : A -> A -> Prop) l : ForallOrdPairs R l ->
  forall i j a b, (i < j)%nat -> nth_error l i = Some a -> nth_error l j = Some b -> R a b.
Proof.
  induction 1 as [|x l Hx Hl IH]; intros i j a b Hij Ha Hb.
  - destruct i; discriminate.
  - destruct j as [|j]; [exfalso; lia|]. cbn [nth_error] in Hb. destruct i as [|i].
    + cbn in Ha. injection Ha as <-. rewrite Forall_forall in Hx. apply Hx. eapply nth_error_In; eauto.
    + cbn [nth_error] in Ha. apply (IH i j a b); auto. lia.
Qed.

(* an integer ctype usable for field c: its size is the size the layout function gave the field's
   declared type, at most 8 bytes; _Bool is a 1-byte unsigned type *)
Definition ity_for (T : ity) (c : cfield) : Prop :=
  Z.of_nat (isize T) = size_of (cf_type c) /\ (isize T <= 8)%nat /\
  (ibool T = true -> isize T = 1%nat /\ isigned T = false).

Lemma within_placement size T c (n : nat) : field_within size c -> 0 <= cf_bitsize c -> ity_for T c ->
  size <= Z.of_nat n ->
  placement T (cf_bitsize c) (cf_bitshift c) /\ (Z.to_nat (cf_offset c) + isize T <= n)%nat.
Proof.
  intros (H0 & H1 & Hb) Hbf (Es & H8 & Hbool) Hlen. destruct (Hb Hbf) as (Hw & Hsh & Hfit & _).
  split; [constructor; auto|]; lia.
Qed.

Theorem layout_fields_disjoint t ti : in_class t -> bf_size_le_align t -> union_free t ->
  cffi_layout t = Ok ti ->
  forall i j c1 c2, i <> j -> nth_error (ti_fields ti) i = Some c1 -> nth_error (ti_fields ti) j = Some c2 ->
  0 <= cf_bitsize c1 ->
  forall T1 v mem, ity_for T1 c1 -> ti_size ti <= Z.of_nat (List.length mem) -> bytes_ok mem ->
  let mem' := snd (bf_write_at T1 (cf_bitsize c1) (cf_bitshift c1) v (Z.to_nat (cf_offset c1)) mem) in
  placement T1 (cf_bitsize c1) (cf_bitshift c1) /\
  (Z.to_nat (cf_offset c1) + isize T1 <= List.length mem)%nat /\
  (0 <= cf_bitsize c2 -> forall T2, ity_for T2 c2 ->
     bf_read_at T2 (cf_bitsize c2) (cf_bitshift c2) (Z.to_nat (cf_offset c2)) mem' =
     bf_read_at T2 (cf_bitsize c2) (cf_bitshift c2) (Z.to_nat (cf_offset c2)) mem) /\
  (cf_bitsize c2 < 0 ->
     unit_at (Z.to_nat (cf_offset c2)) (Z.to_nat (size_of (cf_type c2))) mem' =
     unit_at (Z.to_nat (cf_offset c2)) (Z.to_nat (size_of (cf_type c2))) mem).
Proof.
  intros Hc Ha Hu E i j c1 c2 Hij N1 N2 Hbf1 T1 v mem HT1 Hlen Hb. cbv zeta.
  pose proof (proj1 (layout_within t Hc ti E) Ha) as Hw. rewrite Forall_forall in Hw.
  pose proof (chain_pairs _ _ _ (proj2 (layout_within t Hc ti E) Hu)) as Hp.
  pose proof (Hw c1 (nth_error_In _ _ N1)) as W1. pose proof (Hw c2 (nth_error_In _ _ N2)) as W2.
  destruct (within_placement _ T1 c1 _ W1 Hbf1 HT1 Hlen) as (P1 & L1). pose proof (proj1 W1) as H10.
  assert (Hd : fend c1 <= fstart c2 \/ fend c2 <= fstart c1).
  { destruct (Nat.lt_ge_cases i j) as [Hlt|Hge].
    - left. eapply (ordpairs_nth _ _ _ Hp i j); eauto.
    - right. eapply (ordpairs_nth _ _ _ Hp j i); eauto. lia. }
  assert (B1 : is_bf c1 = true) by (unfold is_bf; lia).
  unfold fstart, fend in Hd. rewrite B1 in Hd.
  split; [exact P1|]. split; [exact L1|]. split.
  - intros Hbf2 T2 HT2.
    destruct (within_placement _ T2 c2 _ W2 Hbf2 HT2 Hlen) as (P2 & L2).
    assert (B2 : is_bf c2 = true) by (unfold is_bf; lia). rewrite B2 in Hd.
    apply fields_noninterfere; auto. pose proof (proj1 W2). lia.
  - intros Hn2. assert (B2 : is_bf c2 = false) by (unfold is_bf; lia). rewrite B2 in Hd.
    destruct W2 as (H20 & H21 & _). pose proof (size_of_nonneg (cf_type c2)).
    apply field_write_keeps_bytes; auto; try lia.
Qed.
