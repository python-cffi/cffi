(* C02 — the model (C02/Model.v) against C02/Spec.v, inside one storage unit.  Reads: bf_read_narrow (w < 64: shift
   down and convert to the w-bit type, Base.Wrap) and the full-width case give read_like_C.  Writes: bf_write_narrow
   (range test, then the masked merge, which merged_bits describes bit by bit) and the full-width case give write_exact,
   from which no_ub, accept_iff, reject_pure, isolated and roundtrip each follow.  The enclosing object is C02/Proofs2.v. *)
From Coq Require Import ZArith Znumtheory List Bool Lia ZifyBool.
From Cffi Require Import Base.Wrap Base.Bits C03.CExprFacts C03.Mem C03.MemProofs C03.Store C03.StoreProofs C02.Spec C02.Model.
Import ListNotations.
Open Scope Z_scope.

(* The vocabulary of the statements of C02/Props.v: memory as a list of bytes; a field (T, w, sh) that
   lies inside one storage unit of type T; a unit's bytes. *)
Definition bytes_ok (data : list Z) : Prop := Forall (fun b => 0 <= b < 256) data.

Record placement (T : ity) (w sh : Z) : Prop := {
  pl_size : (1 <= isize T <= 8)%nat;
  pl_w : 1 <= w;
  pl_sh : 0 <= sh;
  pl_fit : sh + w <= 8 * Z.of_nat (isize T);
  pl_bool : ibool T = true -> isize T = 1%nat /\ isigned T = false
}.

Definition unit_ok (T : ity) (data : list Z) : Prop :=
  List.length data = isize T /\ bytes_ok data.

Lemma decode_le_bound data : bytes_ok data -> 0 <= decode_le data < 2 ^ (8 * Z.of_nat (List.length data)).
Proof. exact (MemProofs.decode_le_bound data). Qed.

Lemma pow2_pos n : 0 <= n -> 0 < 2 ^ n.
Proof. intros; apply Z.pow_pos_nonneg; lia. Qed.

Lemma pow2_le a b : 0 <= a <= b -> 2 ^ a <= 2 ^ b.
Proof. intros; apply Z.pow_le_mono_r; lia. Qed.

Lemma pow2_lt a b : 0 <= a < b -> 2 ^ a < 2 ^ b.
Proof. intros; apply Z.pow_lt_mono_r; lia. Qed.

Lemma pow2_field w : 1 <= w < 64 -> 0 < 2 ^ (w - 1) <= 2 ^ 62 /\ 2 ^ w = 2 * 2 ^ (w - 1).
Proof. intros. split; [split; [apply pow2_pos|apply pow2_le]|apply pow2_half]; lia. Qed.

Lemma u64_small z : 0 <= z < 2 ^ 64 -> u64 z = z.
Proof. apply Z.mod_small. Qed.

Lemma s64_small z : - 2 ^ 63 <= z < 2 ^ 63 -> s64 z = z.
Proof. apply (wrap_id true 64). lia. Qed.

Lemma shl_u64_ok x k : 0 <= k < 64 -> shl_u64 x k = Some (u64 (x * 2 ^ k)).
Proof. intros. unfold shl_u64, count_ok. replace ((0 <=? k) && (k <? 64)) with true by lia. reflexivity. Qed.

Lemma shr_u64_ok x k : 0 <= k < 64 -> shr_u64 x k = Some (Z.shiftr x k).
Proof. intros. unfold shr_u64, count_ok. replace ((0 <=? k) && (k <? 64)) with true by lia. reflexivity. Qed.

Lemma arith_s64_ok z : - 2 ^ 63 <= z < 2 ^ 63 -> arith_s64 z = Some z.
Proof. intros. unfold arith_s64. replace ((- 2 ^ 63 <=? z) && (z <? 2 ^ 63)) with true by lia. reflexivity. Qed.

Lemma shl_s64_one k : 0 <= k < 63 -> shl_s64 1 k = Some (2 ^ k).
Proof.
  intros. pose proof (pow2_lt k 63 ltac:(lia)). unfold shl_s64, count_ok. rewrite Z.mul_1_l.
  replace ((0 <=? k) && (k <? 64) && (0 <=? 1) && (2 ^ k <? 2 ^ 63)) with true by lia. reflexivity.
Qed.

(* 1ULL << k, and the mask (1ULL << w) - 1 *)
Lemma one_shl_u64 k : 0 <= k < 64 -> u64 (1 * 2 ^ k) = 2 ^ k.
Proof. intros. rewrite Z.mul_1_l. apply u64_small. pose proof (pow2_pos k). pose proof (pow2_lt k 64). lia. Qed.

Lemma mask_ones w : 0 <= w < 64 -> u64 (u64 (1 * 2 ^ w) - 1) = Z.ones w.
Proof.
  intros. rewrite one_shl_u64, Z.ones_equiv by lia. apply u64_small.
  pose proof (pow2_pos w). pose proof (pow2_lt w 64). lia.
Qed.

Lemma testbit_field w sh a i : 0 <= w -> 0 <= sh -> 0 <= i ->
  Z.testbit (field_bits w sh a) i = (i <? w) && Z.testbit a (i + sh).
Proof.
  intros Hw Hsh Hi. unfold field_bits.
  destruct (Z.ltb_spec i w).
  - rewrite Z.mod_pow2_bits_low by lia. rewrite Z.div_pow2_bits by lia. reflexivity.
  - rewrite Z.mod_pow2_bits_high by lia. reflexivity.
Qed.

Lemma field_bits_range w sh a : 0 <= w -> 0 <= field_bits w sh a < 2 ^ w.
Proof. intros. unfold field_bits. apply Z.mod_pos_bound. apply pow2_pos; lia. Qed.

Lemma field_bits_ext w sh sh' a b : 0 <= w -> 0 <= sh -> 0 <= sh' ->
  (forall i, 0 <= i < w -> Z.testbit a (i + sh) = Z.testbit b (i + sh')) ->
  field_bits w sh a = field_bits w sh' b.
Proof.
  intros Hw Hsh Hsh' H. apply Z.bits_inj'. intros i Hi. rewrite !testbit_field by lia.
  destruct (Z.ltb_spec i w); [|reflexivity]. cbn [andb]. apply H. lia.
Qed.

Lemma field_bits_congr w sh a b n : 0 <= w -> 0 <= sh -> sh + w <= n ->
  a mod 2 ^ n = b mod 2 ^ n -> field_bits w sh a = field_bits w sh b.
Proof.
  intros Hw Hsh Hn E. apply field_bits_ext; try lia. intros i Hi.
  rewrite <- (Z.mod_pow2_bits_low a n), <- (Z.mod_pow2_bits_low b n), E by lia. reflexivity.
Qed.

Lemma signed_value_spec w x : 0 < w -> 0 <= x < 2 ^ w ->
  (x + 2 ^ (w - 1)) mod 2 ^ w - 2 ^ (w - 1) = if 2 ^ (w - 1) <=? x then x - 2 ^ w else x.
Proof. intros Hw Hx. etransitivity; [exact (wrap_signed_leb w x Hw)|]. cbv zeta. rewrite Z.mod_small by exact Hx. reflexivity. Qed.

Lemma c_bitfield_value_wrap sg w sh u : 0 < w -> c_bitfield_value sg w sh u = wrap sg w (u / 2 ^ sh).
Proof.
  intros Hw. unfold c_bitfield_value, field_bits. destruct sg; [|reflexivity]. symmetry. apply wrap_signed_leb, Hw.
Qed.

Lemma accepted_in_bits sg w v : 0 < w -> accepted sg w v <-> in_bits sg w v \/ (sg = true /\ w = 1 /\ v = 1).
Proof. intros Hw. unfold accepted, fmin, fmax, in_bits. destruct sg; lia. Qed.

(* a field narrower than long long, whatever the unit holds: the code shifts the unit down and converts
   to the w-bit type (the signed case is Base.Wrap.wrap as it is defined) *)
Lemma bf_read_narrow T w sh data : 1 <= w < 64 -> 0 <= sh < 64 ->
  bf_read T w sh data =
  BOk (wrap (isigned T) w ((if isigned T then u64 (read_raw_signed data) else read_raw_unsigned data) / 2 ^ sh)).
Proof.
  intros Hw Hsh. destruct (pow2_field w Hw) as (Ph & Dw). unfold bf_read, wrap. destruct (Z.leb_spec 64 w); [lia|].
  rewrite !shl_u64_ok, !shr_u64_ok, mask_ones, one_shl_u64 by lia.
  rewrite !Z.land_ones, !Z.shiftr_div_pow2 by lia.
  destruct (isigned T); [|reflexivity].
  generalize (u64 (read_raw_signed data) / 2 ^ sh). intros x.
  unfold u64 at 1. rewrite mod_mod_pow2 by lia.
  pose proof (Z.mod_pos_bound (x + 2 ^ (w - 1)) (2 ^ w) ltac:(lia)) as Mr.
  rewrite !s64_small, arith_s64_ok by lia. reflexivity.
Qed.

Lemma placement_full T w sh : placement T w sh -> 64 <= w ->
  w = 64 /\ sh = 0 /\ isize T = 8%nat /\ ibool T = false.
Proof.
  intros [Hs Hw Hsh Hfit Hbool] W. repeat split; try lia.
  destruct (ibool T); [destruct (Hbool eq_refl); lia|reflexivity].
Qed.

Section Read.
  Variables (T : ity) (w sh : Z) (data : list Z).
  Hypothesis P : placement T w sh.
  Hypothesis U : unit_ok T data.

  Let B := 8 * Z.of_nat (isize T).
  Let u := read_raw_unsigned data.

  Lemma u_range : 0 <= u < 2 ^ B.
  Proof.
    destruct U as [L Bo]. unfold u, read_raw_unsigned, B. rewrite <- L. apply decode_le_bound. exact Bo.
  Qed.

  Lemma B_le_64 : 8 <= B <= 64.
  Proof using P. clear U u. destruct P. unfold B. lia. Qed.

  Lemma unit_range64 : 0 <= u < 2 ^ 64.
  Proof. pose proof u_range. pose proof B_le_64. pose proof (pow2_le B 64 ltac:(lia)). lia. Qed.

  Lemma signed_raw : read_raw_signed data = if u <? 2 ^ (B - 1) then u else u - 2 ^ B.
  Proof. destruct U as [L _]. unfold read_raw_signed, u, B, read_raw_unsigned. rewrite L. reflexivity. Qed.

  Lemma signed_raw_wrap : read_raw_signed data = wrap true B u.
  Proof.
    pose proof u_range. pose proof B_le_64. rewrite signed_raw, wrap_signed_ltb by lia. cbv zeta.
    rewrite Z.mod_small by assumption. reflexivity.
  Qed.

  Lemma read_int_wrap : read_int T data = wrap (isigned T) B u.
  Proof.
    unfold read_int. destruct (isigned T); [apply signed_raw_wrap|]. symmetry. apply Z.mod_small, u_range.
  Qed.

  Lemma signed_raw_range : - 2 ^ 63 <= read_raw_signed data < 2 ^ 63.
  Proof.
    pose proof B_le_64. rewrite signed_raw_wrap. apply (in_bits_wider true B 64); [lia|]. apply wrap_range. lia.
  Qed.

  Lemma signed_raw_mod : (u64 (read_raw_signed data)) mod 2 ^ B = u mod 2 ^ B.
  Proof.
    pose proof B_le_64. unfold u64. rewrite mod_mod_pow2, signed_raw_wrap by lia. apply wrap_eqm.
  Qed.

  Theorem read_like_C :
    bf_read T w sh data = BOk (c_bitfield_value (isigned T) w sh u).
  Proof.
    pose proof B_le_64 as HB. assert (0 < w /\ 0 <= sh /\ sh + w <= B) as (Hw & Hsh & Hfit) by (destruct P; unfold B; lia).
    rewrite c_bitfield_value_wrap by exact Hw. destruct (Z.leb_spec 64 w) as [W64|W64].
    - destruct (placement_full T w sh P W64) as (Ew & Esh & S8 & _).
      unfold bf_read. rewrite read_int_wrap, Ew, Esh, Z.pow_0_r, Z.div_1_r. unfold B. rewrite S8. reflexivity.
    - rewrite bf_read_narrow by lia. f_equal. apply wrap_congr.
      destruct (isigned T); [|reflexivity].
      apply (field_bits_congr w sh _ u B); try lia. apply signed_raw_mod.
  Qed.
End Read.

(* the largest accepted value (Spec.accepted: a signed 1-bit field also takes 1), and Spec.accepted
   as a boolean *)
Definition fmax' (sg : bool) (w : Z) : Z := if sg && (w =? 1) then 1 else fmax sg w.
Definition acceptb (sg : bool) (w v : Z) : bool := (fmin sg w <=? v) && (v <=? fmax' sg w).

Lemma acceptb_spec sg w v : 1 <= w -> acceptb sg w v = true <-> accepted sg w v.
Proof.
  intros Hw. unfold acceptb, accepted, fmax', fmin, fmax.
  destruct sg; cbn [andb].
  - destruct (Z.eqb_spec w 1) as [->|N].
    + change (2 ^ (1 - 1)) with 1. split; intros H; [|destruct H as [H|[_ [_ ->]]]]; lia.
    + split; intros H; [left; lia|destruct H as [H|[_ [E _]]]; [lia|congruence]].
  - split; intros H; [left; lia|destruct H as [H|[E _]]; [lia|discriminate]].
Qed.

Lemma bounds_eq sg w : 1 <= w < 64 -> bf_bounds sg w = Some (fmin sg w, fmax' sg w).
Proof.
  intros Hw. destruct (pow2_field w Hw) as (Ph & Dw). unfold bf_bounds, fmin, fmax', fmax.
  destruct sg; cbn [andb].
  - rewrite shl_s64_one, !arith_s64_ok by lia. do 2 f_equal.
    destruct (Z.eqb_spec w 1) as [->|N]; [reflexivity|].
    pose proof (pow2_le 1 (w - 1) ltac:(lia)).
    destruct (Z.eqb_spec (2 ^ (w - 1) - 1) 0); [lia|reflexivity].
  - rewrite shl_u64_ok, mask_ones by lia. do 2 f_equal. rewrite Z.ones_equiv. apply s64_small. lia.
Qed.

Lemma small_of_high_bits a n : 0 <= a -> 0 <= n ->
  (forall i, n <= i -> Z.testbit a i = false) -> 0 <= a < 2 ^ n.
Proof. exact (Bits.small_of_high_bits a n). Qed.

Lemma high_bits_of_small a n i : 0 <= a < 2 ^ n -> 0 <= n <= i -> Z.testbit a i = false.
Proof. exact (Bits.high_bits_of_small a n i). Qed.

Lemma testbit_rawmask w sh i : 0 <= w -> 0 <= sh -> 0 <= i ->
  Z.testbit (Z.ones w * 2 ^ sh) i = (sh <=? i) && (i <? sh + w).
Proof.
  intros Hw Hsh Hi. rewrite <- Z.shiftl_mul_pow2 by lia. rewrite Z.shiftl_spec by lia.
  destruct (Z.leb_spec sh i).
  - rewrite Z.testbit_ones_nonneg by lia. cbn [andb].
    destruct (Z.ltb_spec (i - sh) w), (Z.ltb_spec i (sh + w)); try lia; reflexivity.
  - rewrite Z.testbit_neg_r by lia. reflexivity.
Qed.

Lemma rawmask_range w sh : 0 <= w -> 0 <= sh -> sh + w <= 64 -> 0 <= Z.ones w * 2 ^ sh < 2 ^ 64.
Proof.
  intros. pose proof (pow2_le (sh + w) 64 ltac:(lia)) as Psw. rewrite Z.pow_add_r in Psw by lia.
  pose proof (pow2_pos sh). pose proof (pow2_pos w). rewrite Z.ones_equiv. nia.
Qed.

Definition in_field (w sh i : Z) : bool := (sh <=? i) && (i <? sh + w).

Lemma in_field_outside w sh i : ~ (sh <= i < sh + w) -> in_field w sh i = false.
Proof. unfold in_field. lia. Qed.

(* the masked merge (raw & ~rawmask) | (rawvalue & rawmask), bit by bit: inside the field the bits
   of v, outside the bits of raw *)
Definition merged (w sh raw v : Z) : Z :=
  let rawmask := u64 (Z.ones w * 2 ^ sh) in
  Z.lor (Z.land raw (u64 (Z.lnot rawmask))) (Z.land (u64 (u64 v * 2 ^ sh)) rawmask).

Lemma merged_bits w sh raw v i : 0 <= w -> 0 <= sh -> sh + w <= 64 -> 0 <= raw < 2 ^ 64 -> 0 <= i ->
  Z.testbit (merged w sh raw v) i = if in_field w sh i then Z.testbit v (i - sh) else Z.testbit raw i.
Proof.
  intros Hw Hsh Hfit Hraw Hi. unfold merged. cbv zeta. rewrite (u64_small (Z.ones w * 2 ^ sh)) by (apply rawmask_range; lia).
  rewrite Z.lor_spec, !Z.land_spec, testbit_rawmask by lia. fold (in_field w sh i).
  destruct (Z.ltb_spec i 64) as [Hlt|Hge].
  - unfold u64. rewrite !Z.mod_pow2_bits_low, Z.lnot_spec, testbit_rawmask by lia. fold (in_field w sh i).
    destruct (in_field w sh i) eqn:F; cbn [negb].
    + rewrite andb_false_r, andb_true_r. cbn [orb]. unfold in_field in F.
      rewrite Z.mul_pow2_bits by lia. apply Z.mod_pow2_bits_low. lia.
    + rewrite andb_false_r, orb_false_r. apply andb_true_r.
  - rewrite in_field_outside by lia.
    rewrite (high_bits_of_small raw 64 i), andb_false_r by lia. reflexivity.
Qed.

Lemma acceptb_longlong sg w v : 1 <= w < 64 -> acceptb sg w v = true -> - 2 ^ 63 <= v < 2 ^ 63.
Proof.
  intros Hw. destruct (pow2_field w Hw) as (Ph & Dw). unfold acceptb, fmin, fmax', fmax.
  destruct sg; cbn [andb]; [destruct (w =? 1)|]; lia.
Qed.

(* a field narrower than long long, whatever the unit holds: the range test, then the masked merge *)
Lemma bf_write_narrow T w sh v data : 1 <= w < 64 -> 0 <= sh < 64 ->
  bf_write T w sh v data =
  if acceptb (isigned T) w v then (BOk tt, write_raw (isize T) (merged w sh (read_raw_unsigned data) v))
  else (BErr OverflowError, data).
Proof.
  intros Hw Hsh. pose proof (acceptb_longlong (isigned T) w v Hw) as LL.
  unfold bf_write. destruct (Z.leb_spec 64 w); [lia|]. rewrite bounds_eq by exact Hw. unfold as_longlong.
  destruct ((- 2 ^ 63 <=? v) && (v <? 2 ^ 63)) eqn:E.
  - replace ((v <? fmin (isigned T) w) || (fmax' (isigned T) w <? v)) with (negb (acceptb (isigned T) w v))
      by (unfold acceptb; lia).
    destruct (acceptb (isigned T) w v); cbn [negb]; [|reflexivity].
    rewrite !shl_u64_ok, mask_ones by lia. reflexivity.
  - (* beyond long long: OverflowError from PyLong_AsLongLong, and v is certainly out of range *)
    destruct (acceptb (isigned T) w v); [specialize (LL eq_refl); lia|reflexivity].
Qed.

Section Write.
  Variables (T : ity) (w sh v : Z) (data : list Z).
  Hypothesis P : placement T w sh.
  Hypothesis U : unit_ok T data.

  Let B := 8 * Z.of_nat (isize T).
  Let u := read_raw_unsigned data.

  Lemma written_unit raw :
    (forall i, 0 <= i < B -> Z.testbit raw i = if in_field w sh i then Z.testbit v (i - sh) else Z.testbit u i) ->
    unit_ok T (write_raw (isize T) raw) /\
    forall i, 0 <= i ->
      Z.testbit (read_raw_unsigned (write_raw (isize T) raw)) i =
      if in_field w sh i then Z.testbit v (i - sh) else Z.testbit u i.
  Proof.
    intros H. assert (0 <= u < 2 ^ B) as Hu by apply (u_range T data U).
    assert ((isize T <= 8)%nat /\ 0 <= sh /\ sh + w <= B) as (Hs & Hsh & Hfit) by (destruct P; repeat split; lia).
    split; [split; [apply write_raw_length|apply encode_le_bytes]|].
    intros i Hi. rewrite read_unsigned_write by exact Hs. cbn [wrap]. fold B. destruct (Z.ltb_spec i B).
    - rewrite Z.mod_pow2_bits_low by lia. apply H. lia.
    - rewrite Z.mod_pow2_bits_high, in_field_outside by lia. symmetry. apply (high_bits_of_small u B); lia.
  Qed.

  Theorem write_exact :
    if acceptb (isigned T) w v then
      exists data', bf_write T w sh v data = (BOk tt, data') /\ unit_ok T data' /\
        forall i, 0 <= i ->
          Z.testbit (read_raw_unsigned data') i = if in_field w sh i then Z.testbit v (i - sh) else Z.testbit u i
    else bf_write T w sh v data = (BErr OverflowError, data).
  Proof.
    destruct (Z.leb_spec 64 w) as [W64|W64].
    - destruct (placement_full T w sh P W64) as (Ew & Esh & S8 & Nb).
      unfold bf_write. rewrite (proj2 (Z.leb_le 64 w) W64), store_exact by (split; [lia|congruence]).
      replace (in_range T v) with (acceptb (isigned T) w v)
        by (unfold in_range, acceptb, fmin, fmax', fmax, tbits; rewrite Nb, S8, Ew; destruct (isigned T); reflexivity).
      destruct (acceptb (isigned T) w v); cbn [lift_res]; [|reflexivity].
      eexists. split; [reflexivity|]. apply written_unit. intros i Hi.
      replace (in_field w sh i) with true by (unfold in_field; lia). f_equal. lia.
    - pose proof (unit_range64 T w sh data P U) as Hu. destruct P as [Hs Hw Hsh Hfit _]. rewrite bf_write_narrow by lia.
      destruct (acceptb (isigned T) w v); [|reflexivity].
      eexists. split; [reflexivity|]. apply written_unit. intros i Hi. apply merged_bits; fold u; lia.
  Qed.
End Write.

Theorem no_ub T w sh v data : placement T w sh -> unit_ok T data ->
  fst (bf_write T w sh v data) <> BUB /\ bf_read T w sh data <> BUB.
Proof.
  intros P U. split.
  - pose proof (write_exact T w sh v data P U) as H.
    destruct (acceptb (isigned T) w v).
    + destruct H as [d' [E _]]. rewrite E. discriminate.
    + rewrite H. discriminate.
  - rewrite (read_like_C T w sh data P U). discriminate.
Qed.

Theorem accept_iff T w sh v data : placement T w sh -> unit_ok T data ->
  (exists data', bf_write T w sh v data = (BOk tt, data')) <-> accepted (isigned T) w v.
Proof.
  intros P U. rewrite <- acceptb_spec by (destruct P; assumption).
  pose proof (write_exact T w sh v data P U) as H.
  destruct (acceptb (isigned T) w v).
  - split; [reflexivity|]. intros _. destruct H as [d' [E _]]. exists d'. exact E.
  - split; [|discriminate]. intros [d' E]. rewrite H in E. discriminate.
Qed.

Theorem reject_pure T w sh v data : placement T w sh -> unit_ok T data ->
  ~ accepted (isigned T) w v -> bf_write T w sh v data = (BErr OverflowError, data).
Proof.
  intros P U N. rewrite <- acceptb_spec in N by (destruct P; assumption).
  pose proof (write_exact T w sh v data P U) as H.
  destruct (acceptb (isigned T) w v); [exfalso; apply N; reflexivity|exact H].
Qed.

Theorem isolated T w sh v data data' : placement T w sh -> unit_ok T data ->
  bf_write T w sh v data = (BOk tt, data') ->
  unit_ok T data' /\
  forall i, 0 <= i -> ~ (sh <= i < sh + w) ->
    Z.testbit (read_raw_unsigned data') i = Z.testbit (read_raw_unsigned data) i.
Proof.
  intros P U E. pose proof (write_exact T w sh v data P U) as H.
  destruct (acceptb (isigned T) w v).
  - destruct H as [d' [E' [U' Bits]]]. rewrite E in E'. injection E' as <-.
    split; [exact U'|]. intros i Hi Out. rewrite Bits by exact Hi.
    rewrite in_field_outside by exact Out. reflexivity.
  - rewrite H in E. discriminate.
Qed.

Theorem roundtrip T w sh v data data' : placement T w sh -> unit_ok T data ->
  bf_write T w sh v data = (BOk tt, data') ->
  bf_read T w sh data' = BOk (if isigned T && (w =? 1) && (v =? 1) then -1 else v).
Proof.
  intros P U E. pose proof (write_exact T w sh v data P U) as H.
  destruct (acceptb (isigned T) w v) eqn:A; [|rewrite H in E; discriminate].
  destruct H as [d' [E' [U' Bits]]]. rewrite E in E'. injection E' as <-.
  rewrite (read_like_C T w sh data' P U'). f_equal.
  assert (1 <= w /\ 0 <= sh) as [Hw Hsh] by (destruct P; split; assumption).
  rewrite c_bitfield_value_wrap by lia.
  assert (field_bits w sh (read_raw_unsigned data') = field_bits w 0 v) as F.
  { apply field_bits_ext; try lia. intros i Hi. rewrite Bits by lia.
    replace (in_field w sh (i + sh)) with true by (unfold in_field; lia). f_equal. lia. }
  unfold field_bits in F. rewrite Z.pow_0_r, Z.div_1_r in F. rewrite (wrap_congr _ w _ v F). clear F Bits.
  apply acceptb_spec, accepted_in_bits in A; try lia.
  destruct A as [R | (-> & -> & ->)]; [|reflexivity].
  rewrite wrap_id by (lia || exact R).
  destruct (isigned T), (Z.eqb_spec w 1) as [->|], (Z.eqb_spec v 1) as [->|]; try reflexivity.
  cbn in R. lia.
Qed.

Lemma bytes_ok_cut n l : bytes_ok l -> bytes_ok (firstn n l) /\ bytes_ok (skipn n l).
Proof. intros H. apply Forall_app. rewrite firstn_skipn. exact H. Qed.

Lemma bytes_ok_unit_at off size mem : bytes_ok mem -> bytes_ok (unit_at off size mem).
Proof. intros H. apply bytes_ok_cut, bytes_ok_cut, H. Qed.

Lemma unit_ok_unit_at T off mem : (off + isize T <= List.length mem)%nat -> bytes_ok mem ->
  unit_ok T (unit_at off (isize T) mem).
Proof. intros Hlen Hb. split; [apply unit_at_length; exact Hlen|apply bytes_ok_unit_at; exact Hb]. Qed.
