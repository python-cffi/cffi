(* C02 — the regenerated expressions (C02/Gen.v), evaluated with C semantics by C03/CExpr.v,
   compute exactly what the hand model C02/Model.v computes, on every placement.
   The model writes every intermediate value the way C computes it (u64 (...), guarded shifts), so
   the proof is a symbolic run of the programs: no arithmetic beyond "this value is in the range of
   its type". *)
From Coq Require Import ZArith Znumtheory List Bool Lia ZifyBool String.
From Cffi Require Import Base.Wrap Base.Bits C03.CExpr C03.CExprFacts C03.Mem C03.MemProofs C03.Store C03.StoreProofs.
From Cffi Require Import C02.Spec C02.Model C02.Proofs C02.IR C02.Gen C02.Interp.
Import ListNotations.
Open Scope string_scope.
Open Scope Z_scope.

Lemma ceval_var rho x t z : rho x = Some (t, z) -> fits t z = true -> ceval rho (EVar x) = Some (t, z).
Proof. intros H F. cbn [ceval]. rewrite H, F. reflexivity. Qed.

Lemma ceval_lit rho t z : fits t z = true -> ceval rho (ELit t z) = Some (t, z).
Proof. intros F. cbn [ceval]. rewrite F. reflexivity. Qed.

Definition strict_op (o : binop) : Prop := match o with BLAnd | BLOr => False | _ => True end.

Lemma ceval_bin rho o a b ta za tb zb : strict_op o ->
  ceval rho a = Some (ta, za) -> ceval rho b = Some (tb, zb) ->
  ceval rho (EBin o a b) = eval_bin o ta za tb zb.
Proof. intros S A B. destruct o; try contradiction; cbn [ceval]; rewrite A, B; reflexivity. Qed.

Lemma ceval_lor rho a b ta za tb zb : ceval rho a = Some (ta, za) -> ceval rho b = Some (tb, zb) ->
  ceval rho (EBin BLOr a b) = Some (TInt, b2z (negb (za =? 0) || negb (zb =? 0))).
Proof.
  intros A B. cbn [ceval]. rewrite A, B. destruct (za =? 0); cbn [negb orb]; [|reflexivity].
  destruct (zb =? 0); reflexivity.
Qed.

Lemma ceval_cast rho t e t0 z : ceval rho e = Some (t0, z) -> ceval rho (ECast t e) = Some (t, conv t z).
Proof. intros E. cbn [ceval]. rewrite E. reflexivity. Qed.

Lemma ceval_not rho e t z : ceval rho e = Some (t, z) -> ceval rho (EUn UNot e) = Some (t, conv t (Z.lnot z)).
Proof. intros E. cbn [ceval]. rewrite E. reflexivity. Qed.

Lemma ceval_neg rho e t z : ceval rho e = Some (t, z) -> ceval rho (EUn UNeg e) = arith t (- z).
Proof. intros E. cbn [ceval]. rewrite E. reflexivity. Qed.

Lemma run_step rho x t e r t0 z : ceval rho e = Some (t0, z) ->
  run_prog rho ((x, t, e) :: r) = run_prog (env_set x t (conv t z) rho) r.
Proof. intros E. cbn [run_prog]. rewrite E. reflexivity. Qed.

Lemma run_step_fits rho x t e r t0 z : ceval rho e = Some (t0, z) -> fits t z = true ->
  run_prog rho ((x, t, e) :: r) = run_prog (env_set x t z rho) r.
Proof. intros E F. rewrite (run_step _ _ _ _ _ _ _ E), (conv_id t z F). reflexivity. Qed.

Lemma env_set_same x t z rho : env_set x t z rho x = Some (t, z).
Proof. unfold env_set. rewrite String.eqb_refl. reflexivity. Qed.

Lemma conv_ull z : conv TULL z = u64 z.
Proof. reflexivity. Qed.
Lemma conv_ll z : conv TLL z = s64 z.
Proof. reflexivity. Qed.

Lemma ceval_cast_ull rho e t0 z : ceval rho e = Some (t0, z) -> ceval rho (ECast TULL e) = Some (TULL, u64 z).
Proof. exact (ceval_cast rho TULL e t0 z). Qed.
Lemma ceval_cast_ll rho e t0 z : ceval rho e = Some (t0, z) -> ceval rho (ECast TLL e) = Some (TLL, s64 z).
Proof. exact (ceval_cast rho TLL e t0 z). Qed.
Lemma ceval_not_ull rho e z : ceval rho e = Some (TULL, z) -> ceval rho (EUn UNot e) = Some (TULL, u64 (Z.lnot z)).
Proof. exact (ceval_not rho e TULL z). Qed.

Lemma u64_range z : 0 <= u64 z < 2 ^ 64.
Proof. exact (wrap_range false 64 z eq_refl). Qed.
Lemma s64_range z : - 2 ^ 63 <= s64 z < 2 ^ 63.
Proof. exact (wrap_range true 64 z eq_refl). Qed.
Lemma s64_id z : - 2 ^ 63 <= z < 2 ^ 63 -> s64 z = z.
Proof. exact (s64_small z). Qed.

Lemma land_u64 a b : 0 <= a < 2 ^ 64 -> 0 <= Z.land a b < 2 ^ 64.
Proof. now apply land_lt_pow2. Qed.
Lemma lor_u64 a b : 0 <= a < 2 ^ 64 -> 0 <= b < 2 ^ 64 -> 0 <= Z.lor a b < 2 ^ 64.
Proof. now apply lor_lt_pow2. Qed.
Lemma shiftr_u64 a k : 0 <= a < 2 ^ 64 -> 0 <= k -> 0 <= Z.shiftr a k < 2 ^ 64.
Proof. apply shiftr_lt_pow2. Qed.

(* "this value is in the range of its type" *)
Ltac rng :=
  lazymatch goal with
  | |- fits TULL _ = true => apply (proj2 (fits_ull _)); rng
  | |- fits TLL _ = true => apply (proj2 (fits_ll _)); rng
  | |- fits TInt _ = true => apply (proj2 (fits_int _)); rng
  | |- 0 <= u64 _ < 2 ^ 64 => apply u64_range
  | |- - 2 ^ 63 <= s64 _ < 2 ^ 63 => apply s64_range
  | |- 0 <= Z.land _ _ < 2 ^ 64 => apply land_u64; rng
  | |- 0 <= Z.lor _ _ < 2 ^ 64 => apply lor_u64; rng
  | |- 0 <= Z.shiftr _ _ < 2 ^ 64 => apply shiftr_u64; [rng | lia]
  | |- _ => first [assumption | lia]
  end.

Lemma arith_ull z : arith TULL z = Some (TULL, u64 z).
Proof. reflexivity. Qed.

Lemma arith_ll z : arith TLL z = option_map (pair TLL) (arith_s64 z).
Proof.
  unfold arith, arith_s64, fits, tmin, tmax. cbn [is_signed bits].
  destruct ((- 2 ^ (64 - 1) <=? z) && (z <=? 2 ^ (64 - 1) - 1)) eqn:E1;
    destruct ((- 2 ^ 63 <=? z) && (z <? 2 ^ 63)) eqn:E2; try reflexivity; exfalso; lia.
Qed.

Lemma arith_int z : fits TInt z = true -> arith TInt z = Some (TInt, z).
Proof. intros F. unfold arith. cbn [is_signed]. rewrite F. reflexivity. Qed.

Lemma arith_s64_some z r : arith_s64 z = Some r -> r = z /\ - 2 ^ 63 <= z < 2 ^ 63.
Proof. unfold arith_s64. destruct ((- 2 ^ 63 <=? z) && (z <? 2 ^ 63)) eqn:E; [|discriminate]. intros H; injection H as <-. lia. Qed.

(* & and | of unsigned long long values need no reduction *)
Lemma ev_and_ull a b : 0 <= a < 2 ^ 64 -> 0 <= b < 2 ^ 64 -> eval_bin BAnd TULL a TULL b = Some (TULL, Z.land a b).
Proof. intros Ha Hb. rewrite eval_bin_same, conv_id by rng. reflexivity. Qed.
Lemma ev_or_ull a b : 0 <= a < 2 ^ 64 -> 0 <= b < 2 ^ 64 -> eval_bin BOr TULL a TULL b = Some (TULL, Z.lor a b).
Proof. intros Ha Hb. rewrite eval_bin_same, conv_id by rng. reflexivity. Qed.

Lemma ev_add_ull a b : 0 <= a < 2 ^ 64 -> 0 <= b < 2 ^ 64 -> eval_bin BAdd TULL a TULL b = Some (TULL, u64 (a + b)).
Proof. intros Ha Hb. apply eval_bin_same; rng. Qed.
Lemma ev_sub_ull a b : 0 <= a < 2 ^ 64 -> 0 <= b < 2 ^ 64 -> eval_bin BSub TULL a TULL b = Some (TULL, u64 (a - b)).
Proof. intros Ha Hb. apply eval_bin_same; rng. Qed.

Lemma ev_sub_int a b : - 2 ^ 31 <= a < 2 ^ 31 -> - 2 ^ 31 <= b < 2 ^ 31 -> - 2 ^ 31 <= a - b < 2 ^ 31 ->
  eval_bin BSub TInt a TInt b = Some (TInt, a - b).
Proof. intros Ha Hb Hab. rewrite eval_bin_same by rng. apply arith_int. rng. Qed.

Lemma ev_sub_ll a b : - 2 ^ 63 <= a < 2 ^ 63 -> - 2 ^ 63 <= b < 2 ^ 63 ->
  eval_bin BSub TLL a TLL b = option_map (pair TLL) (arith_s64 (a - b)).
Proof. intros Ha Hb. rewrite eval_bin_same by rng. apply arith_ll. Qed.

Lemma ev_lt_ll a b : - 2 ^ 63 <= a < 2 ^ 63 -> - 2 ^ 63 <= b < 2 ^ 63 ->
  eval_bin BLt TLL a TLL b = Some (TInt, b2z (a <? b)).
Proof. intros Ha Hb. apply eval_bin_same; rng. Qed.
Lemma ev_gt_ll a b : - 2 ^ 63 <= a < 2 ^ 63 -> - 2 ^ 63 <= b < 2 ^ 63 ->
  eval_bin BGt TLL a TLL b = Some (TInt, b2z (b <? a)).
Proof. intros Ha Hb. apply eval_bin_same; rng. Qed.

Lemma ev_shl_ull a k : eval_bin BShl TULL a TInt k = option_map (pair TULL) (shl_u64 a k).
Proof. unfold eval_bin, shl_u64, count_ok. cbn [is_signed bits]. destruct ((0 <=? k) && (k <? 64)); reflexivity. Qed.

Lemma ev_shr_ull a k : eval_bin BShr TULL a TInt k = option_map (pair TULL) (shr_u64 a k).
Proof. unfold eval_bin, shr_u64, count_ok. cbn [bits]. destruct ((0 <=? k) && (k <? 64)); reflexivity. Qed.

Lemma ev_shl_ll a k : eval_bin BShl TLL a TInt k = option_map (pair TLL) (shl_s64 a k).
Proof.
  unfold eval_bin, shl_s64, count_ok, fits, tmin, tmax. cbn [is_signed bits].
  destruct ((0 <=? k) && (k <? 64)) eqn:C; cbn [andb]; [|reflexivity].
  destruct (0 <=? a) eqn:A; cbn [andb]; [|reflexivity].
  assert (0 <= a * 2 ^ k) by (apply Z.mul_nonneg_nonneg; [lia|apply Z.pow_nonneg; lia]).
  destruct ((- 2 ^ (64 - 1) <=? a * 2 ^ k) && (a * 2 ^ k <=? 2 ^ (64 - 1) - 1)) eqn:E1;
    destruct (a * 2 ^ k <? 2 ^ 63) eqn:E2; try reflexivity; exfalso; lia.
Qed.

(* brings `eval_bin o ta a tb b` or `arith t z` into the model's form; the context bounds the shift
   counts, so the model's guarded operations are defined *)
Ltac simp_eval :=
  try first [ rewrite ev_shl_ull, shl_u64_ok by lia | rewrite ev_shr_ull, shr_u64_ok by lia
            | rewrite ev_shl_ll, shl_s64_one by lia
            | rewrite ev_and_ull by rng | rewrite ev_or_ull by rng
            | rewrite eval_bin_same by rng; cbv beta iota ];
  try first [ rewrite arith_ull | rewrite arith_ll, arith_s64_ok by lia | rewrite arith_int by rng ];
  cbn [option_map].

(* ceval rho e = Some (?t, ?z), along the structure of e; a variable is found by computation among
   the assignments made so far, or else the context has an equation for it *)
Ltac solve_ceval :=
  lazymatch goal with
  | |- ceval _ (ELit _ _) = _ => apply ceval_lit; reflexivity
  | |- ceval _ (EVar _) = _ => apply ceval_var; [first [reflexivity | eassumption] | rng]
  | |- ceval _ (ECast TULL _) = _ => eapply ceval_cast_ull; solve_ceval
  | |- ceval _ (ECast TLL _) = _ => eapply ceval_cast_ll; solve_ceval
  | |- ceval _ (EUn UNot _) = _ => eapply ceval_not_ull; solve_ceval
  | |- ceval _ (EUn UNeg _) = _ =>
      etransitivity; [eapply ceval_neg; solve_ceval | simp_eval; reflexivity]
  | |- ceval _ (EBin _ _ _) = _ =>
      etransitivity; [eapply ceval_bin; [exact I | solve_ceval | solve_ceval] | simp_eval; reflexivity]
  end.

Ltac step := erewrite run_step_fits; [ | solve_ceval | rng ].

Lemma guard_eval w sh data : - 2 ^ 31 <= w < 2 ^ 31 ->
  ceval (rho0 w sh data) read_fullwidth_guard = Some (TInt, b2z (64 <=? w)).
Proof. intros Hw. unfold read_fullwidth_guard. solve_ceval. Qed.

(* Each program, run in any environment that holds its inputs: so the runs do not carry the
   environments of the converters around. *)
Section Programs.
  Variables (rho : env) (w sh : Z).
  Hypothesis Hw : rho "cf_cf_bitsize" = Some (TInt, w).
  Hypothesis Hsh : rho "cf_cf_bitshift" = Some (TInt, sh).
  Hypothesis Rw : 1 <= w < 64.
  Hypothesis Rsh : 0 <= sh < 64.

  Lemma read_unsigned_run u : rho "raw_unsigned" = Some (TULL, u) -> 0 <= u < 2 ^ 64 ->
    result_of (run_prog rho read_unsigned_prog) "value" =
    BOk (Z.land (Z.shiftr u sh) (u64 (u64 (1 * 2 ^ w) - 1))).
  Proof. intros Hu Ru. unfold read_unsigned_prog. step. step. step. reflexivity. Qed.

  (* the last subtraction is undefined exactly when the model's is *)
  Lemma read_signed_run s : rho "raw_signed" = Some (TLL, s) -> - 2 ^ 63 <= s < 2 ^ 63 ->
    result_of (run_prog rho read_signed_prog) "result" =
    match arith_s64 (s64 (Z.land (u64 (Z.shiftr (u64 s) sh + u64 (1 * 2 ^ (w - 1)))) (u64 (u64 (1 * 2 ^ w) - 1)))
                     - s64 (u64 (1 * 2 ^ (w - 1)))) with
    | Some result => BOk result
    | None => BUB
    end.
  Proof.
    intros Hs Rs. unfold read_signed_prog. step. step. step. step. cbn [run_prog].
    match goal with |- context [ceval ?r ?e] =>
      assert (ceval r e = option_map (pair TLL) (arith_s64
        (s64 (Z.land (u64 (Z.shiftr (u64 s) sh + u64 (1 * 2 ^ (w - 1)))) (u64 (u64 (1 * 2 ^ w) - 1)))
         - s64 (u64 (1 * 2 ^ (w - 1)))))) as ->
        by (etransitivity; [eapply ceval_bin; [exact I | solve_ceval | solve_ceval]
                           | apply ev_sub_ll; rng])
    end.
    destruct (arith_s64 _) as [r|] eqn:EA; cbn [option_map result_of]; [|reflexivity].
    apply arith_s64_some in EA. destruct EA as [-> Rr].
    rewrite conv_id by rng. reflexivity.
  Qed.

  Lemma bounds_signed_run :
    run_prog rho bounds_signed_prog =
    Some (env_set "fmax" TLL (2 ^ (w - 1) - 1) (env_set "fmin" TLL (- 2 ^ (w - 1)) rho)).
  Proof.
    pose proof (pow2_lt (w - 1) 63 ltac:(lia)). pose proof (pow2_pos (w - 1) ltac:(lia)).
    unfold bounds_signed_prog. step. step. reflexivity.
  Qed.

  Lemma bounds_unsigned_run :
    run_prog rho bounds_unsigned_prog =
    Some (env_set "fmax" TLL (s64 (u64 (u64 (1 * 2 ^ w) - 1))) (env_set "fmin" TLL 0 rho)).
  Proof. unfold bounds_unsigned_prog. step. step. reflexivity. Qed.

  Variable v : Z.
  Hypothesis Hv : rho "value" = Some (TLL, v).
  Hypothesis Rv : - 2 ^ 63 <= v < 2 ^ 63.

  Lemma range_cond_eval lo hi : rho "fmin" = Some (TLL, lo) -> rho "fmax" = Some (TLL, hi) ->
    - 2 ^ 63 <= lo < 2 ^ 63 -> - 2 ^ 63 <= hi < 2 ^ 63 ->
    ceval rho range_cond = Some (TInt, b2z ((v <? lo) || (hi <? v))).
  Proof.
    intros Hlo Hhi Rlo Rhi. unfold range_cond. erewrite ceval_lor; [ | solve_ceval | solve_ceval ].
    destruct (v <? lo), (hi <? v); reflexivity.
  Qed.

  Lemma write_prog_run u : rho "raw_unsigned" = Some (TULL, u) -> 0 <= u < 2 ^ 64 ->
    exists rho', run_prog rho write_prog = Some rho' /\
      rho' "rawfielddata" =
      Some (TULL, Z.lor (Z.land u (u64 (Z.lnot (u64 (u64 (u64 (1 * 2 ^ w) - 1) * 2 ^ sh)))))
                        (Z.land (u64 (u64 v * 2 ^ sh)) (u64 (u64 (u64 (1 * 2 ^ w) - 1) * 2 ^ sh)))).
  Proof.
    intros Hu Ru. unfold write_prog. step. step. step. step.
    eexists. split; [reflexivity|]. apply env_set_same.
  Qed.

  (* what follows the bounds in gen_write, in whatever environment they have left: the range test,
     then (value in range) the masked write *)
  Lemma range_then_write (T : ity) (data : list Z) lo hi u :
    rho "fmin" = Some (TLL, lo) -> rho "fmax" = Some (TLL, hi) ->
    - 2 ^ 63 <= lo < 2 ^ 63 -> - 2 ^ 63 <= hi < 2 ^ 63 ->
    rho "raw_unsigned" = Some (TULL, u) -> 0 <= u < 2 ^ 64 ->
    match ceval rho range_cond with
    | None => (BUB, data)
    | Some (_, c) =>
        if negb (c =? 0) then (BErr OverflowError, data)
        else match run_prog rho write_prog with
             | Some rho4 =>
                 match rho4 "rawfielddata" with Some (_, r) => (BOk tt, write_raw (isize T) r) | None => (BUB, data) end
             | None => (BUB, data)
             end
    end =
    if (v <? lo) || (hi <? v) then (BErr OverflowError, data)
    else (BOk tt, write_raw (isize T)
            (Z.lor (Z.land u (u64 (Z.lnot (u64 (u64 (u64 (1 * 2 ^ w) - 1) * 2 ^ sh)))))
                   (Z.land (u64 (u64 v * 2 ^ sh)) (u64 (u64 (u64 (1 * 2 ^ w) - 1) * 2 ^ sh))))).
  Proof.
    intros Hlo Hhi Rlo Rhi Hu Ru. rewrite (range_cond_eval lo hi) by assumption.
    destruct ((v <? lo) || (hi <? v)); cbn [b2z Z.eqb negb]; [reflexivity|].
    destruct (write_prog_run u Hu Ru) as (rho' & -> & ->). reflexivity.
  Qed.
End Programs.

Section Refine.
  Variables (T : ity) (w sh : Z) (data : list Z).
  Hypothesis P : placement T w sh.
  Hypothesis U : unit_ok T data.

  Theorem gen_read_refines : gen_read T w sh data = bf_read T w sh data.
  Proof.
    pose proof (unit_range64 T w sh data P U) as Ru. pose proof (signed_raw_range T w sh data P U) as Rs.
    destruct P as [Hs Hw Hsh Hfit _].
    unfold gen_read. rewrite guard_eval by lia.
    unfold bf_read. destruct (Z.leb_spec 64 w) as [W|W]; [reflexivity|]. cbn [b2z Z.eqb negb].
    rewrite !shl_u64_ok, !shr_u64_ok by lia.
    destruct (isigned T).
    - apply read_signed_run; try reflexivity; lia.
    - apply read_unsigned_run; try reflexivity; lia.
  Qed.

  Theorem gen_write_refines v : gen_write T w sh v data = bf_write T w sh v data.
  Proof.
    pose proof (unit_range64 T w sh data P U) as Ru. destruct P as [Hs Hw Hsh Hfit _].
    (* the two regenerated guards are the same expression; if they ever differ, this `change` fails *)
    unfold gen_write. change write_fullwidth_guard with read_fullwidth_guard. rewrite guard_eval by lia.
    unfold bf_write. destruct (Z.leb_spec 64 w) as [W|W]; [reflexivity|]. cbn [b2z Z.eqb negb].
    unfold write_value_conv. cbn [conv_value].
    unfold as_longlong. destruct ((- 2 ^ 63 <=? v) && (v <? 2 ^ 63)) eqn:LL; [|reflexivity].
    assert (1 <= w < 64) as Rw by lia. assert (0 <= sh < 64) as Rsh by lia.
    assert (- 2 ^ 63 <= v < 2 ^ 63) as Rv by lia.
    pose proof (pow2_lt (w - 1) 63 ltac:(lia)) as Ph. pose proof (pow2_pos (w - 1) ltac:(lia)) as Ph0.
    unfold bf_bounds. rewrite !shl_u64_ok, shl_s64_one, !arith_s64_ok by lia.
    (* the bounds leave one of three environments: signed with fmax reset to 1, signed, unsigned *)
    destruct (isigned T).
    - erewrite bounds_signed_run by (reflexivity || assumption). rewrite env_set_same.
      destruct (2 ^ (w - 1) - 1 =? 0); apply range_then_write; reflexivity || rng.
    - erewrite bounds_unsigned_run by (reflexivity || assumption). apply range_then_write; reflexivity || rng.
  Qed.
End Refine.
