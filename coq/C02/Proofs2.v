(* C02 — the absolute-bit view: the enclosing object `mem` is one little-endian number
   decode_le mem; a bit-field (T, w, sh) whose storage unit sits at byte offset `off` is the bits
   [8*off + sh, 8*off + sh + w) of that number, whatever the unit type.  A write changes no other
   bit of the object (write_frame_abs), so it cannot change what is read through ANY other field
   whose absolute bit range is disjoint — also when the two fields use storage units of
   different types and offsets that overlap partially (`char a:3; int b:5`). *)
From Coq Require Import ZArith Znumtheory List Bool Lia ZifyBool.
From Cffi Require Import Base.Bits C03.Mem C03.MemProofs C03.Store C03.StoreProofs C02.Spec C02.Model C02.Proofs.
Import ListNotations.
Open Scope Z_scope.

(* The number of a byte string is the concatenation of the numbers of its parts (decode_le_app); the object
   is prefix ++ unit ++ rest (splice_same), and a write replaces the middle part.  So the bits of
   `splice off d mem`, for any d: *)
Lemma splice_parts off d mem j : bytes_ok mem -> bytes_ok d -> (off <= List.length mem)%nat -> 0 <= j ->
  Z.testbit (decode_le (splice off d mem)) j =
  if j <? 8 * Z.of_nat off then Z.testbit (decode_le (firstn off mem)) j
  else if j - 8 * Z.of_nat off <? 8 * Z.of_nat (List.length d) then Z.testbit (decode_le d) (j - 8 * Z.of_nat off)
  else Z.testbit (decode_le (skipn (off + List.length d) mem)) (j - 8 * Z.of_nat off - 8 * Z.of_nat (List.length d)).
Proof.
  intros Hm Hd Hoff Hj. unfold splice. rewrite !decode_le_app.
  pose proof (decode_le_bound _ (proj1 (bytes_ok_cut off mem Hm))) as Bp. rewrite firstn_length_le in * by exact Hoff.
  rewrite testbit_cat by lia. destruct (j <? 8 * Z.of_nat off) eqn:E; [reflexivity|].
  apply testbit_cat; [apply decode_le_bound, Hd|lia..].
Qed.

Lemma c_bitfield_value_field sg w sh u sh' u' :
  field_bits w sh u = field_bits w sh' u' -> c_bitfield_value sg w sh u = c_bitfield_value sg w sh' u'.
Proof. unfold c_bitfield_value. intros ->. reflexivity. Qed.

Lemma field_bits_field w sh n a m : 0 <= w -> 0 <= sh -> 0 <= a -> sh + w <= n ->
  field_bits w sh (field_bits n a m) = field_bits w (a + sh) m.
Proof.
  intros Hw Hsh Ha Hn. apply field_bits_ext; try lia. intros i Hi. rewrite testbit_field by lia.
  replace (i + sh <? n) with true by lia. cbn [andb]. f_equal. lia.
Qed.

Lemma unit_field off n mem : bytes_ok mem -> (off + n <= List.length mem)%nat ->
  decode_le (unit_at off n mem) = field_bits (8 * Z.of_nat n) (8 * Z.of_nat off) (decode_le mem).
Proof.
  intros Hb Hlen. pose proof (bytes_ok_unit_at off n mem Hb) as Bu.
  pose proof (decode_le_bound _ Bu) as R. rewrite unit_at_length in R by exact Hlen.
  apply Z.bits_inj'. intros i Hi. rewrite testbit_field by lia. destruct (Z.ltb_spec i (8 * Z.of_nat n)); cbn [andb].
  - rewrite <- (splice_same off n mem Hlen) at 2. rewrite splice_parts, unit_at_length by (auto; lia).
    replace (i + 8 * Z.of_nat off <? 8 * Z.of_nat off) with false by lia.
    replace (i + 8 * Z.of_nat off - 8 * Z.of_nat off) with i by lia.
    replace (i <? 8 * Z.of_nat n) with true by lia. reflexivity.
  - apply (high_bits_of_small _ (8 * Z.of_nat n)); lia.
Qed.

Lemma bytes_ok_splice off new mem : bytes_ok mem -> bytes_ok new -> bytes_ok (splice off new mem).
Proof.
  intros Hm Hn. unfold splice. apply Forall_app. split; [|apply Forall_app; split; [exact Hn|]].
  - apply (bytes_ok_cut off mem Hm).
  - apply (bytes_ok_cut (off + List.length new) mem Hm).
Qed.

Lemma splice_agree off new mem j : bytes_ok mem -> bytes_ok new ->
  (off + List.length new <= List.length mem)%nat -> 0 <= j ->
  (8 * Z.of_nat off <= j < 8 * Z.of_nat (off + List.length new) ->
   Z.testbit (decode_le new) (j - 8 * Z.of_nat off) =
   Z.testbit (decode_le (unit_at off (List.length new) mem)) (j - 8 * Z.of_nat off)) ->
  Z.testbit (decode_le (splice off new mem)) j = Z.testbit (decode_le mem) j.
Proof.
  intros Hm Hn Hlen Hj H. rewrite <- (splice_same off (List.length new) mem Hlen) at 2.
  rewrite !splice_parts, unit_at_length by (auto using bytes_ok_unit_at; lia).
  destruct (Z.ltb_spec j (8 * Z.of_nat off)); [reflexivity|].
  destruct (Z.ltb_spec (j - 8 * Z.of_nat off) (8 * Z.of_nat (List.length new))); [apply H; lia|reflexivity].
Qed.

Theorem read_abs T w sh off mem : placement T w sh ->
  (off + isize T <= List.length mem)%nat -> bytes_ok mem ->
  bf_read_at T w sh off mem =
  BOk (c_bitfield_value (isigned T) w (8 * Z.of_nat off + sh) (decode_le mem)).
Proof.
  intros P Hlen Hb. unfold bf_read_at.
  pose proof (unit_ok_unit_at T off mem Hlen Hb) as U.
  rewrite (read_like_C T w sh _ P U). destruct P as [Hs Hw Hsh Hfit _].
  f_equal. apply c_bitfield_value_field. unfold read_raw_unsigned. rewrite unit_field by assumption. apply field_bits_field; lia.
Qed.

Theorem write_frame_abs T w sh v off mem : placement T w sh ->
  (off + isize T <= List.length mem)%nat -> bytes_ok mem ->
  let mem' := snd (bf_write_at T w sh v off mem) in
  List.length mem' = List.length mem /\ bytes_ok mem' /\
  forall j, 0 <= j -> ~ (8 * Z.of_nat off + sh <= j < 8 * Z.of_nat off + sh + w) ->
    Z.testbit (decode_le mem') j = Z.testbit (decode_le mem) j.
Proof.
  intros P Hlen Hb. cbv zeta. unfold bf_write_at.
  pose proof (unit_ok_unit_at T off mem Hlen Hb) as U.
  pose proof (write_exact T w sh v _ P U) as H.
  destruct (acceptb (isigned T) w v).
  - destruct H as [d' [E [[L' B'] Bits]]]. rewrite E. cbn [snd].
    split; [apply splice_length; lia|]. split; [apply bytes_ok_splice; auto|].
    intros j Hj Out. apply splice_agree; auto; try lia. intros In. rewrite L'.
    unfold read_raw_unsigned in Bits. rewrite Bits by lia. rewrite in_field_outside by lia. reflexivity.
  - rewrite H. cbn [snd]. rewrite splice_same by exact Hlen. auto.
Qed.

Theorem fields_noninterfere T1 w1 sh1 off1 T2 w2 sh2 off2 v mem :
  placement T1 w1 sh1 -> placement T2 w2 sh2 ->
  (off1 + isize T1 <= List.length mem)%nat -> (off2 + isize T2 <= List.length mem)%nat ->
  bytes_ok mem ->
  (8 * Z.of_nat off1 + sh1 + w1 <= 8 * Z.of_nat off2 + sh2 \/
   8 * Z.of_nat off2 + sh2 + w2 <= 8 * Z.of_nat off1 + sh1) ->
  bf_read_at T2 w2 sh2 off2 (snd (bf_write_at T1 w1 sh1 v off1 mem)) = bf_read_at T2 w2 sh2 off2 mem.
Proof.
  intros P1 P2 L1 L2 Hb Hd.
  destruct (write_frame_abs T1 w1 sh1 v off1 mem P1 L1 Hb) as (Hl & Hb' & Hfr).
  rewrite !read_abs by (auto; lia). destruct P2 as [_ Hw2 Hsh2 _ _].
  f_equal. apply c_bitfield_value_field, field_bits_ext; try lia. intros i Hi. apply Hfr; lia.
Qed.

Theorem field_write_keeps_bytes T1 w1 sh1 off1 v mem off2 n2 :
  placement T1 w1 sh1 -> (off1 + isize T1 <= List.length mem)%nat ->
  (off2 + n2 <= List.length mem)%nat -> bytes_ok mem ->
  (8 * Z.of_nat off1 + sh1 + w1 <= 8 * Z.of_nat off2 \/
   8 * Z.of_nat (off2 + n2) <= 8 * Z.of_nat off1 + sh1) ->
  unit_at off2 n2 (snd (bf_write_at T1 w1 sh1 v off1 mem)) = unit_at off2 n2 mem.
Proof.
  intros P1 L1 L2 Hb Hd.
  destruct (write_frame_abs T1 w1 sh1 v off1 mem P1 L1 Hb) as (Hl & Hb' & Hfr).
  set (mem' := snd (bf_write_at T1 w1 sh1 v off1 mem)) in *.
  apply decode_le_inj; [apply bytes_ok_unit_at; assumption ..|rewrite !unit_at_length by lia; reflexivity|].
  rewrite !unit_field by (auto; lia). apply field_bits_ext; try lia. intros i Hi. apply Hfr; lia.
Qed.
