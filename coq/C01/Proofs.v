(* C01 — the model's field loop computes the specification's layout.
   Invariant carried through the loop:  pos = 8*byteoffset + bitoffset  (and bitoffset < 8,
   byteoffsetmax = ceil(maxend/8), equal alignments, equal field lists after normalisation). *)
From Coq Require Import ZArith Lia Bool List.
Import ListNotations.
From Cffi Require Import Base.Align C01.Spec C01.Model C01.Arith.
Open Scope Z_scope.

(* the largest alignment of Spec.in_class; the same number as Model.SF_DEFAULT_PACKING *)
Definition MAXAL := 1073741824.

(* the flag word the loop runs with on x86-64 Linux *)
Definition flags_ok (sflags : Z) : Prop :=
  has sflags SF_GCC_ARM_BITFIELDS = false /\ has sflags SF_MSVC_BITFIELDS = false /\
  has sflags SF_GCC_BIG_ENDIAN = false.

(* (effective pack of the C code) vs (pack of the declaration) *)
Definition pack_rel (pack P : Z) : Prop :=
  (P = 0 /\ pack = SF_DEFAULT_PACKING) \/ (is_pow2 P /\ pack = P).

Record inv (st : lstate) (c : cursor) : Prop := {
  i_pos : pos c = 8 * byteoffset st + bitoffset st;
  i_bit : 0 <= bitoffset st < 8;
  i_max : byteoffsetmax st = (maxend c + 7) / 8;
  i_maxnn : 0 <= maxend c;
  i_al : alignment st = salign c;
  i_alp : is_pow2 (alignment st) /\ alignment st <= MAXAL;
  i_out : map norm_field (fields_out st) = out c }.

(* what the model knows about a member's type vs what the specification knows *)
Definition rel_member (last : bool) (bits : Z) (ft : ctype) (fi : tinfo) (s a : Z)
           (sub : option (list placed)) : Prop :=
  ti_align fi = a /\ is_pow2 a /\ a <= MAXAL /\
  ((ti_size fi = s /\ 0 <= s) \/
   (ti_size fi = -1 /\ s = 0 /\ is_array ft = true /\ last = true /\ bits = -1)) /\
  sub = (if is_agg ft then Some (map norm_field (ti_fields fi)) else None).

Definition field_valid (P : Z) (named : bool) (ft : ctype) (fi : tinfo) (bits : Z) : Prop :=
  (bits = -1 \/
   (0 <= bits /\ P = 0 /\ bitfield_capable ft = true /\ 0 <= ti_size fi /\ bits <= 8 * ti_size fi /\
    (bits = 0 -> named = false))) /\
  (bits = -1 -> named = false -> is_agg ft = true).

Lemma get_alignment_ok fi : is_pow2 (ti_align fi) -> get_alignment fi = Ok (ti_align fi).
Proof.
  intros Hp. unfold get_alignment. pose proof (is_pow2_pos _ Hp).
  destruct Hp as (k & Hk & E). rewrite E at 2 3. rewrite pow2_land_pred by lia.
  destruct (Z.ltb_spec (ti_align fi) 1); [lia|]. reflexivity.
Qed.

Lemma falign_cap pack P a : pack_rel pack P -> 0 < a -> a <= MAXAL ->
  (if pack <? a then pack else a) = cap P a.
Proof.
  unfold pack_rel, cap, SF_DEFAULT_PACKING, MAXAL. intros [[-> ->]|[Hp ->]] Ha Hm.
  - destruct (Z.ltb_spec 1073741824 a); [lia|reflexivity].
  - apply is_pow2_pos in Hp. destruct (Z.ltb_spec 0 P); [|lia]. reflexivity.
Qed.

Lemma cap_pow2 pack P a : pack_rel pack P -> is_pow2 a -> a <= MAXAL ->
  is_pow2 (cap P a) /\ cap P a <= MAXAL.
Proof.
  unfold cap. intros HP Ha Hm.
  destruct (Z.ltb_spec 0 P), (Z.ltb_spec P a); cbn; auto.
  destruct HP as [[-> _]|[Hp _]]; [lia|]. split; [auto|lia].
Qed.

Lemma max_pow2 x y : is_pow2 x /\ x <= MAXAL -> is_pow2 y /\ y <= MAXAL ->
  is_pow2 (Z.max x y) /\ Z.max x y <= MAXAL.
Proof. intros (Hx & ?) (Hy & ?). split; [exact (is_pow2_max x y Hx Hy)|lia]. Qed.

Lemma align_update al fa (d : bool) :
  (if (al <? fa) && d then fa else al) = if d then Z.max al fa else al.
Proof.
  destruct d; [|rewrite andb_false_r; reflexivity]. rewrite andb_true_r.
  destruct (Z.ltb_spec al fa); lia.
Qed.

Definition shiftf (d fl : Z) (c : cfield) : cfield :=
  CF (cf_type c) (d + cf_offset c) (cf_bitshift c) (cf_bitsize c) (Z.lor (cf_flags c) fl).

Lemma norm_shift d fl c : norm_field (shiftf d fl c) = shift_placed d (norm_field c).
Proof.
  unfold norm_field, shiftf. cbn [cf_bitsize cf_offset cf_bitshift].
  destruct (cf_bitsize c <? 0); cbn [shift_placed]; f_equal; lia.
Qed.

(* the common tail of every branch (lines 5517-5519): new (byteoffset, bitoffset) = (B', b'), and
   the specification's cursor c' stands at bit 8*B' + b' *)
Lemma inv_finish st c B' b' al' pbs pbf i va cu pc new c' :
  inv st c -> 0 <= b' < 8 -> is_pow2 al' /\ al' <= MAXAL ->
  c' = CU (8 * B' + b') (Z.max (maxend c) (8 * B' + b')) al' (out c ++ map norm_field new) ->
  inv (LS B' b' (if byteoffsetmax st <? ROUNDUP_BYTES B' b' then ROUNDUP_BYTES B' b' else byteoffsetmax st)
          al' pbs pbf i va cu pc (fields_out st ++ new)) c'.
Proof.
  intros I Hb Hal ->. constructor; cbn [pos maxend salign out byteoffset bitoffset byteoffsetmax alignment fields_out]; auto.
  - rewrite ceil8_max, ceil8_bits by lia. rewrite <- (i_max _ _ I).
    change (ROUNDUP_BYTES B' b') with (B' + carry b').
    destruct (Z.ltb_spec (byteoffsetmax st) (B' + carry b')); lia.
  - pose proof (i_maxnn _ _ I). lia.
  - rewrite map_app, (i_out _ _ I). reflexivity.
Qed.

Lemma rb_carry B b : ROUNDUP_BYTES B b = B + carry b.
Proof. reflexivity. Qed.

(* One reading of Model.field_step under the x86-64 flag word, in the specification's terms: from the
   cursor p0 (in bits) a member of effective alignment a moves the cursor to p' and emits the typed
   fields `new` (flags fl).  Agreement with the compiler (member_at_spec) and the fields lying inside
   the object (Proofs2.member_at_chain, member_at_fld) are each short from it, so the branches of the
   C code are walked once, in field_step_gcc.
     at_plain: a member that is not a bit-field, named or anonymous (the anonymous aggregate's own
               fields are copied, shifted by its offset o);
     at_pad:   a zero-width bit-field;
     at_bits:  a bit-field of width > 0.  It occupies the bits [start, start + bits) with the
               specification's `start`; the model records them as (o, sh), the a-aligned unit at byte o
               that holds them and the shift inside it: a split the specification does not make. *)
Inductive member_at (a p0 fl : Z) (named : bool) (ft : ctype) (fi : tinfo) : Z -> Z -> list cfield -> Prop :=
| at_plain o p' : 8 * o = roundup p0 (8 * a) -> p0 <= 8 * o -> p' = 8 * (o + Z.max 0 (ti_size fi)) ->
    member_at a p0 fl named ft fi (-1) p'
      (if negb named && is_agg ft then map (shiftf o fl) (ti_fields fi)
       else [CF ft o (if is_array ft && (array_len ft <=? 0) then BS_EMPTY_ARRAY else BS_REGULAR) (-1) fl])
| at_pad p' : p' = roundup p0 (8 * a) -> p0 <= p' -> member_at a p0 fl named ft fi 0 p' []
| at_bits bits o sh p' : 0 < bits -> (a | o) -> 0 <= sh -> sh + bits <= 8 * ti_size fi ->
    8 * o + sh = (if p0 mod (8 * a) + bits >? 8 * ti_size fi then roundup p0 (8 * a) else p0) ->
    p0 <= 8 * o + sh -> p' = 8 * o + sh + bits ->
    member_at a p0 fl named ft fi bits p' (if named then [CF ft o sh bits fl] else []).

(* padding (width 0) or a plain member moves to the next multiple of a: the model's two ways of writing it *)
Lemma aligned_at a B0 b0 : 0 < a -> 0 <= b0 < 8 ->
  8 * (if a * (B0 / a) <? ROUNDUP_BYTES B0 b0 then a * (B0 / a) + a else a * (B0 / a)) = roundup (8 * B0 + b0) (8 * a) /\
  8 * (a * ((ROUNDUP_BYTES B0 b0 + a - 1) / a)) = roundup (8 * B0 + b0) (8 * a).
Proof. intros. split; [rewrite roundup_next_unit by lia|rewrite roundup_bits_bytes by lia]; reflexivity. Qed.

(* a bit-field of width > 0 from the cursor (B0, b0): fob is the start of the a-byte unit that contains
   B0; it goes to the next unit when it does not fit in what is left of this one *)
Lemma bitfield_at a B0 b0 fl named ft fi bits :
  0 < a -> 0 <= b0 < 8 -> 0 < bits <= 8 * ti_size fi ->
  let fob := a * (B0 / a) in
  let occ := (B0 - fob) * 8 + b0 in
  let at_ (o sh : Z) := forall p', p' = 8 * o + sh + bits ->
                   member_at a (8 * B0 + b0) fl named ft fi bits p' (if named then [CF ft o sh bits fl] else []) in
  if 8 * ti_size fi <? occ + bits then at_ (fob + a) 0 else at_ fob occ.
Proof.
  intros Ha Hb Hbits fob occ at_.
  assert (fob <= B0 < fob + a)
    by (subst fob; pose proof (Z.mod_pos_bound B0 a Ha); pose proof (Z.div_mod B0 a ltac:(lia)); lia).
  assert (a | fob) by (exists (B0 / a); subst fob; lia).
  pose proof (mod_bits_bytes B0 b0 a Ha Hb) as Emod. fold fob occ in Emod.
  pose proof (roundup_next_unit B0 b0 a Ha Hb) as Eup. fold fob in Eup. unfold carry in Eup.
  destruct (Z.ltb_spec (8 * ti_size fi) (occ + bits)); intros p' ->; apply at_bits; try lia; try assumption.
  - apply Z.divide_add_r; [assumption|apply Z.divide_refl].
  - rewrite Emod, Eup, Z.gtb_ltb. destruct (Z.ltb_spec (8 * ti_size fi) (occ + bits)); [|lia].
    destruct (Z.ltb_spec fob (B0 + (if 0 <? b0 then 1 else 0))); [lia|destruct (Z.ltb_spec 0 b0); lia].
  - rewrite Emod, Z.gtb_ltb. destruct (Z.ltb_spec (8 * ti_size fi) (occ + bits)); lia.
Qed.

(* field_step, read once: with the flag word of x86-64 Linux an accepted member is placed as member_at
   says (the state components no invariant looks at are left open); a member is refused only for an
   incomplete type that is not a trailing array, or for a bit-field under SF_PACKED. *)
Lemma field_step_gcc (u : bool) sflags pack P last st named ft fi bits :
  flags_ok sflags -> pack_rel pack P -> is_pow2 (ti_align fi) -> ti_align fi <= MAXAL ->
  field_valid P named ft fi bits -> 0 <= bitoffset st < 8 ->
  let a := cap P (ti_align fi) in
  let B0 := if u then 0 else byteoffset st in
  let b0 := if u then 0 else bitoffset st in
  match field_step u sflags pack last st named ft fi bits with
  | Ok st' =>
      exists B' b' new pbs pbf va cu pc,
        st' = LS B' b' (if byteoffsetmax st <? ROUNDUP_BYTES B' b' then ROUNDUP_BYTES B' b' else byteoffsetmax st)
                 (if (bits <? 0) || named then Z.max (alignment st) a else alignment st)
                 pbs pbf (idx st + 1) va cu pc (fields_out st ++ new) /\
        0 <= b' < 8 /\
        member_at a (8 * B0 + b0) (if u && (0 <? idx st) then BF_IGNORE_IN_CTOR else 0)
                  named ft fi bits (8 * B' + b') new
  | Err _ =>
      (ti_size fi < 0 /\ is_array ft && (bits <? 0) && last = false) \/ (has sflags SF_PACKED = true /\ 0 < bits)
  end.
Proof.
  intros (Farm & Fmsvc & Fbe) HP Hpa Hma (Hbits & Hanon) Hbit a B0 b0.
  pose proof (cap_pow2 pack P _ HP Hpa Hma) as (Hcap & _). pose proof (is_pow2_pos _ Hcap) as Ha.
  assert (Hb0 : 0 <= b0 < 8) by (subst b0; destruct u; lia).
  unfold field_step. fold B0 b0.
  match goal with |- context [bind ?X _] =>
    assert (Hva : (exists va, X = Ok va) \/
                  (X = Err TypeError /\ ti_size fi < 0 /\ is_array ft && (bits <? 0) && last = false)) end.
  { destruct (Z.ltb_spec (ti_size fi) 0); [|destruct (is_agg ft); eauto].
    destruct (is_array ft && (bits <? 0) && last); eauto. }
  destruct Hva as [(va & ->)|(-> & Hva)]; cbn [bind]; [|left; exact Hva].
  rewrite get_alignment_ok by auto. cbn [bind].
  rewrite (falign_cap pack P (ti_align fi)) by (auto using is_pow2_pos). fold a.
  rewrite Farm, Fmsvc, Fbe. cbn [negb andb]. rewrite align_update.
  destruct (aligned_at a B0 b0 Ha Hb0) as (Epad & Eplain).
  pose proof (roundup_ge (8 * B0 + b0) (8 * a) ltac:(lia)) as Hup.
  destruct (Z.ltb_spec bits 0) as [Hneg|Hnn].
  - assert (bits = -1) as -> by (destruct Hbits as [?|(? & _)]; lia).
    cbn [Z.leb Z.compare orb]. rewrite (and_not_m1_spec _ a) by exact Hcap.
    do 8 eexists. split; [reflexivity|]. split; [lia|].
    eapply at_plain; [exact Eplain|lia|]. destruct (Z.leb_spec 0 (ti_size fi)); lia.
  - destruct Hbits as [->|(_ & -> & Hbf & Hsnn & Hw & Hz)]; [lia|].
    rewrite Hbf. cbn [negb orb]. change (cap 0 (ti_align fi)) with (ti_align fi) in a.
    destruct (Z.ltb_spec (8 * ti_size fi) bits); [lia|].
    destruct (Z.leb_spec 0 bits); [|lia].
    rewrite (and_not_m1_spec _ a) by exact Hpa.
    destruct (Z.eqb_spec bits 0) as [->|Hnz].
    + rewrite Hz by reflexivity. do 8 eexists. split; [reflexivity|]. split; [lia|]. apply at_pad; lia.
    + pose proof (bitfield_at a B0 b0 (if u && (0 <? idx st) then BF_IGNORE_IN_CTOR else 0) named ft fi bits
                              Ha Hb0 ltac:(lia)) as Hat. cbv zeta in Hat.
      destruct (8 * ti_size fi <? _).
      * destruct (has sflags SF_PACKED); cbn [andb]; [destruct (negb _); [right; split; [reflexivity|lia]|]|];
          rewrite shiftr3, land7, Z.add_0_l;
          (do 8 eexists; split; [reflexivity|]; split; [apply mod8_bound|]);
          apply Hat; pose proof (split8 bits); lia.
      * rewrite shiftr3, land7. do 8 eexists. split; [reflexivity|]. split; [apply mod8_bound|].
        apply Hat. pose proof (split8 (b0 + bits)). lia.
Qed.

(* member_at is the specification's place_member, the typed fields read through norm_field *)
Lemma member_at_spec (u : bool) P c a0 fl named ft fi bits p' new :
  member_at (cap P a0) (if u then 0 else pos c) fl named ft fi bits p' new ->
  field_valid P named ft fi bits ->
  place_member u P c named (Z.max 0 (ti_size fi)) a0
               (if is_agg ft then Some (map norm_field (ti_fields fi)) else None) bits =
  CU p' (Z.max (maxend c) p') (if (bits <? 0) || named then Z.max (salign c) (cap P a0) else salign c)
     (out c ++ map norm_field new).
Proof.
  intros Hat (Hbits & Hanon). unfold place_member.
  destruct Hat as [o p' Eo _ ->| p' -> _|bits o sh p' Hb _ _ _ Est _ ->].
  - cbn [Z.ltb Z.compare orb]. rewrite <- Eo, (Z.mul_comm 8 o), Z.div_mul by lia.
    f_equal; try lia. f_equal. destruct named; cbn [negb andb]; [reflexivity|].
    rewrite Hanon by auto. rewrite !map_map. symmetry. apply map_ext. intros cf. apply norm_shift.
  - destruct Hbits as [?|(_ & -> & _ & _ & _ & Hz)]; [lia|]. rewrite Hz by reflexivity.
    cbn [Z.ltb Z.eqb Z.compare orb map]. rewrite app_nil_r. reflexivity.
  - destruct Hbits as [?|(_ & -> & _ & Hs & _)]; [lia|]. rewrite Z.max_r by exact Hs.
    change (cap 0 a0) with a0 in *.
    destruct (Z.ltb_spec bits 0); [lia|]. destruct (Z.eqb_spec bits 0); [lia|]. cbn [orb].
    rewrite <- Est. do 2 f_equal. destruct named; [|reflexivity].
    unfold norm_field. cbn [map cf_bitsize cf_offset cf_bitshift]. destruct (Z.ltb_spec bits 0); [lia|reflexivity].
Qed.

Lemma step_agrees u sflags pack P last st c named ft fi bits s a sub :
  flags_ok sflags -> pack_rel pack P -> (has sflags SF_PACKED = true -> P <> 0) ->
  inv st c -> rel_member last bits ft fi s a sub -> field_valid P named ft fi bits ->
  exists st', field_step u sflags pack last st named ft fi bits = Ok st' /\
              inv st' (place_member u P c named s a sub bits).
Proof.
  intros Hf HP Hpk I (<- & Hpa & Hma & Hsz & ->) Hv.
  pose proof (field_step_gcc u sflags pack P last st named ft fi bits Hf HP Hpa Hma Hv (i_bit _ _ I)) as Hstep.
  cbv zeta in Hstep.
  destruct (field_step u sflags pack last st named ft fi bits) as [st'|e].
  2:{ exfalso. destruct Hv as (Hbits & _). destruct Hstep as [(Hneg & Hva)|(Hpck & Hpos)].
      - destruct Hsz as [[Es Hs]|(_ & _ & Harr & -> & ->)]; [lia|]. rewrite Harr in Hva. discriminate.
      - apply (Hpk Hpck). destruct Hbits as [->|(_ & -> & _)]; [lia|reflexivity]. }
  destruct Hstep as (B' & b' & new & pbs & pbf & va & cu & pc & -> & Hb' & Hat).
  eexists. split; [reflexivity|].
  assert (s = Z.max 0 (ti_size fi)) as -> by (destruct Hsz as [[? ?]|(? & ? & _)]; lia).
  apply (inv_finish st c); auto.
  - destruct ((bits <? 0) || named); [apply max_pow2; [|apply (cap_pow2 pack P); auto]|]; apply (i_alp _ _ I).
  - rewrite (i_al _ _ I). eapply member_at_spec; [|exact Hv].
    destruct u; [exact Hat|]. rewrite (i_pos _ _ I). exact Hat.
Qed.

Lemma mloop_cons rec u sf pk named ft bits fs st :
  mloop rec u sf pk ((named, ft, bits) :: fs) st =
  bind (rec ft) (fun fi =>
  bind (field_step u sf pk (match fs with [] => true | _ => false end) st named ft fi bits)
       (mloop rec u sf pk fs)).
Proof. reflexivity. Qed.

Definition sgo := place_fields gcc_layout.

Lemma sgo_cons u P named ft bits fs c :
  sgo u P ((named, ft, bits) :: fs) c =
  sgo u P fs (place_member u P c named (g_size (gcc_layout ft)) (g_align (gcc_layout ft))
                           (if is_agg ft then Some (g_fields (gcc_layout ft)) else None) bits).
Proof. reflexivity. Qed.

Lemma gcc_layout_agg u P fs : gcc_layout (TAgg u P fs) = finish_agg (sgo u P fs cursor0).
Proof. reflexivity. Qed.

Lemma place_fields_place_all u P fs c : sgo u P fs c = place_all u P (map smember_of fs) c.
Proof.
  revert c. induction fs as [|[[named ft] bits] fs IH]; intros c; [reflexivity|].
  rewrite sgo_cons. cbn [map place_all smember_of f_named f_type f_bits fst snd]. apply IH.
Qed.

(* the generated ctype_ind has no hypothesis for the member types inside the field list *)
Section ctype_ind2.
  Variable Q : ctype -> Prop.
  Hypothesis HP : forall s a b, Q (TPrim s a b).
  Hypothesis HA : forall it n, Q it -> Q (TArr it n).
  Hypothesis HG : forall u p fs, Forall (fun f => Q (f_type f)) fs -> Q (TAgg u p fs).
  Fixpoint ctype_ind2 (t : ctype) : Q t :=
    match t with
    | TPrim s a b => HP s a b
    | TArr it n => HA it n (ctype_ind2 it)
    | TAgg u p fs =>
        HG u p fs ((fix go (l : list (bool * ctype * Z)) : Forall (fun f => Q (f_type f)) l :=
                      match l with
                      | [] => Forall_nil _
                      | (nm, ft, b) :: l' =>
                          Forall_cons (nm, ft, b) (ctype_ind2 ft : Q (f_type (nm, ft, b))) (go l')
                      end) fs)
    end.
End ctype_ind2.

Lemma all_fields (Q : bool -> ctype -> Z -> Prop) (fs : list (bool * ctype * Z)) :
  (fix all (fs : list (bool * ctype * Z)) : Prop :=
     match fs with [] => True | (nm, ft, b) :: fs' => Q nm ft b /\ all fs' end) fs
  <-> Forall (fun f => Q (f_named f) (f_type f) (f_bits f)) fs.
Proof.
  induction fs as [|[[nm ft] b] fs IH]; [split; auto|].
  rewrite Forall_cons_iff, <- IH. reflexivity.
Qed.

Lemma in_class_fields (fs : list (bool * ctype * Z)) :
  (fix all (fs : list (bool * ctype * Z)) : Prop :=
     match fs with [] => True | (_, ft, _) :: fs' => in_class ft /\ all fs' end) fs
  <-> Forall (fun f => in_class (f_type f)) fs.
Proof. exact (all_fields (fun _ ft _ => in_class ft) fs). Qed.

Lemma no_zero_fields (fs : list (bool * ctype * Z)) :
  (fix all (fs : list (bool * ctype * Z)) : Prop :=
     match fs with [] => True | (_, ft, _) :: fs' => no_zero_size ft /\ all fs' end) fs
  <-> Forall (fun f => no_zero_size (f_type f)) fs.
Proof. exact (all_fields (fun _ ft _ => no_zero_size ft) fs). Qed.

Lemma effective_flags_ok P : P = 0 \/ is_pow2 P ->
  let '(sflags0, pack0) := finish_backend_flags P in
  let '(sflags, pack) := effective_flags sflags0 pack0 in
  flags_ok sflags /\ pack_rel pack P /\ (has sflags SF_PACKED = true -> P <> 0).
Proof.
  intros HP. unfold finish_backend_flags.
  assert (F80 : flags_ok 80) by (repeat split; reflexivity).
  assert (F88 : flags_ok 88) by (repeat split; reflexivity).
  destruct (Z.eqb_spec P 0) as [->|H0].
  - change (effective_flags 0 0) with (80, SF_DEFAULT_PACKING). cbv iota beta.
    split; [exact F80|split].
    + left. split; reflexivity.
    + intros H. vm_compute in H. discriminate H.
  - destruct HP as [?|HP]; [contradiction|].
    destruct (Z.eqb_spec P 1) as [->|H1].
    + change (effective_flags 8 0) with (88, 1). cbv iota beta.
      split; [exact F88|split].
      * right. split; [exact HP|reflexivity].
      * intros _. lia.
    + pose proof (is_pow2_pos _ HP).
      unfold effective_flags. change (complete_sflags 0) with 80. change (has 80 SF_PACKED) with false.
      cbv iota. destruct (Z.leb_spec P 0); [lia|].
      change (Z.lor 80 SF_PACKED) with 88.
      split; [exact F88|split].
      * right. split; [exact HP|reflexivity].
      * intros _. exact H0.
Qed.

Lemma cffi_layout_agg u P fs :
  cffi_layout (TAgg u P fs) =
  let '(sflags0, pack0) := finish_backend_flags P in
  let '(sflags, pack) := effective_flags sflags0 pack0 in
  bind (mloop cffi_layout u sflags pack fs lstate0) (fun st => Ok (finish_struct st)).
Proof. reflexivity. Qed.

Lemma cffi_layout_agg_flags u P fs : P = 0 \/ is_pow2 P ->
  exists sflags pack,
    (flags_ok sflags /\ pack_rel pack P /\ (has sflags SF_PACKED = true -> P <> 0)) /\
    cffi_layout (TAgg u P fs) =
    bind (mloop cffi_layout u sflags pack fs lstate0) (fun st => Ok (finish_struct st)).
Proof.
  intros HP. pose proof (effective_flags_ok P HP) as Hfl. rewrite cffi_layout_agg.
  destruct (finish_backend_flags P) as (sflags0, pack0).
  destruct (effective_flags sflags0 pack0) as (sflags, pack).
  exists sflags, pack. split; [exact Hfl|reflexivity].
Qed.

Lemma inv0 : inv lstate0 cursor0.
Proof.
  constructor; cbn; try reflexivity; try lia.
  split; [exists 0; split; [lia|reflexivity]|unfold MAXAL; lia].
Qed.

Definition wf_info (t : ctype) (ti : tinfo) : Prop :=
  is_pow2 (ti_align ti) /\ ti_align ti <= MAXAL /\
  (0 <= ti_size ti \/ (ti_size ti = -1 /\ exists it, t = TArr it (-1))).

Lemma class_field_valid P last named ft bits ti :
  field_ok P last (named, ft, bits) -> cffi_layout ft = Ok ti -> wf_info ft ti ->
  field_valid P named ft ti bits.
Proof.
  intros (Hb & Han & _) Eti (_ & _ & Hsz). split; [|exact Han].
  destruct Hb as [?|(Hnn & HP & (s & a & -> & Hw) & Hz)]; [left; auto|right].
  injection Eti as <-. destruct Hsz as [?|(_ & it & ?)]; [|discriminate]. repeat split; auto.
Qed.

(* The layout the model itself gives a type, in the specification's format (`T x[]`, of ct_size -1,
   as an array of length 0).  The specification's loop can always be run on these for the members'
   types: so nothing in the class is rejected, zero-size aggregates included; and agreement with the
   compiler is own_layout t = gcc_layout t, which holds when no size is zero. *)
Definition own_layout (t : ctype) : glayout :=
  match cffi_layout t with
  | Ok ti => GL (Z.max 0 (ti_size ti)) (ti_align ti) (map norm_field (ti_fields ti))
  | Err _ => GL 0 1 []
  end.

Lemma own_member P last named ft bits ti :
  field_ok P last (named, ft, bits) -> cffi_layout ft = Ok ti -> wf_info ft ti ->
  let g := own_layout ft in
  rel_member last bits ft ti (g_size g) (g_align g) (if is_agg ft then Some (g_fields g) else None).
Proof.
  intros (_ & _ & Hfl) E (Hp & Hm & Hsz). unfold own_layout. rewrite E. cbn [g_size g_align g_fields].
  repeat split; auto.
  destruct Hsz as [?|(Es & it & ->)]; [left; lia|right]. destruct (Hfl it eq_refl) as (-> & ->). rewrite Es. auto.
Qed.

Lemma mloop_agrees u sflags pack P :
  flags_ok sflags -> pack_rel pack P -> (has sflags SF_PACKED = true -> P <> 0) ->
  forall fs st c, inv st c -> fields_ok P fs ->
  Forall (fun f => exists ti, cffi_layout (f_type f) = Ok ti /\ wf_info (f_type f) ti) fs ->
  exists st', mloop cffi_layout u sflags pack fs st = Ok st' /\ inv st' (place_fields own_layout u P fs c).
Proof.
  intros Hf HP Hpk. induction fs as [|[[named ft] bits] fs IH]; intros st c I Hok Hall.
  - exists st. split; [reflexivity|exact I].
  - inversion Hall as [|? ? (ti & Eti & Hwf) Hall']; subst. cbn [f_type fst snd] in *.
    destruct Hok as (Hok1 & Hok2).
    destruct (step_agrees u sflags pack P _ st c named ft ti bits _ _ _ Hf HP Hpk I
                (own_member _ _ _ _ _ _ Hok1 Eti Hwf) (class_field_valid _ _ _ _ _ _ Hok1 Eti Hwf))
      as (st1 & E1 & I1).
    rewrite mloop_cons. cbn [place_fields]. rewrite Eti. cbn [bind]. unfold field in *. rewrite E1. cbn [bind].
    apply IH; auto.
Qed.

Lemma mloop_total u sflags pack P :
  flags_ok sflags -> pack_rel pack P -> (has sflags SF_PACKED = true -> P <> 0) ->
  forall fs st c, inv st c -> fields_ok P fs ->
  Forall (fun f => exists ti, cffi_layout (f_type f) = Ok ti /\ wf_info (f_type f) ti) fs ->
  exists st' c', mloop cffi_layout u sflags pack fs st = Ok st' /\ inv st' c'.
Proof.
  intros Hf HP Hpk fs st c I Hok Hall.
  destruct (mloop_agrees u sflags pack P Hf HP Hpk fs st c I Hok Hall) as (st' & E & I'). eauto.
Qed.

Lemma finish_agrees st c :
  inv st c ->
  ti_align (finish_struct st) = g_align (finish_agg c) /\
  is_pow2 (g_align (finish_agg c)) /\ g_align (finish_agg c) <= MAXAL /\
  0 <= g_size (finish_agg c) /\
  (0 < g_size (finish_agg c) -> ti_size (finish_struct st) = g_size (finish_agg c)) /\
  0 <= ti_size (finish_struct st) /\
  map norm_field (ti_fields (finish_struct st)) = g_fields (finish_agg c).
Proof.
  intros I. pose proof (i_alp _ _ I) as (Hp & Hm). pose proof (is_pow2_pos _ Hp) as Hpos.
  unfold finish_struct, finish_agg. cbn [ti_align ti_size ti_fields g_align g_size g_fields].
  rewrite <- (i_al _ _ I), (i_out _ _ I).
  rewrite (and_not_m1_spec _ _ Hp), (i_max _ _ I).
  rewrite final_size by (auto; apply (i_maxnn _ _ I)).
  set (x := alignment st * (((maxend c + 7) / 8 + alignment st - 1) / alignment st)).
  assert (0 <= x).
  { subst x. apply Z.mul_nonneg_nonneg; [lia|]. apply Z.div_pos; [|lia].
    pose proof (i_maxnn _ _ I). assert (0 <= (maxend c + 7) / 8) by (apply Z.div_pos; lia). lia. }
  repeat split; auto.
  - intros. destruct (Z.eqb_spec x 0); lia.
  - destruct (Z.eqb_spec x 0); lia.
Qed.

Lemma place_fields_ext rec1 rec2 u P fs :
  Forall (fun f => rec1 (f_type f) = rec2 (f_type f)) fs ->
  forall c, place_fields rec1 u P fs c = place_fields rec2 u P fs c.
Proof.
  induction 1 as [|[[nm ft] b] fs E _ IH]; intros c; [reflexivity|].
  cbn [place_fields f_type fst snd] in *. rewrite E. apply IH.
Qed.

Theorem layout_rel t : in_class t ->
  exists ti, cffi_layout t = Ok ti /\ wf_info t ti /\ (no_zero_size t -> own_layout t = gcc_layout t).
Proof.
  induction t as [s a b|it n IH|u P fs IH] using ctype_ind2; intros Hc.
  - destruct Hc as (Hs & Hp & Hm). eexists. split; [reflexivity|]. split; [repeat split; cbn; auto|intros _].
    unfold own_layout. cbn. rewrite Z.max_r by exact Hs. reflexivity.
  - destruct Hc as (Hc & Hn & Hnf).
    destruct (IH Hc) as (ti & E & (Hp & Hm & Hsz) & Hrel).
    unfold own_layout in *. cbn [cffi_layout gcc_layout no_zero_size]. rewrite E in *. cbn [bind].
    destruct Hsz as [Hs|(_ & it' & ->)]; [|exfalso; eapply Hnf; reflexivity].
    destruct (Z.ltb_spec (ti_size ti) 0); [lia|].
    eexists. split; [reflexivity|]. split.
    + repeat split; cbn [ti_align ti_size]; auto.
      destruct (Z.ltb_spec n 0); [right; assert (n = -1) as -> by lia; eauto|left; apply Z.mul_nonneg_nonneg; lia].
    + intros Hz. rewrite <- (Hrel Hz). cbn [ti_align ti_size ti_fields g_align g_size map]. f_equal.
      destruct (Z.ltb_spec n 0); [reflexivity|]. rewrite (Z.max_r _ (ti_size ti)) by exact Hs.
      apply Z.max_r, Z.mul_nonneg_nonneg; lia.
  - cbn [in_class] in Hc. destruct Hc as (HP & Hok & Hall). apply in_class_fields in Hall.
    destruct (cffi_layout_agg_flags u P fs HP) as (sflags & pack & (Hf & Hpr & Hpk) & Eagg).
    assert (Hmem : Forall (fun f => exists ti, cffi_layout (f_type f) = Ok ti /\ wf_info (f_type f) ti /\
                            (no_zero_size (f_type f) -> own_layout (f_type f) = gcc_layout (f_type f))) fs)
      by (rewrite Forall_forall in *; intros f Hin; apply IH; auto).
    destruct (mloop_agrees u sflags pack P Hf Hpr Hpk fs lstate0 cursor0 inv0 Hok) as (st' & E & I').
    { eapply Forall_impl; [|exact Hmem]. intros f (ti & Eti & Hwf & _). eauto. }
    rewrite E in Eagg. cbn [bind] in Eagg. eexists. split; [exact Eagg|]. split.
    + destruct (finish_agrees _ _ I') as (H1 & H2 & H3 & _ & _ & H6 & _).
      unfold wf_info. rewrite H1. repeat split; auto.
    + intros Hz. cbn [no_zero_size] in Hz. destruct Hz as (Hsz & Hnz).
      apply no_zero_fields in Hnz. rewrite gcc_layout_agg in *.
      rewrite (place_fields_ext own_layout gcc_layout) in I'.
      2:{ rewrite Forall_forall in *. intros f Hin. destruct (Hmem f Hin) as (_ & _ & _ & Hrel). auto. }
      destruct (finish_agrees _ _ I') as (H1 & _ & _ & H4 & H5 & _ & H7).
      unfold own_layout. rewrite Eagg, H1, H7, (H5 Hsz), Z.max_r by exact H4.
      destruct (finish_agg _). reflexivity.
Qed.

Theorem layout_agrees t : in_class t -> no_zero_size t ->
  exists ti, cffi_layout t = Ok ti /\ wf_info t ti /\ own_layout t = gcc_layout t.
Proof. intros Hc Hz. destruct (layout_rel t Hc) as (ti & E & Hwf & H). eauto. Qed.

Theorem layout_total t : in_class t -> exists ti, cffi_layout t = Ok ti /\ wf_info t ti.
Proof. intros Hc. destruct (layout_rel t Hc) as (ti & E & H & _). eauto. Qed.
