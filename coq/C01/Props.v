(* C01 — ABI-mode struct and union layout equals the C compiler's layout.
   The loop invariants and the induction over declarations are in C01/Proofs.v and C01/Proofs2.v
   (arithmetic in C01/Arith.v).

   cffi_layout (C01/Model.v) is the transcription of b_complete_struct_or_union_lock_held;
   gcc_layout (C01/Spec.v) is the independent bit-cursor specification of gcc's layout.
   Both take the same declaration tree `ctype`.  A model field (cf_offset, cf_bitshift,
   cf_bitsize) denotes, via norm_field, either the byte offset cf_offset (non-bit-field) or
   the absolute storage bits [8*cf_offset + cf_bitshift, + cf_bitsize). *)
From Coq Require Import ZArith List Bool Lia.
Import ListNotations.
From Cffi Require Import C01.Gen C01.Spec C01.Model C01.Arith C01.Proofs C01.Proofs2.
Open Scope Z_scope.

(* "No declaration in this class is rejected": every declaration of the class (see
   Spec.in_class: any field count, order and nesting depth; bit-fields of any integer type,
   widths 0..8*size; unions; anonymous members; trailing flexible array; pack = 0 or a power
   of two with no bit-field in a packed aggregate) is accepted — zero-size aggregates too. *)
(* (in_class bounds a bit-field's width by 8*size of its declared type; for _Bool, modelled as a
   1-byte type, that admits widths 2..8, which gcc refuses and which are therefore outside the
   property's class: the theorems quantify over a superset of it.) *)
Theorem C01_total : forall t, in_class t -> exists ti, cffi_layout t = Ok ti.
Proof. intros t H. destruct (layout_total t H) as (ti & E & _). eauto. Qed.
Print Assumptions C01_total.

(* The layout is the compiler's: for every struct/union of the class in which no struct/union
   (at any depth) has compiler size 0, ffi.sizeof, ffi.alignof, every non-bit-field offset and
   every bit-field's absolute bit range are those of the specification. *)
Theorem C01_agrees : forall u pack fields,
  let t := TAgg u pack fields in
  in_class t -> no_zero_size t ->
  exists ti, cffi_layout t = Ok ti /\
    ti_size ti = g_size (gcc_layout t) /\
    ti_align ti = g_align (gcc_layout t) /\
    map norm_field (ti_fields ti) = g_fields (gcc_layout t).
Proof.
  intros u pack fields t Hc Hz. destruct (layout_agrees t Hc Hz) as (ti & E & (_ & _ & Hs) & <-).
  exists ti. unfold own_layout. rewrite E. repeat split; auto.
  destruct Hs as [?|(_ & it & Hit)]; [symmetry; apply Z.max_r; assumption|discriminate].
Qed.
Print Assumptions C01_agrees.

(* the same for any type of the class, arrays and `T x[]` included (a flexible array has
   ct_size -1 in cffi and is laid out as an array of length 0 by the compiler) *)
Theorem C01_agrees_any_type : forall t, in_class t -> no_zero_size t ->
  exists ti, cffi_layout t = Ok ti /\
    ti_align ti = g_align (gcc_layout t) /\
    (ti_size ti = g_size (gcc_layout t) \/
     (ti_size ti = -1 /\ g_size (gcc_layout t) = 0 /\ exists it, t = TArr it (-1))) /\
    map norm_field (ti_fields ti) = g_fields (gcc_layout t).
Proof.
  intros t Hc Hz. destruct (layout_agrees t Hc Hz) as (ti & E & (_ & _ & Hs) & <-).
  exists ti. unfold own_layout. rewrite E. repeat split; auto.
  destruct Hs as [?|(-> & ?)]; [left; symmetry; apply Z.max_r; assumption|right; auto].
Qed.
Print Assumptions C01_agrees_any_type.

(* Python side (regenerated fact C01.Gen, re-extracted from cparser.py on every run): the packing
   of a struct/union is the packed=/pack= option of the cdef() call that DEFINES it, whatever
   earlier cdef() calls mentioned its tag.  Breaks (obligation) if the assignment moves. *)
Theorem C01_defining_cdef_options : forall defining mention, struct_packed defining mention = defining.
Proof. reflexivity. Qed.
Print Assumptions C01_defining_cdef_options.

(* Python side, second regenerated fact (api.py FFI._cdef): the re-completion loop iterates the list
   that finish_backend_type grows, so struct/union types reached only through pointer fields of a
   re-completed struct are completed too and "no declaration in this class is rejected" also holds
   for tags that were opaque, used, and defined later.  This is an obligation on the SOURCE SHAPE
   only (no model of the worklist): it breaks if the loop iterates a snapshot; the behaviour itself
   is tied by the "opaque" stream of tools/props/c01.py against gcc. *)
Theorem C01_completion_loop_reaches_lazy_types : completion_loop_iterates_growing_list = true.
Proof. reflexivity. Qed.
Print Assumptions C01_completion_loop_reaches_lazy_types.

(* the loop invariant itself: one iteration of the field loop (any member, any state) keeps
   pos = 8*byteoffset + bitoffset, bitoffset < 8, byteoffsetmax = ceil(maxend/8), equal
   alignments and equal (normalised) field lists *)
Theorem C01_field_step_invariant :
  forall u sflags pack P last st c named ft fi bits s a sub,
  flags_ok sflags -> pack_rel pack P -> (has sflags SF_PACKED = true -> P <> 0) ->
  inv st c -> rel_member last bits ft fi s a sub -> field_valid P named ft fi bits ->
  exists st', field_step u sflags pack last st named ft fi bits = Ok st' /\
              inv st' (place_member u P c named s a sub bits).
Proof. exact step_agrees. Qed.
Print Assumptions C01_field_step_invariant.

(* A field access stays inside the object.  For every declaration of the class whose bit-field
   types have size <= alignment (Spec.bf_size_le_align: all integer types and _Bool on x86-64), every
   entry (cf_type, cf_offset, cf_bitshift, cf_bitsize) the layout function emits — anonymous members'
   fields included, at any depth — satisfies: the offset is non-negative; the field's storage
   (size_of its type = the ct_size the layout function itself computes; the whole storage unit for a
   bit-field; 0 for the flexible tail `T x[]`) ends inside ffi.sizeof; a bit-field has width >= 1, a
   non-negative shift, all its bits inside its unit, and an integer declared type.  These are the
   premises `placement T w sh` and `off + isize T <= length mem` of C02_isolated_object /
   C02_fields_noninterfere / C03_store_frame: read_raw_*_data / write_raw_integer_data at
   data + cf_offset never touch a byte outside the struct.  (Second loop invariant, C01/Proofs2.v.) *)
Theorem C01_fields_within_object : forall t ti,
  in_class t -> bf_size_le_align t -> cffi_layout t = Ok ti ->
  Forall (fun c => 0 <= cf_offset c /\ cf_offset c + size_of (cf_type c) <= ti_size ti /\
                   (0 <= cf_bitsize c ->
                    1 <= cf_bitsize c /\ 0 <= cf_bitshift c /\
                    cf_bitshift c + cf_bitsize c <= 8 * size_of (cf_type c) /\
                    bitfield_capable (cf_type c) = true)) (ti_fields ti).
Proof. intros t ti Hc Hb E. exact (proj1 (layout_within t Hc ti E) Hb). Qed.
Print Assumptions C01_fields_within_object.

(* closed instances of in_class, conjunct by conjunct *)
Ltac in_class_tac :=
  cbn;
  repeat match goal with
         | |- _ /\ _ => split
         | |- True => exact I
         | |- is_pow2 ?a => exists (Z.log2 a); split; [discriminate|reflexivity]
         | |- _ = 0 \/ is_pow2 _ => first [left; reflexivity | right]
         | |- _ = -1 \/ _ => first [left; reflexivity | right]
         | |- exists s a, _ = TPrim s a true /\ _ => do 2 eexists; split; [reflexivity|]
         | |- _ <> _ => discriminate
         | |- forall _, _ => intro
         | H : _ = TArr _ _ |- _ => inversion H; clear H
         | |- _ <= _ => discriminate
         | |- _ = _ => first [reflexivity | discriminate | lia]
         end.

(* bf_size_le_align cannot be dropped from C01_fields_within_object (the witness is in the class and
   violates only that hypothesis): with sizeof(T) = 8, alignof(T) = 4 (long long on i386; not an
   x86-64 type) `struct { T x:3; }` has size 4 and an 8-byte storage unit.  Model-level fact about
   the quantified superset, not a defect of cffi on this platform. *)
Theorem C01_fields_within_needs_size_le_align :
  exists t ti, in_class t /\ cffi_layout t = Ok ti /\
    ~ Forall (field_within (ti_size ti)) (ti_fields ti).
Proof.
  exists (TAgg false 0 [(true, TPrim 8 4 true, 3)]). eexists. split; [|split; [vm_compute; reflexivity|]].
  - in_class_tac.
  - intros H. inversion H as [|? ? (H0 & H1 & _) _]; subst. vm_compute in H1. apply H1. reflexivity.
Qed.
Print Assumptions C01_fields_within_needs_size_le_align.

(* Distinct fields of a struct occupy disjoint storage.  For every declaration of the class with no
   union among the aggregate and its anonymous members (Spec.union_free; the members of a union
   overlap by design), the emitted fields, in order, occupy consecutive non-overlapping absolute bit
   ranges [fstart, fend) — the bits 8*cf_offset + cf_bitshift .. + cf_bitsize of a bit-field, the
   bytes cf_offset .. + size_of of any other member — all inside [0, 8*sizeof): an earlier field ends
   before a later one starts.  With C02_fields_noninterfere (coq/C02/Props.v,
   C02_layout_fields_disjoint) this is "writing one bit-field never changes another field". *)
Theorem C01_fields_disjoint : forall t ti,
  in_class t -> union_free t -> cffi_layout t = Ok ti ->
  ForallOrdPairs (fun c1 c2 => fend c1 <= fstart c2) (ti_fields ti) /\
  chain 0 (ti_fields ti) (8 * Z.max 0 (ti_size ti)).
Proof.
  intros t ti Hc Hu E. pose proof (proj2 (layout_within t Hc ti E) Hu) as H.
  split; [eapply chain_pairs; eauto|exact H].
Qed.
Print Assumptions C01_fields_disjoint.

(* the second loop invariant itself, one iteration *)
Theorem C01_field_step_within :
  forall (A C : Prop) u sflags pack P last st named ft fi bits st',
  flags_ok sflags -> pack_rel pack P -> (C -> u = false) ->
  winv A C st ->
  cffi_layout ft = Ok fi -> is_pow2 (ti_align fi) -> ti_align fi <= MAXAL ->
  field_valid P named ft fi bits ->
  (A -> Forall (field_within (ti_size fi)) (ti_fields fi)) ->
  (A -> 0 <= bits -> ti_size fi <= ti_align fi) ->
  (C -> named = false -> chain 0 (ti_fields fi) (8 * Z.max 0 (ti_size fi))) ->
  field_step u sflags pack last st named ft fi bits = Ok st' -> winv A C st'.
Proof. exact step_within. Qed.
Print Assumptions C01_field_step_within.

(* The hypothesis no_zero_size cannot be dropped: the full statement is FALSE of the faithful
   model (deliberate in cffi: "alignedsize == 0 -> 1").  Known finding zero_size_aggregate. *)
Definition t_int := TPrim 4 4 true.
Definition t_char := TPrim 1 1 true.
Definition zero_witness := TAgg false 0 [(true, TArr t_int 0, -1)].          (* struct { int a[0]; } *)
Definition zero_nested_witness :=                                            (* struct { char c; struct {} e; char d; } *)
  TAgg false 0 [(true, t_char, -1); (true, TAgg false 0 [], -1); (true, t_char, -1)].

Theorem C01_zero_size_refuted :
  exists t, in_class t /\
    exists ti, cffi_layout t = Ok ti /\ ti_size ti <> g_size (gcc_layout t).
Proof.
  exists zero_witness. split.
  - in_class_tac.
  - eexists. split; [vm_compute; reflexivity|]. vm_compute. discriminate.
Qed.
Print Assumptions C01_zero_size_refuted.

(* ... and a zero-size member shifts the offsets of the members after it *)
Theorem C01_zero_size_refuted_offsets :
  exists t, in_class t /\
    exists ti, cffi_layout t = Ok ti /\ map norm_field (ti_fields ti) <> g_fields (gcc_layout t).
Proof.
  exists zero_nested_witness. split.
  - in_class_tac.
  - eexists. split; [vm_compute; reflexivity|]. vm_compute. discriminate.
Qed.
Print Assumptions C01_zero_size_refuted_offsets.

(* non-vacuity: a declaration that uses every kind of member is in the class, has no
   zero-size part, and both sides compute the layout gcc 12 gives
   struct a { char c; int x:3; unsigned long long y:60; int :0; long long :5; _Bool b:1;
              struct { short s; union { int u1; char u2; }; }; struct { int q; } named; int arr[]; }; *)
Definition t_ull := TPrim 8 8 true.
Definition t_short := TPrim 2 2 true.
Definition example_a :=
  TAgg false 0 [(true, t_char, -1); (true, t_int, 3); (true, t_ull, 60); (false, t_int, 0);
                (false, t_ull, 5); (true, t_char, 1);
                (false, TAgg false 0 [(true, t_short, -1);
                                      (false, TAgg true 0 [(true, t_int, -1); (true, t_char, -1)], -1)], -1);
                (true, TAgg false 0 [(true, t_int, -1)], -1);
                (true, TArr t_int (-1), -1)].

Example C01_example_in_class : in_class example_a /\ no_zero_size example_a.
Proof.
  split.
  - in_class_tac.
  - vm_compute. repeat split.
Qed.

Example C01_example_layout :
  observe (cffi_layout example_a) =
    Some (32, 8, [(0, -1, -1, 0); (0, 8, 3, 0); (8, 0, 60, 0); (16, 5, 1, 0); (20, -1, -1, 0);
                  (24, -1, -1, 0); (24, -1, -1, 1); (28, -1, -1, 0); (32, -2, -1, 0)]) /\
  gobserve (gcc_layout example_a) =
    (32, 8, [(0, -1); (8, 3); (64, 60); (133, 1); (20, -1); (24, -1); (24, -1); (28, -1); (32, -1)]).
Proof. split; vm_compute; reflexivity. Qed.

(* packed: struct { char c; double d; short s; } with pack = 1, 2, 4 *)
Example C01_example_packed :
  map (fun p => gobserve (gcc_layout (TAgg false p [(true, t_char, -1); (true, TPrim 8 8 false, -1);
                                                    (true, t_short, -1)]))) [0; 1; 2; 4] =
  [(24, 8, [(0, -1); (8, -1); (16, -1)]); (11, 1, [(0, -1); (1, -1); (9, -1)]);
   (12, 2, [(0, -1); (2, -1); (10, -1)]); (16, 4, [(0, -1); (4, -1); (12, -1)])] /\
  forall p, In p [0; 1; 2; 4] ->
    in_class (TAgg false p [(true, t_char, -1); (true, TPrim 8 8 false, -1); (true, t_short, -1)]).
Proof.
  split; [vm_compute; reflexivity|].
  intros p [<-|[<-|[<-|[<-|[]]]]]; in_class_tac.
Qed.

(* non-vacuity of bf_size_le_align and union_free: example_a (which has an anonymous union) satisfies
   bf_size_le_align; example_b (no union; bit-fields of three types sharing and not sharing units,
   an anonymous struct with a bit-field) satisfies all of in_class, bf_size_le_align, union_free,
   and its fields are the ranges gcc gives *)
Definition example_b :=
  TAgg false 0 [(true, t_char, 3); (true, t_int, 5); (true, t_short, 9); (true, t_ull, 60);
                (false, TAgg false 0 [(true, t_short, -1); (true, t_int, 5)], -1); (true, t_char, -1)].
Example C01_example_size_le_align : bf_size_le_align example_a /\ bf_size_le_align example_b.
Proof.
  split; cbn; repeat split; try (intros ? s a b Heq; inversion Heq; lia).
Qed.
Example C01_example_b_in_class : in_class example_b /\ union_free example_b.
Proof.
  split.
  - in_class_tac.
  - cbn. repeat split; try discriminate.
Qed.
Example C01_example_b_ranges :
  match cffi_layout example_b with
  | Ok ti => (ti_size ti, map (fun c => (fstart c, fend c)) (ti_fields ti))
  | Err _ => (0, [])
  end = (24, [(0, 3); (3, 8); (16, 25); (64, 124); (128, 144); (144, 149); (160, 168)]).
Proof. vm_compute. reflexivity. Qed.
