(* C01 — arithmetic lemmas: `x & ~(a-1)` on powers of two, rounding in bits vs bytes. *)
From Coq Require Import ZArith Lia Bool List.
From Cffi Require Import Base.Align C01.Spec C01.Model.
Open Scope Z_scope.

(* Spec.is_pow2 and Spec.roundup are Base.Align's, written again: its lemmas (is_pow2_pos, is_pow2_max,
   is_pow2_divide, roundup_bounds) apply as they stand *)

(* get_alignment's test `align & (align-1)` accepts powers of two *)
Lemma pow2_land_pred k : 0 <= k -> Z.land (2 ^ k) (2 ^ k - 1) = 0.
Proof.
  intros Hk. apply Z.bits_inj'. intros i Hi.
  rewrite Z.land_spec, Z.bits_0.
  replace (2 ^ k - 1) with (Z.ones k) by (rewrite Z.ones_equiv; lia).
  destruct (Z.eq_dec i k) as [->|Hne].
  - rewrite Z.ones_spec_high by lia. apply andb_false_r.
  - rewrite Z.pow2_bits_false by lia. reflexivity.
Qed.

Lemma and_not_m1_spec x a : is_pow2 a -> and_not_m1 x a = a * (x / a).
Proof. intros H. unfold and_not_m1. rewrite (mask_floor x a H). apply Z.mul_comm. Qed.

Lemma div_eq a b q r : 0 <= r < b -> a = b * q + r -> a / b = q.
Proof. intros. symmetry. apply Z.div_unique with r; auto. Qed.

Lemma mod_eq a b q r : 0 <= r < b -> a = b * q + r -> a mod b = r.
Proof. intros. symmetry. apply Z.mod_unique with q; auto. Qed.

Lemma decomp B a : 0 < a -> exists q r, B = a * q + r /\ 0 <= r < a.
Proof.
  intros. exists (B / a), (B mod a). split.
  - apply Z.div_mod. lia.
  - apply Z.mod_pos_bound. lia.
Qed.

Lemma roundup_decomp x m q r : 0 <= r < m -> x = m * q + r ->
  roundup x m = if r =? 0 then m * q else m * (q + 1).
Proof.
  intros Hr ->. unfold roundup.
  destruct (Z.eqb_spec r 0) as [->|Hne].
  - rewrite (div_eq (m * q + 0 + m - 1) m q (m - 1)) by lia. lia.
  - rewrite (div_eq (m * q + r + m - 1) m (q + 1) (r - 1)) by lia. lia.
Qed.

(* the model rounds as `m * ((x + m - 1) / m)` *)
Lemma roundup_mul x m : m * ((x + m - 1) / m) = roundup x m.
Proof. apply Z.mul_comm. Qed.

Definition carry (b : Z) : Z := if 0 <? b then 1 else 0.

(* the cursor in bits vs the pair (byteoffset, bitoffset): rounding to an a-byte boundary *)
Lemma roundup_bits_bytes B b a : 0 < a -> 0 <= b < 8 ->
  roundup (8 * B + b) (8 * a) = 8 * (a * ((B + carry b + a - 1) / a)).
Proof.
  intros Ha Hb. rewrite roundup_mul. destruct (decomp B a Ha) as (q & r & -> & Hr).
  rewrite (roundup_decomp (8 * (a * q + r) + b) (8 * a) q (8 * r + b)) by lia.
  unfold carry. destruct (Z.ltb_spec 0 b).
  - destruct (Z.eq_dec (r + 1) a).
    + rewrite (roundup_decomp (a * q + r + 1) a (q + 1) 0) by lia.
      rewrite Z.eqb_refl. destruct (Z.eqb_spec (8 * r + b) 0); lia.
    + rewrite (roundup_decomp (a * q + r + 1) a q (r + 1)) by lia.
      destruct (Z.eqb_spec (8 * r + b) 0), (Z.eqb_spec (r + 1) 0); lia.
  - rewrite (roundup_decomp (a * q + r + 0) a q r) by lia.
    destruct (Z.eqb_spec (8 * r + b) 0), (Z.eqb_spec r 0); lia.
Qed.

(* position inside the current a-byte unit *)
Lemma mod_bits_bytes B b a : 0 < a -> 0 <= b < 8 ->
  (8 * B + b) mod (8 * a) = (B - a * (B / a)) * 8 + b.
Proof.
  intros Ha Hb. destruct (decomp B a Ha) as (q & r & -> & Hr).
  rewrite (div_eq (a * q + r) a q r) by lia.
  rewrite (mod_eq (8 * (a * q + r) + b) (8 * a) q (8 * r + b)) by lia. lia.
Qed.

(* rounding to the next unit, in the form used by the bit-field branches:
   field_offset_bytes (+ falign if the cursor is not at the start of the unit) *)
Lemma roundup_next_unit B b a : 0 < a -> 0 <= b < 8 ->
  roundup (8 * B + b) (8 * a) =
  8 * (if a * (B / a) <? B + carry b then a * (B / a) + a else a * (B / a)).
Proof.
  intros Ha Hb. destruct (decomp B a Ha) as (q & r & -> & Hr).
  rewrite (div_eq (a * q + r) a q r) by lia.
  rewrite (roundup_decomp (8 * (a * q + r) + b) (8 * a) q (8 * r + b)) by lia.
  unfold carry.
  destruct (Z.eqb_spec (8 * r + b) 0), (Z.ltb_spec 0 b), (Z.ltb_spec (a * q) (a * q + r + 1)),
           (Z.ltb_spec (a * q) (a * q + r + 0)); lia.
Qed.

Lemma shiftr3 w : Z.shiftr w 3 = w / 8.
Proof. rewrite Z.shiftr_div_pow2 by lia. reflexivity. Qed.

Lemma land7 w : Z.land w 7 = w mod 8.
Proof. change 7 with (Z.ones 3). rewrite Z.land_ones by lia. reflexivity. Qed.

Lemma split8 w : 8 * (w / 8) + w mod 8 = w.
Proof. symmetry. apply Z.div_mod. lia. Qed.

Lemma mod8_bound w : 0 <= w mod 8 < 8.
Proof. apply Z.mod_pos_bound. lia. Qed.

(* byteoffsetmax (bytes, rounded up) vs the maximal end in bits *)
Lemma ceil8_max m p : (Z.max m p + 7) / 8 = Z.max ((m + 7) / 8) ((p + 7) / 8).
Proof.
  destruct (Z.le_ge_cases m p).
  - rewrite Z.max_r by lia. rewrite Z.max_r; [reflexivity|]. apply Z.div_le_mono; lia.
  - rewrite Z.max_l by lia. rewrite Z.max_l; [reflexivity|]. apply Z.div_le_mono; lia.
Qed.

Lemma ceil8_bits B b : 0 <= b < 8 -> (8 * B + b + 7) / 8 = B + carry b.
Proof.
  intros. unfold carry. destruct (Z.ltb_spec 0 b).
  - apply div_eq with (b - 1); lia.
  - apply div_eq with 7; lia.
Qed.

(* final size: rounding the maximal end (bits) to the alignment, vs rounding byteoffsetmax *)
Lemma final_size m A : 0 < A -> 0 <= m ->
  roundup m (8 * A) / 8 = A * (((m + 7) / 8 + A - 1) / A).
Proof.
  intros HA Hm.
  pose proof (Z.div_mod m 8 ltac:(lia)) as E. pose proof (Z.mod_pos_bound m 8 ltac:(lia)) as Hb.
  set (B := m / 8) in *. set (b := m mod 8) in *.
  rewrite E at 1. rewrite roundup_bits_bytes by lia.
  replace ((m + 7) / 8) with (B + carry b) by (rewrite E; symmetry; apply ceil8_bits; lia).
  rewrite Z.mul_comm, Z.div_mul by lia. reflexivity.
Qed.

Lemma roundup_ge x m : 0 < m -> x <= roundup x m.
Proof. intros H. apply (roundup_bounds x m H). Qed.

Lemma bits_le_bytes B b : 0 <= b < 8 -> 8 * B + b <= 8 * ROUNDUP_BYTES B b.
Proof. intros. unfold ROUNDUP_BYTES. destruct (Z.ltb_spec 0 b); lia. Qed.
