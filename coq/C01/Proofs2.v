(* C01 — second invariant of the field loop (over Proofs.member_at as well, no cursor):
     * every emitted field starts at a non-negative offset and its storage (size_of its type,
       i.e. the whole unit for a bit-field) ends inside the final object; a bit-field's bits lie
       inside its unit                                                   (Model.field_within)
     * in a struct without (anonymous) unions the fields occupy consecutive non-overlapping
       absolute bit ranges                                               (Model.chain)
   Before the loop ends a bit-field's unit may still stick out of byteoffsetmax: the invariant
   then records that the unit starts at a multiple of an alignment `a <= alignment` with
   size <= a, which the final rounding of the size to `alignment` covers. *)
From Coq Require Import ZArith Lia Bool List.
Import ListNotations.
From Cffi Require Import Base.Align C01.Spec C01.Model C01.Arith C01.Proofs.
Open Scope Z_scope.

Definition fld_loop (bmax al : Z) (c : cfield) : Prop :=
  0 <= cf_offset c /\ bits_in_unit c /\
  (cf_offset c + size_of (cf_type c) <= bmax \/
   exists a, is_pow2 a /\ a <= al /\ (a | cf_offset c) /\ size_of (cf_type c) <= a /\ cf_offset c < bmax).

(* The two halves of the invariant hold under different hypotheses on the declaration, which the
   loop lemmas carry as opaque propositions: A stands for bf_size_le_align t ("bit-field types have
   size <= alignment", needed for w_fld), C for union_free t (needed for w_chain); layout_within
   instantiates them. *)
Record winv (A C : Prop) (st : lstate) : Prop := {
  w_byte : 0 <= byteoffset st;
  w_bit : 0 <= bitoffset st < 8;
  w_al : is_pow2 (alignment st);
  w_max : ROUNDUP_BYTES (byteoffset st) (bitoffset st) <= byteoffsetmax st;
  w_fld : A -> Forall (fld_loop (byteoffsetmax st) (alignment st)) (fields_out st);
  w_chain : C -> chain 0 (fields_out st) (8 * byteoffset st + bitoffset st) }.

Lemma size_of_nonneg t : 0 <= size_of t.
Proof. unfold size_of. destruct (cffi_layout t); lia. Qed.

Lemma fld_loop_mono bmax al bmax' al' c : bmax <= bmax' -> al <= al' ->
  fld_loop bmax al c -> fld_loop bmax' al' c.
Proof.
  intros H1 H2 (H0 & Hb & [H|(a & Ha & Hle & Hd & Hs & Hlt)]); (split; [exact H0|split; [exact Hb|]]).
  - left. lia.
  - right. exists a. repeat split; auto; lia.
Qed.

Lemma chain_lo lo lo' l hi : lo' <= lo -> chain lo l hi -> chain lo' l hi.
Proof. destruct l; cbn; intros; [lia|]. intuition lia. Qed.

Lemma chain_hi l : forall lo hi hi', hi <= hi' -> chain lo l hi -> chain lo l hi'.
Proof.
  induction l as [|c l IH]; cbn; intros lo hi hi' H H1; [lia|].
  destruct H1 as (? & ? & ?). repeat split; auto. eapply IH; eauto.
Qed.

Lemma chain_le l : forall lo hi, chain lo l hi -> lo <= hi.
Proof.
  induction l as [|c l IH]; cbn; intros lo hi H; [lia|].
  destruct H as (? & ? & H). apply IH in H. lia.
Qed.

Lemma chain_app l : forall lo mid l' hi, chain lo l mid -> chain mid l' hi -> chain lo (l ++ l') hi.
Proof.
  induction l as [|c l IH]; cbn; intros lo mid l' hi H1 H2.
  - eapply chain_lo; eauto.
  - destruct H1 as (? & ? & ?). repeat split; auto. eapply IH; eauto.
Qed.

Lemma frange_shift d fl c :
  fstart (shiftf d fl c) = 8 * d + fstart c /\ fend (shiftf d fl c) = 8 * d + fend c.
Proof. unfold fstart, fend, is_bf, shiftf. cbn [cf_offset cf_bitsize cf_bitshift cf_type]. destruct (0 <=? cf_bitsize c); lia. Qed.

Lemma chain_shift d fl l : forall lo hi, chain lo l hi -> chain (8 * d + lo) (map (shiftf d fl) l) (8 * d + hi).
Proof.
  induction l as [|c l IH]; cbn [map chain]; intros lo hi H; [lia|].
  destruct H as (H1 & H2 & H3). destruct (frange_shift d fl c) as [-> ->].
  repeat split; try lia. apply IH; auto.
Qed.

Lemma chain_starts l : forall lo hi, chain lo l hi -> Forall (fun c => lo <= fstart c) l.
Proof.
  induction l as [|c l IH]; cbn; intros lo hi H; constructor.
  - tauto.
  - destruct H as (H1 & H2 & H3). apply IH in H3. eapply Forall_impl; [|exact H3].
    cbn. intros. lia.
Qed.

Lemma chain_pairs l : forall lo hi, chain lo l hi ->
  ForallOrdPairs (fun c1 c2 => fend c1 <= fstart c2) l.
Proof.
  induction l as [|c l IH]; cbn; intros lo hi H; constructor.
  - destruct H as (_ & _ & H). eapply chain_starts; eauto.
  - destruct H as (_ & _ & H). eapply IH; eauto.
Qed.

Lemma fields_ok_In P fs f : In f fs -> fields_ok P fs -> exists last, field_ok P last f.
Proof.
  induction fs as [|g fs IH]; cbn [In fields_ok]; intros Hin Hok; [contradiction|].
  destruct Hok as (H1 & H2). destruct Hin as [<-|Hin]; eauto.
Qed.

Lemma winv_finish A C st B' b' al' pbs pbf i va cu pc new :
  winv A C st -> 0 <= B' -> 0 <= b' < 8 -> is_pow2 al' -> alignment st <= al' ->
  (A -> Forall (fld_loop (Z.max (byteoffsetmax st) (ROUNDUP_BYTES B' b')) al') new) ->
  (C -> chain (8 * byteoffset st + bitoffset st) new (8 * B' + b')) ->
  winv A C (LS B' b' (if byteoffsetmax st <? ROUNDUP_BYTES B' b' then ROUNDUP_BYTES B' b' else byteoffsetmax st)
                al' pbs pbf i va cu pc (fields_out st ++ new)).
Proof.
  intros W HB Hb Hal Hle Hnew Hch.
  assert (E : (if byteoffsetmax st <? ROUNDUP_BYTES B' b' then ROUNDUP_BYTES B' b' else byteoffsetmax st)
              = Z.max (byteoffsetmax st) (ROUNDUP_BYTES B' b'))
    by (destruct (Z.ltb_spec (byteoffsetmax st) (ROUNDUP_BYTES B' b')); lia).
  rewrite E.
  constructor; cbn [byteoffset bitoffset byteoffsetmax alignment fields_out]; auto.
  - lia.
  - intros HA. apply Forall_app. split; [|auto].
    eapply Forall_impl; [|apply (w_fld _ _ _ W HA)]. intros c. apply fld_loop_mono; lia.
  - intros HC. eapply chain_app; [apply (w_chain _ _ _ W HC)|auto].
Qed.

Lemma member_at_le a p0 fl named ft fi bits p' new : member_at a p0 fl named ft fi bits p' new -> p0 <= p'.
Proof. destruct 1; lia. Qed.

Lemma member_at_chain a p0 fl named ft fi bits p' new :
  member_at a p0 fl named ft fi bits p' new -> size_of ft = Z.max 0 (ti_size fi) ->
  (named = false -> chain 0 (ti_fields fi) (8 * Z.max 0 (ti_size fi))) ->
  chain p0 new p'.
Proof.
  intros Hat Hso Hin. destruct Hat as [o p' _ Ho ->| p' _ Hp|bits o sh p' Hb _ Hsh _ _ Hst ->].
  - destruct (negb named && is_agg ft) eqn:Ean.
    + apply andb_true_iff in Ean. destruct Ean as (Hn & _). apply negb_true_iff in Hn.
      apply (chain_lo (8 * o + 0)); [lia|].
      replace (8 * (o + Z.max 0 (ti_size fi))) with (8 * o + 8 * Z.max 0 (ti_size fi)) by lia.
      apply chain_shift, Hin, Hn.
    + cbn [chain]. unfold fstart, fend, is_bf. cbn [cf_offset cf_type cf_bitsize cf_bitshift Z.leb Z.compare]. lia.
  - exact Hp.
  - destruct named; cbn [chain]; [|lia].
    unfold fstart, fend, is_bf. cbn [cf_offset cf_type cf_bitsize cf_bitshift]. destruct (Z.leb_spec 0 bits); lia.
Qed.

(* the emitted fields' storage ends by the new cursor, but for the unit of a bit-field (see the head) *)
Lemma member_at_fld a p0 fl named ft fi bits p' new bmax al :
  member_at a p0 fl named ft fi bits p' new -> 0 <= p0 -> is_pow2 a -> (named = true -> a <= al) ->
  p' <= 8 * bmax -> size_of ft = Z.max 0 (ti_size fi) ->
  Forall (field_within (ti_size fi)) (ti_fields fi) ->
  (0 <= bits -> bitfield_capable ft = true /\ 0 <= ti_size fi <= a) ->
  Forall (fld_loop bmax al) new.
Proof.
  intros Hat Hp0 Hpa Hal Hmax Hso Hsub Hbf.
  destruct Hat as [o p' _ Ho ->| p' _ _|bits o sh p' Hb Hd Hsh Hfit _ Hst ->].
  - destruct (negb named && is_agg ft).
    + apply Forall_map. eapply Forall_impl; [|exact Hsub]. intros c (Hc0 & Hc1 & Hc2).
      pose proof (size_of_nonneg (cf_type c)).
      split; [|split]; cbn [shiftf cf_offset cf_type cf_bitsize cf_bitshift]; [lia|exact Hc2|left; lia].
    + constructor; [|constructor].
      split; [|split]; cbn [cf_offset cf_type cf_bitsize cf_bitshift]; [lia| |left; lia].
      intros Hx. cbn in Hx. lia.
  - constructor.
  - destruct named; constructor; [|constructor]. destruct (Hbf ltac:(lia)) as (Hcap & Hs).
    pose proof (is_pow2_pos _ Hpa) as Ha.
    (* o = k*a with -8a < 8o: so 0 <= k *)
    assert (Ho : 0 <= o) by (destruct Hd as (k & ->); assert (-1 < k) by nia; nia).
    split; [exact Ho|split]; cbn [cf_offset cf_type cf_bitsize cf_bitshift].
    + intros _. cbn [cf_offset cf_type cf_bitsize cf_bitshift]. rewrite Hso. repeat split; auto; lia.
    + right. exists a. rewrite Hso. repeat split; auto; lia.
Qed.

Lemma step_within (A C : Prop) u sflags pack P last st named ft fi bits st' :
  flags_ok sflags -> pack_rel pack P -> (C -> u = false) ->
  winv A C st ->
  cffi_layout ft = Ok fi -> is_pow2 (ti_align fi) -> ti_align fi <= MAXAL ->
  field_valid P named ft fi bits ->
  (A -> Forall (field_within (ti_size fi)) (ti_fields fi)) ->
  (A -> 0 <= bits -> ti_size fi <= ti_align fi) ->
  (C -> named = false -> chain 0 (ti_fields fi) (8 * Z.max 0 (ti_size fi))) ->
  field_step u sflags pack last st named ft fi bits = Ok st' -> winv A C st'.
Proof.
  intros Hf HP HCu W Hlay Hpa Hma Hv Hsub Hsa Hchin H.
  pose proof (field_step_gcc u sflags pack P last st named ft fi bits Hf HP Hpa Hma Hv (w_bit _ _ _ W)) as Hstep.
  rewrite H in Hstep. cbv zeta in Hstep.
  destruct Hstep as (B' & b' & new & pbs & pbf & va & cu & pc & -> & Hb' & Hat).
  assert (Hso : size_of ft = Z.max 0 (ti_size fi)) by (unfold size_of; rewrite Hlay; reflexivity).
  pose proof (cap_pow2 pack P _ HP Hpa Hma) as (Hcap & _).
  pose proof (w_al _ _ _ W) as Hal. pose proof (member_at_le _ _ _ _ _ _ _ _ _ Hat) as Hle.
  assert (Hp0 : 0 <= 8 * (if u then 0 else byteoffset st) + (if u then 0 else bitoffset st))
    by (pose proof (w_byte _ _ _ W); pose proof (w_bit _ _ _ W); destruct u; lia).
  apply winv_finish; auto; try lia.
  - destruct ((bits <? 0) || named); [apply is_pow2_max|]; auto.
  - destruct ((bits <? 0) || named); lia.
  - intros HA. apply (member_at_fld _ _ _ _ _ _ _ _ _ _ _ Hat); auto.
    + intros ->. rewrite orb_true_r. lia.
    + pose proof (bits_le_bytes B' b' Hb'). lia.
    + intros Hnn. destruct Hv as ([?|(_ & -> & Hbf & Hs & _)] & _); [lia|].
      split; [exact Hbf|]. pose proof (Hsa HA Hnn). cbn. lia.
  - intros HC. rewrite (HCu HC) in Hat. apply (member_at_chain _ _ _ _ _ _ _ _ _ Hat); auto.
Qed.

Lemma winv0 A C : winv A C lstate0.
Proof.
  constructor; cbn; try lia; auto.
  exists 0. split; [lia|reflexivity].
Qed.

(* what the induction of layout_within knows about one member's completed type *)
Definition member_facts (A C : Prop) (f : field) : Prop :=
  in_class (f_type f) /\
  forall ti, cffi_layout (f_type f) = Ok ti ->
    (A -> Forall (field_within (ti_size ti)) (ti_fields ti) /\
          (0 <= f_bits f -> ti_size ti <= ti_align ti)) /\
    (C -> f_named f = false -> chain 0 (ti_fields ti) (8 * Z.max 0 (ti_size ti))).

Lemma mloop_within (A C : Prop) u sflags pack P :
  flags_ok sflags -> pack_rel pack P -> (C -> u = false) ->
  forall fs st st', winv A C st -> fields_ok P fs -> Forall (member_facts A C) fs ->
  mloop cffi_layout u sflags pack fs st = Ok st' -> winv A C st'.
Proof.
  intros Hf HP HCu. induction fs as [|[[named ft] bits] fs IH]; intros st st' W Hok Hall H.
  - cbn in H. injection H as <-. exact W.
  - inversion Hall as [|? ? (Hcl & Hfacts) Hall']; subst. cbn [f_type f_bits f_named fst snd] in *.
    destruct Hok as (Hok1 & Hok2).
    destruct (layout_total ft Hcl) as (ti & Eti & Hwf).
    rewrite mloop_cons, Eti in H. cbn [bind] in H.
    match type of H with bind ?X _ = _ => destruct X as [st1|] eqn:E1; [|discriminate] end.
    cbn [bind] in H.
    destruct (Hfacts ti Eti) as (HA & HC).
    pose proof (class_field_valid _ _ _ _ _ _ Hok1 Eti Hwf) as Hv. destruct Hwf as (Hp & Hm & _).
    eapply IH; [| exact Hok2 | exact Hall' | exact H].
    eapply (step_within A C); eauto.
    + intros HA'. apply (HA HA').
    + intros HA' Hnn. apply (HA HA'); auto.
Qed.

Lemma finish_within A C st : winv A C st ->
  (A -> Forall (field_within (ti_size (finish_struct st))) (ti_fields (finish_struct st))) /\
  (C -> chain 0 (ti_fields (finish_struct st)) (8 * Z.max 0 (ti_size (finish_struct st)))).
Proof.
  intros W. pose proof (w_al _ _ _ W) as Hp. pose proof (is_pow2_pos _ Hp) as Hpos.
  unfold finish_struct. cbn [ti_size ti_fields].
  rewrite (and_not_m1_spec _ _ Hp).
  set (x := alignment st * ((byteoffsetmax st + alignment st - 1) / alignment st)).
  assert (Hx : byteoffsetmax st <= x) by (unfold x; rewrite roundup_mul; apply roundup_ge; lia).
  assert (Hdx : (alignment st | x)) by (exists ((byteoffsetmax st + alignment st - 1) / alignment st); subst x; lia).
  set (size := if x =? 0 then 1 else x).
  assert (Hsx : x <= size) by (subst size; destruct (Z.eqb_spec x 0); lia).
  split.
  - intros HA. eapply Forall_impl; [|apply (w_fld _ _ _ W HA)].
    intros c (H0 & Hb & [H|(a & Ha & Hle & Hd & Hs & Hlt)]); (split; [exact H0|split; [|exact Hb]]); [lia|].
    pose proof (is_pow2_divide a (alignment st) Ha Hp Hle) as Hda.
    pose proof (Z.divide_trans _ _ _ Hda Hdx) as Hdax.
    (* the unit starts at k*a, strictly below the rounded size x = j*a: so k < j and it ends by x *)
    destruct Hd as (k & Hk). destruct Hdax as (j & Hj). pose proof (is_pow2_pos _ Ha).
    assert (k < j) by nia. nia.
  - intros HC. eapply chain_hi; [|apply (w_chain _ _ _ W HC)].
    pose proof (bits_le_bytes (byteoffset st) (bitoffset st) (w_bit _ _ _ W)). pose proof (w_max _ _ _ W). lia.
Qed.

Lemma bfsa_fields (fs : list (bool * ctype * Z)) :
  (fix all (fs : list (bool * ctype * Z)) : Prop :=
     match fs with
     | [] => True
     | (_, ft, bits) :: fs' =>
         (0 <= bits -> forall s a b, ft = TPrim s a b -> s <= a) /\ bf_size_le_align ft /\ all fs'
     end) fs
  <-> Forall (fun f => (0 <= f_bits f -> forall s a b, f_type f = TPrim s a b -> s <= a) /\
                       bf_size_le_align (f_type f)) fs.
Proof.
  induction fs as [|[[nm ft] b] fs IH]; [split; auto|].
  rewrite Forall_cons_iff, <- IH. cbn [f_bits f_type fst snd]. tauto.
Qed.

Theorem layout_within t : in_class t -> forall ti, cffi_layout t = Ok ti ->
  (bf_size_le_align t -> Forall (field_within (ti_size ti)) (ti_fields ti)) /\
  (union_free t -> chain 0 (ti_fields ti) (8 * Z.max 0 (ti_size ti))).
Proof.
  induction t as [s a b|it n IH|u P fs IH] using ctype_ind2; intros Hc ti E.
  - cbn in E. injection E as <-. cbn [ti_fields ti_size chain]. split; intros; [apply Forall_nil|cbn [chain]; lia].
  - cbn [cffi_layout] in E. destruct (cffi_layout it) as [ii|]; [|discriminate]. cbn [bind] in E.
    destruct (ti_size ii <? 0); [discriminate|]. injection E as <-. cbn [ti_fields ti_size chain].
    split; intros; [apply Forall_nil|cbn [chain]; lia].
  - cbn [in_class] in Hc. destruct Hc as (HP & Hok & Hall). apply in_class_fields in Hall.
    destruct (cffi_layout_agg_flags u P fs HP) as (sflags & pack & (Hf & Hpr & _) & Eagg). rewrite Eagg in E. clear Eagg.
    destruct (mloop cffi_layout u sflags pack fs lstate0) as [st'|] eqn:El; [|discriminate].
    cbn [bind] in E. injection E as <-.
    set (A := bf_size_le_align (TAgg u P fs)). set (C := union_free (TAgg u P fs)).
    assert (HCu : C -> u = false) by (intros HC; apply HC).
    assert (Hm : Forall (member_facts A C) fs).
    { rewrite Forall_forall in *. intros [[nm ft] bts] Hin. split; [apply (Hall _ Hin)|]. intros ti Eti.
      destruct (IH _ Hin (Hall _ Hin) ti Eti) as (IH1 & IH2).
      cbn [f_type f_bits f_named fst snd] in *.
      split.
      - intros HA. unfold A in HA. cbn [bf_size_le_align] in HA. apply bfsa_fields in HA.
        rewrite Forall_forall in HA. destruct (HA _ Hin) as (Hsa & Hbf). cbn [f_type f_bits fst snd] in *.
        split; [auto|]. intros Hnn.
        destruct (fields_ok_In P fs _ Hin Hok) as (last & (Hb & _)).
        destruct Hb as [?|(_ & _ & (s1 & a1 & -> & _) & _)]; [lia|].
        cbn in Eti. injection Eti as <-. cbn [ti_size ti_align]. eapply Hsa; eauto.
      - intros HC Hnm. apply IH2. unfold C in HC. cbn [union_free] in HC. destruct HC as (_ & HC).
        apply (all_fields (fun named ft _ => named = false -> union_free ft)) in HC. rewrite Forall_forall in HC. apply (HC _ Hin). exact Hnm. }
    pose proof (mloop_within A C u sflags pack P Hf Hpr HCu fs lstate0 st' (winv0 A C) Hok Hm El) as W.
    destruct (finish_within A C st' W) as (F1 & F2). split; auto.
Qed.
