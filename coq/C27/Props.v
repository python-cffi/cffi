(* C27 — Non-aggregate ctypes are canonical over any history.
   [reachable s]: s is the state of the type heap + unique_cache after ANY history of
     New (with ANY unoccupied address chosen by the allocator — freed addresses may be reused),
     Complete, Unhandle, Free (refcount 0) and GcClear (cyclic GC: weakrefs cleared + tp_clear,
     dealloc later).  "zombie" = cleared by the GC, not yet deallocated (not reachable from Python). *)
From Coq Require Import ZArith NArith List Bool.
Import ListNotations.
From Coq Require Import Lia.
From Cffi Require Import C27.Model C27.Proofs C27.Deep.

(* Scope: the model is the backend's single, process-global unique_cache; the clause "any number of
   FFI objects, type strings, generated modules" adds only front ends that all end in the same
   new_*_type calls (cffi/model.py global_cache, realize_c_type): that those front ends preserve
   canonicity is decided by the correspondence run only (ffi-level histories over several in-line
   and out-of-line FFI objects, partition of live handles by `is` vs by description).
   Threads / the free-threaded build are out of scope. *)

(* two live non-aggregate types are the same object iff they have the same description
   (same shape — kind, primitive / length / ellipsis+abi — and the same child objects);
   "only if" is trivial (an object has one description), "if" is this theorem *)
Theorem C27_canonical : forall s o1 o2,
  reachable s -> In o1 (heap s) -> In o2 (heap s) ->
  t_zombie o1 = false -> t_zombie o2 = false -> is_agg (t_shape o1) = false ->
  t_shape o1 = t_shape o2 -> t_kids o1 = t_kids o2 -> o1 = o2.
Proof. exact canonical. Qed.
Print Assumptions C27_canonical.

(* the same over whole description TREES: [descr n h i] is the tree of shapes below object i, aggregates
   (not uniqued) being leaves identified by their object; two live types of a reachable state with the same
   tree — e.g. both "pointer to array of 5 pointers to struct #12" — are one object.  (The fuel n only
   bounds the depth: the statement holds for any fuels that suffice to produce the trees.) *)
Theorem C27_canonical_deep : forall s,
  reachable s -> forall n1 n2 o1 o2 d,
  In o1 (heap s) -> In o2 (heap s) -> t_zombie o1 = false -> t_zombie o2 = false ->
  descr n1 (heap s) (t_oid o1) = Some d -> descr n2 (heap s) (t_oid o2) = Some d -> o1 = o2.
Proof. exact canonical_deep. Qed.
Print Assumptions C27_canonical_deep.

(* non-vacuity: the trees of an array of 5 pointers to pointer to a struct, and of a function taking it *)
Example C27_example_descr :
  let s := fst (run init [New 1 (5, 0%Z) [] 10; New 2 (2, 0%Z) [0] 20; New 3 (2, 0%Z) [1] 30; New 4 (3, 5%Z) [2] 40;
                          New 5 (0, 7%Z) [] 50; New 6 (4, 1%Z) [4; 3] 60]%N) in
  descr 6 (heap s) 3 = Some (DNode (3%N, 5%Z) [DNode (2%N, 0%Z) [DNode (2%N, 0%Z) [DAgg 0%N]]]) /\
  descr 6 (heap s) 5 = Some (DNode (4%N, 1%Z) [DNode (0%N, 7%Z) []; DNode (2%N, 0%Z) [DNode (2%N, 0%Z) [DAgg 0%N]]]) /\
  descr 2 (heap s) 3 = None.
Proof. vm_compute. repeat split; reflexivity. Qed.

(* Which expression is stored in each unique_key slot, as the source says (C27/Gen.v, regenerated on
   every run from the unique_key[i] = ... assignments and the key length given to get_unique_type; an
   expression outside the vocabulary becomes KOther).  The model's key of a new type is the WORD LIST built
   from these recipes (Model.v: key_of = flat_map src_words (recipe_of kind); key_kids / func_key_stored), so
   C27_entries_sound, C27_canonical, C27_new_returns and C27_key_words_injective are about the current text: a
   key built from objects the new type does not itself reference (the caller's undecayed argument tuple), or a
   second array word that is not the length (the byte size: 0 for every length when the item has size 0),
   breaks Proofs.v. *)
Theorem C27_gen_key_recipes :
  primitive_key = [KStatic] /\ void_key = [KStatic] /\
  pointer_key = [KItem] /\                                   (* the item type, stored in ct_itemdescr *)
  array_key = [KPtr; KLen] /\                                (* the pointer type, stored in ct_stuff, and the length *)
  function_key = [KResult; KFlags; KNargs; KArgsStored].     (* result, abi+ellipsis, count, the stored (decayed) args *)
Proof. repeat split; reflexivity. Qed.
Print Assumptions C27_gen_key_recipes.

(* The key is nothing but words (no kind tag): equal words imply equal descriptions.  One-word keys: static
   objects (primitives, void) against heap objects (pointers); two words: arrays, [pointer type; length mod
   2^64] with length in -1 .. 2^63-1; three or more words: functions.  First for ANY heap with pairwise
   different addresses and any two well-formed descriptions over live children, then for the live types of a
   reachable state.  (Static storage is modelled as words < 0, heap addresses as words >= 0.) *)
Theorem C27_key_words_determine_description : forall h sh1 k1 sh2 k2,
  NoDup (map t_addr h) ->
  wf_shape sh1 (length k1) = true -> wf_shape sh2 (length k2) = true ->
  is_agg sh1 = false -> is_agg sh2 = false ->
  (forall c, In c k1 -> alive_nz h c = true) -> (forall c, In c k2 -> alive_nz h c = true) ->
  key_of h sh1 k1 = key_of h sh2 k2 -> sh1 = sh2 /\ k1 = k2.
Proof. exact key_of_inj. Qed.
Print Assumptions C27_key_words_determine_description.

Theorem C27_key_words_injective : forall s o1 o2,
  reachable s -> In o1 (heap s) -> In o2 (heap s) -> t_zombie o1 = false -> t_zombie o2 = false ->
  is_agg (t_shape o1) = false -> is_agg (t_shape o2) = false ->
  key_of (heap s) (t_shape o1) (t_kids o1) = key_of (heap s) (t_shape o2) (t_kids o2) ->
  t_shape o1 = t_shape o2 /\ t_kids o1 = t_kids o2.
Proof.
  intros s o1 o2 HR H1 H2 Z1 Z2 A1 A2 E. apply reachable_inv in HR.
  exact (key_of_inj (heap s) _ _ _ _ (i_addrs s HR) (i_wf s HR o1 H1) (i_wf s HR o2 H2) A1 A2
                    (i_kids s HR o1 H1 Z1) (i_kids s HR o2 H2 Z2) E).
Qed.
Print Assumptions C27_key_words_injective.

(* the open array's length word is 2^64-1, and arrays of the same pointer type with lengths 7 and 9 have
   different words whatever the item size is *)
Example C27_example_key_words :
  let h := [ {| t_oid := 1; t_addr := 40; t_shape := (2%N, 0%Z); t_kids := [0%N]; t_ukey := None; t_zombie := false |};
             {| t_oid := 0; t_addr := 24; t_shape := (0%N, 7%Z); t_kids := []; t_ukey := None; t_zombie := false |} ]%N in
  key_of h (0%N, 7%Z) [] = [(-9)%Z] /\ key_of h (1%N, 0%Z) [] = [(-1)%Z] /\ key_of h (2%N, 0%Z) [0%N] = [24%Z] /\
  key_of h (3%N, (-1)%Z) [1%N] = [40%Z; 18446744073709551615%Z] /\
  key_of h (3%N, 7%Z) [1%N] = [40%Z; 7%Z] /\ key_of h (3%N, 9%Z) [1%N] = [40%Z; 9%Z] /\
  key_of h (4%N, 1%Z) [0%N; 1%N; 1%N] = [24%Z; 1%Z; 2%Z; 40%Z; 40%Z].
Proof. vm_compute. repeat split; reflexivity. Qed.

(* The cache protocol, as the source says (C27/Gen.v, regenerated): remove_dead_unique_reference
   deletes only under the dead-weakref test; ctypedescr_dealloc clears the weak references, then removes the
   key, then releases the children and the memory; get_or_insert_unique_type returns a live hit before it
   inserts and sets ct_unique_key only on insertion; tp_clear resets the two child fields only.  [Free], [New]
   and [GcClear] of Model.v consult these (free_cache, weakrefs_cleared_first, gen_insert_after_live_check,
   clear_drops_ukey): with another protocol step_inv (hence every theorem here) is not proved.  That is because
   the scripts compare all four with the model; the invariant itself rests on the first and the third only: it does
   not mention the key an object remembers (Proofs.free_inv holds whichever key dealloc passes on), and a weak
   reference tested before it is cleared would only keep more entries. *)
Theorem C27_gen_cache_protocol :
  gen_remove_only_if_dead = true /\
  gen_dealloc_order = [DClearWeakrefs; DRemoveKey; DDecrefItem; DDecrefStuff; DFree] /\
  gen_insert_after_live_check = true /\
  gen_clear_fields = [FItem; FStuff].
Proof. repeat split; reflexivity. Qed.
Print Assumptions C27_gen_cache_protocol.

(* the decayed arguments are alive whenever the given ones are (the extra test in New never fires) *)
Theorem C27_decayed_args_alive : forall s sh kids0,
  reachable s -> forallb (alive_nz (heap s)) kids0 = true ->
  forallb (alive_nz (heap s)) (ref_kids (heap s) sh kids0) = true.
Proof. exact ref_kids_alive. Qed.
Print Assumptions C27_decayed_args_alive.

(* Model fact tied by the raw-level correspondence (function types built from array-typed arguments,
   array types then freed and their addresses reused): the children of a type — hence its key — are the
   objects the type itself references and keeps alive; for a function type these are the result and the
   DECAYED arguments (array -> its pointer type), see Model.ref_kids.  That is what makes C27_entries_sound
   and C27_new_returns provable: a key never holds the address of an object the type does not keep alive. *)

(* building a type returns an object with EXACTLY the requested description — never another
   type that happens to sit behind a stale key or a reused address — namely the live one if there
   is one, else a brand-new object *)
Theorem C27_new_returns : forall s h sh kids0 a i,
  reachable s -> is_agg sh = false -> snd (step s (New h sh kids0 a)) = ORet i ->
  let s' := fst (step s (New h sh kids0 a)) in
  let kids := ref_kids (heap s) sh kids0 in      (* = kids0, except: array arguments of a function decayed *)
  exists o, find_obj i (heap s') = Some o /\ t_zombie o = false /\ t_shape o = sh /\ t_kids o = kids /\
            (In o (heap s) \/ (i = next_oid s /\
                               forall o0, In o0 (heap s) -> t_zombie o0 = false ->
                                          ~ (t_shape o0 = sh /\ t_kids o0 = kids))).
Proof. exact new_returns. Qed.
Print Assumptions C27_new_returns.

(* every cache entry whose weak reference is alive points to a type whose description is its key *)
Theorem C27_entries_sound : forall s k i o,
  reachable s -> cache_get k (cache s) = Some i -> find_obj i (heap s) = Some o -> t_zombie o = false ->
  is_agg (t_shape o) = false /\ k = desc_key (heap s) o.
Proof.
  intros s k i o HR. apply entry_sound, reachable_inv, HR.
Qed.
Print Assumptions C27_entries_sound.

(* a type rebuilt after its previous ctype was freed is a new object (and, the new state being
   reachable, C27_canonical says it is again the unique one) *)
Theorem C27_rebuild_after_free : forall s i o h sh kids a r,
  reachable s -> find_obj i (heap s) = Some o -> t_zombie o = false -> is_agg (t_shape o) = false ->
  snd (step s (Free i)) = ODone ->
  t_shape o = sh -> t_kids o = kids ->
  let s1 := fst (step s (Free i)) in
  ref_kids (heap s1) sh kids = kids ->
  snd (step s1 (New h sh kids a)) = ORet r -> r = next_oid s1.
Proof.
  intros s i o h sh kids a r HR Hf Hz Ha Hfree Es Ek s1 Hrk Hnew.
  assert (HR1 : reachable s1) by (destruct HR as [hh ->]; exists (hh ++ [Free i]); symmetry; apply run_snoc).
  assert (Hsh : is_agg sh = false) by congruence.
  destruct (new_returns _ _ _ _ _ _ HR1 Hsh Hnew) as (o' & Hf' & Hz' & Es' & Ek' & [Hin|[E _]]); auto.
  rewrite Hrk in Ek'.
  (* an existing live object with this description would have been o itself *)
  exfalso. subst s1. rewrite (free_heap _ _ Hfree) in Hin.
  apply In_heap_del in Hin as [Hin Hne]. apply find_obj_In in Hf as [Hino Eo].
  assert (o' = o).
  { apply (canonical s o' o); auto; congruence. }
  subst. congruence.
Qed.
Print Assumptions C27_rebuild_after_free.

Theorem C27_heap_wellformed : forall s,
  reachable s ->
  NoDup (map t_addr (heap s)) /\ NoDup (map t_oid (heap s)) /\
  (forall o, In o (heap s) -> t_zombie o = false -> forall c, In c (t_kids o) -> alive_nz (heap s) c = true).
Proof. intros s HR. destruct (reachable_inv _ HR). auto. Qed.
Print Assumptions C27_heap_wellformed.

(* non-vacuity 1 (low level, adversarial allocator): the "rebuild before dealloc" history.
   int at address 10; P = int* ; the GC clears P (zombie, entry dead); int is freed and `long`
   is allocated AT THE SAME ADDRESS 10; long* is built -> same key bytes as the dead entry ->
   replaced; only now the zombie P is deallocated: its key's entry is alive again and must stay;
   long* built once more must be the same object. *)
Example C27_example_rebuild_before_dealloc :
  snd (run init [New 1 (0, 7%Z) [] 10; New 2 (2, 0%Z) [0] 20; Unhandle 2; GcClear [1];
                 Unhandle 1; Free 0; New 3 (0, 9%Z) [] 10; New 4 (2, 0%Z) [2] 30;
                 Free 1; New 5 (2, 0%Z) [2] 40]%N)
  = [ORet 0; ORet 1; ODone; ODone; ODone; ODone; ORet 2; ORet 3; ODone; ORet 3]%N.
Proof. vm_compute. reflexivity. Qed.

(* non-vacuity 2 (high level, as driven by the harness): sharing, drop cascade, rebuild, a
   struct cycle collected by the GC *)
Example C27_example_high_level :
  run_case [HNew 1 (0, 7%Z) []; HNew 2 (2, 0%Z) [1]; HNew 3 (2, 0%Z) [1]; HNew 4 (3, 5%Z) [2];
            HDrop 2; HDrop 3; HNew 5 (2, 0%Z) [1]; HDrop 4; HDrop 5; HNew 6 (2, 0%Z) [1];
            HNew 7 (5, 1%Z) []; HNew 8 (2, 0%Z) [7]; HComplete 7 [8]; HDrop 7; HDrop 8; HCollect;
            HNew 9 (0, 7%Z) []; HDropRebuild 6 10; HNew 11 (2, 0%Z) [1];
            (* a function taking int[5], int[] or a pointer to int is one type; the arrays are not kept alive *)
            HNew 12 (3, 5%Z) [11]; HNew 13 (3, (-1)%Z) [11]; HNew 14 (4, 0%Z) [1; 12]; HNew 15 (4, 0%Z) [1; 13];
            HNew 16 (4, 0%Z) [1; 11]; HDrop 12; HDrop 13; HDrop 14; HDrop 15; HDrop 16; HDrop 10; HDrop 11]%N
  = ([HFresh; HFresh; HSame 2; HFresh; HOk; HOk; HFresh; HOk; HOk; HFresh;
      HFresh; HFresh; HOk; HOk; HOk; HOk; HSame 1; HFresh; HSame 10;
      HFresh; HFresh; HFresh; HSame 14; HSame 14; HOk; HOk; HOk; HOk; HOk; HOk; HOk]%N, 1%N).
Proof. vm_compute. reflexivity. Qed.
