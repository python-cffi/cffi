(* C27 — canonicity over whole description TREES ("describe the same C type" for nested types):
   the description of a type is the tree of shapes below it, aggregates (which are not uniqued) being leaves
   identified by their object identity.  Corollary of Proofs.canonical by induction on the tree. *)
From Coq Require Import ZArith NArith List Bool Lia.
Import ListNotations.
From Cffi Require Import C27.Model C27.Proofs.

Inductive dtree := DAgg (oid : N) | DNode (sh : shape) (kids : list dtree).

Fixpoint all_some {A} (l : list (option A)) : option (list A) :=
  match l with
  | [] => Some []
  | x :: t => match x, all_some t with Some a, Some r => Some (a :: r) | _, _ => None end
  end.

(* the description tree of object i (None: out of fuel, or a dangling child) *)
Fixpoint descr (fuel : nat) (h : list tobj) (i : N) : option dtree :=
  match fuel with
  | O => None
  | S f => match find_obj i h with
           | None => None
           | Some o => if is_agg (t_shape o) then Some (DAgg i)
                       else option_map (DNode (t_shape o)) (all_some (map (descr f h) (t_kids o)))
           end
  end.

Lemma all_some_map {A} (l : list (option A)) : forall ds, all_some l = Some ds -> l = map Some ds.
Proof.
  induction l as [|[a|] l IH]; cbn; intros ds H; [injection H as <-; reflexivity| |discriminate].
  destruct (all_some l) as [r|]; [|discriminate]. injection H as <-. cbn. f_equal. apply IH. reflexivity.
Qed.

Lemma descr_kids_eq s n1 :
  (forall n2 o1 o2 d, In o1 (heap s) -> In o2 (heap s) -> t_zombie o1 = false -> t_zombie o2 = false ->
     descr n1 (heap s) (t_oid o1) = Some d -> descr n2 (heap s) (t_oid o2) = Some d -> o1 = o2) ->
  forall n2 k1 k2 ds,
  (forall c, In c k1 -> alive_nz (heap s) c = true) -> (forall c, In c k2 -> alive_nz (heap s) c = true) ->
  all_some (map (descr n1 (heap s)) k1) = Some ds -> all_some (map (descr n2 (heap s)) k2) = Some ds -> k1 = k2.
Proof.
  intros IH n2 k1 k2 ds A1 A2 E1 E2. apply all_some_map in E1, E2. revert k2 ds A1 A2 E1 E2.
  induction k1 as [|c1 k1 IHk]; intros [|c2 k2] [|d ds] A1 A2 E1 E2; try discriminate; [reflexivity|].
  cbn in E1, E2. injection E1 as D1 E1. injection E2 as D2 E2. f_equal; [|apply (IHk k2 ds); auto using in_cons].
  destruct (alive_nz_In _ _ (A1 c1 (or_introl eq_refl))) as (oc1 & F1 & Z1).
  destruct (alive_nz_In _ _ (A2 c2 (or_introl eq_refl))) as (oc2 & F2 & Z2).
  apply find_obj_In in F1 as [I1 T1]. apply find_obj_In in F2 as [I2 T2]. subst c1 c2.
  f_equal. apply (IH n2 oc1 oc2 d); auto.
Qed.

Theorem canonical_deep s :
  reachable s -> forall n1 n2 o1 o2 d,
  In o1 (heap s) -> In o2 (heap s) -> t_zombie o1 = false -> t_zombie o2 = false ->
  descr n1 (heap s) (t_oid o1) = Some d -> descr n2 (heap s) (t_oid o2) = Some d -> o1 = o2.
Proof.
  intros HR. pose proof (reachable_inv _ HR) as HI.
  induction n1 as [|n1 IH]; intros n2 o1 o2 d H1 H2 Z1 Z2 D1 D2; [discriminate|].
  destruct n2 as [|n2]; [discriminate|].
  cbn [descr] in D1, D2.
  pose proof (In_find_obj _ _ (i_oids s HI) H1) as F1. pose proof (In_find_obj _ _ (i_oids s HI) H2) as F2.
  rewrite F1 in D1. rewrite F2 in D2.
  destruct (is_agg (t_shape o1)) eqn:A1, (is_agg (t_shape o2)) eqn:A2.
  - (* two aggregates: the same leaf, i.e. the same object *)
    injection D1 as <-. injection D2 as E. rewrite E in F2. congruence.
  - injection D1 as <-. destruct (all_some (map (descr n2 (heap s)) (t_kids o2))); discriminate.
  - injection D2 as <-. destruct (all_some (map (descr n1 (heap s)) (t_kids o1))); discriminate.
  - destruct (all_some (map (descr n1 (heap s)) (t_kids o1))) as [ds1|] eqn:E1; [|discriminate].
    destruct (all_some (map (descr n2 (heap s)) (t_kids o2))) as [ds2|] eqn:E2; [|discriminate].
    cbn in D1, D2. injection D1 as <-. injection D2 as Es Ed. subst ds2.
    apply (canonical s o1 o2); auto.
    apply (descr_kids_eq s n1 IH n2 (t_kids o1) (t_kids o2) ds1); auto.
    + intros c Hc. apply (i_kids s HI o1); auto.
    + intros c Hc. apply (i_kids s HI o2); auto.
Qed.
