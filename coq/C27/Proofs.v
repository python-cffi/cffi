(* C27 — proofs: the unique-cache invariant [Inv] over all histories with an adversarial allocator.  First the regenerated
   facts of Gen.v compared with the model, then list lemmas on cache and heap.  [Inv] is kept by three state updates,
   add_inv (New), map_inv (Complete and GcClear, through [same_frame]) and free_inv (Free), put together in step_inv;
   [canonical] follows from i_reg.  The last third reads a description back off its key words (key_desc, key_desc_of,
   key_of_inj) and gives new_returns (what New returns) and ref_kids_alive (the third test of New never fires). *)
From Coq Require Import ZArith NArith Arith List Bool Lia.
Import ListNotations.
From Cffi Require Import C27.Model.
From Cffi Require Base.ListFacts.

(* the regenerated key recipes are the ones the model of the keys relies on; keys_as_modelled_ok has no user: it is a
   tripwire for a changed Gen.v *)
Lemma func_key_stored_ok : func_key_stored = true. Proof. reflexivity. Qed.
Lemma keys_as_modelled_ok : keys_as_modelled = true. Proof. reflexivity. Qed.
Lemma key_kids_ok h sh kids : key_kids h sh kids = ref_kids h sh kids.
Proof. unfold key_kids. rewrite func_key_stored_ok. rewrite andb_false_r. reflexivity. Qed.

(* the regenerated cache protocol is the one the model is written for.  The invariant rests on remove_only_if_dead_ok
   and insert_after_live_check_ok (Props.v, at C27_gen_cache_protocol); the scripts also go through weakrefs_cleared_first_ok
   and clear_keeps_ukey; dealloc_order_ok and clear_as_modelled_ok have no user: tripwires for a changed Gen.v *)
Lemma remove_only_if_dead_ok : gen_remove_only_if_dead = true. Proof. reflexivity. Qed.
Lemma weakrefs_cleared_first_ok : weakrefs_cleared_first = true. Proof. reflexivity. Qed.
Lemma dealloc_order_ok : dealloc_order_as_modelled = true. Proof. reflexivity. Qed.
Lemma insert_after_live_check_ok : gen_insert_after_live_check = true. Proof. reflexivity. Qed.
Lemma clear_keeps_ukey : clear_drops_ukey = false. Proof. reflexivity. Qed.
Lemma clear_as_modelled_ok : clear_as_modelled = true. Proof. reflexivity. Qed.
Lemma free_cache_ok c uk hchk :
  free_cache c uk hchk = match uk with
                         | Some k => match cache_get k c with
                                     | Some j => if alive_nz hchk j then c else cache_del k c
                                     | None => c
                                     end
                         | None => c
                         end.
Proof. unfold free_cache. rewrite remove_only_if_dead_ok. reflexivity. Qed.

Lemma shape_eqb_spec a b : reflect (a = b) (shape_eqb a b).
Proof.
  destruct a as [a1 a2], b as [b1 b2]; unfold shape_eqb; cbn.
  destruct (N.eqb_spec a1 b1), (Z.eqb_spec a2 b2); cbn; constructor; congruence.
Qed.
Lemma nlist_eqb_spec a : forall b, reflect (a = b) (nlist_eqb a b).
Proof. intros b. apply iff_reflect. symmetry. exact (ListFacts.nlist_eqb_eq a b). Qed.
Lemma key_eqb_spec a : forall b, reflect (a = b) (key_eqb a b).
Proof.
  unfold key_eqb. induction a as [|x a IH]; destruct b as [|y b]; cbn; try (constructor; congruence).
  destruct (Z.eqb_spec x y); cbn; [|constructor; congruence].
  destruct (IH b); constructor; congruence.
Qed.

Lemma cache_get_del_same k c : cache_get k (cache_del k c) = None.
Proof.
  induction c as [|[k' i] c IH]; cbn; auto.
  destruct (key_eqb_spec k k'); auto. cbn. destruct (key_eqb_spec k k'); [congruence|auto].
Qed.
Lemma cache_get_del_other k k' c : k' <> k -> cache_get k' (cache_del k c) = cache_get k' c.
Proof.
  intros Hne. induction c as [|[k2 i] c IH]; cbn; auto.
  destruct (key_eqb_spec k k2).
  - subst. destruct (key_eqb_spec k' k2); [congruence|auto].
  - cbn. destruct (key_eqb_spec k' k2); auto.
Qed.
Lemma cache_get_set_same k i c : cache_get k (cache_set k i c) = Some i.
Proof. unfold cache_set; cbn. destruct (key_eqb_spec k k); congruence. Qed.
Lemma cache_get_set_other k k' i c : k' <> k -> cache_get k' (cache_set k i c) = cache_get k' c.
Proof.
  intros Hne. unfold cache_set; cbn. destruct (key_eqb_spec k' k); [congruence|].
  apply cache_get_del_other; auto.
Qed.

Lemma find_obj_In i h o : find_obj i h = Some o -> In o h /\ t_oid o = i.
Proof.
  induction h as [|x h IH]; cbn; [discriminate|].
  destruct (N.eqb_spec (t_oid x) i); intros H; [inversion H; subst; auto|].
  destruct (IH H); auto.
Qed.
Lemma In_find_obj h o : NoDup (map t_oid h) -> In o h -> find_obj (t_oid o) h = Some o.
Proof.
  induction h as [|x h IH]; cbn; [tauto|]. intros Hnd [E|Hin].
  - subst. rewrite N.eqb_refl. reflexivity.
  - inversion Hnd; subst. destruct (N.eqb_spec (t_oid x) (t_oid o)) as [E|]; auto.
    exfalso. apply H1. rewrite E. apply in_map. exact Hin.
Qed.
Lemma find_obj_None i h : (forall o, In o h -> t_oid o <> i) -> find_obj i h = None.
Proof.
  induction h as [|x h IH]; cbn; auto. intros H.
  destruct (N.eqb_spec (t_oid x) i); [exfalso; eapply H; eauto|]. apply IH. intros; apply H; auto.
Qed.

Lemma find_obj_del_other i j h : j <> i -> find_obj j (heap_del i h) = find_obj j h.
Proof.
  intros Hne. induction h as [|x h IH]; cbn; auto.
  destruct (N.eqb_spec (t_oid x) i).
  - destruct (N.eqb_spec (t_oid x) j); [congruence|auto].
  - cbn. destruct (N.eqb_spec (t_oid x) j); auto.
Qed.
Lemma find_obj_del_same i h : find_obj i (heap_del i h) = None.
Proof.
  induction h as [|x h IH]; cbn; auto.
  destruct (N.eqb_spec (t_oid x) i); auto. cbn. destruct (N.eqb_spec (t_oid x) i); [congruence|auto].
Qed.
Lemma In_heap_del i h o : In o (heap_del i h) <-> In o h /\ t_oid o <> i.
Proof.
  induction h as [|x h IH]; cbn; [tauto|].
  destruct (N.eqb_spec (t_oid x) i).
  - rewrite IH. split; [tauto|]. intros [[E|H] Hn]; [subst; congruence|tauto].
  - cbn. rewrite IH. split.
    + intros [E|[H Hn]]; [subst; auto|tauto].
    + intros [[E|H] Hn]; [auto|tauto].
Qed.
Lemma map_heap_del_incl {A} (f : tobj -> A) i h x : In x (map f (heap_del i h)) -> In x (map f h).
Proof.
  intros H. apply in_map_iff in H as [o [E Ho]]. apply In_heap_del in Ho as [Ho _].
  subst. apply in_map. exact Ho.
Qed.
Lemma NoDup_map_heap_del {A} (f : tobj -> A) i h : NoDup (map f h) -> NoDup (map f (heap_del i h)).
Proof.
  induction h as [|x h IH]; cbn; auto. intros Hnd. inversion Hnd; subst.
  destruct (N.eqb (t_oid x) i); auto. cbn. constructor; auto.
  intros Hin. apply H1. eapply map_heap_del_incl; eauto.
Qed.

(* updates that keep identity, address, registered key and shape of every object.  [Inv] never mentions t_ukey: that
   clause is there so that a tp_clear which dropped the key (set_zombie_frame, by clear_keeps_ukey) stops the file *)
Definition same_frame (f : tobj -> tobj) : Prop :=
  forall o, t_oid (f o) = t_oid o /\ t_addr (f o) = t_addr o /\ t_ukey (f o) = t_ukey o /\ t_shape (f o) = t_shape o.

Lemma find_obj_map f i h : same_frame f -> find_obj i (map f h) = option_map f (find_obj i h).
Proof.
  intros Hf. induction h as [|x h IH]; cbn; auto.
  destruct (Hf x) as (E & _). rewrite E. destruct (N.eqb (t_oid x) i); auto.
Qed.
Lemma addr_of_map f i h : same_frame f -> addr_of (map f h) i = addr_of h i.
Proof.
  intros Hf. unfold addr_of. rewrite find_obj_map by auto.
  destruct (find_obj i h); cbn; auto. apply Hf.
Qed.
Lemma frame_oids_addrs f h : same_frame f -> map t_oid (map f h) = map t_oid h /\ map t_addr (map f h) = map t_addr h.
Proof.
  intros Hf. rewrite !map_map. split; apply map_ext; intros o; apply Hf.
Qed.
Lemma set_zombie_frame os : same_frame (set_zombie os).
Proof. intros o. unfold set_zombie. rewrite clear_keeps_ukey. destruct (nmem (t_oid o) os); cbn; auto. Qed.
Lemma set_kids_frame i kids : same_frame (set_kids i kids).
Proof. intros o. unfold set_kids. destruct (N.eqb (t_oid o) i); cbn; auto. Qed.

Lemma nmem_In x l : nmem x l = true <-> In x l.
Proof.
  unfold nmem. rewrite existsb_exists. split.
  - intros [y [Hy E]]. apply N.eqb_eq in E. subst; auto.
  - intros H. exists x. split; auto. apply N.eqb_refl.
Qed.

Lemma occupied_false h a : occupied h a = false -> ~ In a (map t_addr h).
Proof.
  unfold occupied. intros H Hin. apply in_map_iff in Hin as [o [E Ho]].
  assert (existsb (fun o => N.eqb (t_addr o) a) h = true).
  { apply existsb_exists. exists o. split; auto. subst. apply N.eqb_refl. }
  congruence.
Qed.

Lemma free_cache_get c uk h k :
  cache_get k (free_cache c uk h) = cache_get k c \/
  cache_get k (free_cache c uk h) = None /\ forall j, cache_get k c = Some j -> alive_nz h j = false.
Proof.
  rewrite free_cache_ok. destruct uk as [k0|]; auto. destruct (cache_get k0 c) as [j0|] eqn:G; auto.
  destruct (alive_nz h j0) eqn:A; auto. destruct (key_eqb_spec k k0) as [->|Ne].
  - right. rewrite cache_get_del_same. split; [reflexivity | congruence].
  - left. apply cache_get_del_other, Ne.
Qed.

(* the key of the description an object has now: its shape over the addresses of its children *)
Definition desc_key (h : list tobj) (o : tobj) : key := key_of h (t_shape o) (t_kids o).

(* identities and addresses are unique; object numbers and cache entries are below [next_oid]; children of
   live types are live; [i_reg]: the cache leads from the key of the description of every live non-aggregate
   type to that type; [i_sound], the converse: a live object the cache leads to is a non-aggregate type, and
   the key is the key of its description; shapes are well-formed.  (The key an object remembers, [t_ukey],
   plays no part: [free_cache] drops an entry only if it leads to nothing alive, whatever the key.) *)
Record Inv (s : state) : Prop := {
  i_oids : NoDup (map t_oid (heap s));
  i_addrs : NoDup (map t_addr (heap s));
  i_fresh : forall o, In o (heap s) -> (t_oid o < next_oid s)%N;
  i_cfresh : forall k i, cache_get k (cache s) = Some i -> (i < next_oid s)%N;
  i_kids : forall o, In o (heap s) -> t_zombie o = false ->
           forall c, In c (t_kids o) -> alive_nz (heap s) c = true;
  i_reg : forall o, In o (heap s) -> t_zombie o = false -> is_agg (t_shape o) = false ->
          cache_get (desc_key (heap s) o) (cache s) = Some (t_oid o);
  i_sound : forall k i o, cache_get k (cache s) = Some i -> find_obj i (heap s) = Some o ->
            t_zombie o = false -> is_agg (t_shape o) = false /\ k = desc_key (heap s) o;
  i_wf : forall o, In o (heap s) -> wf_shape (t_shape o) (length (t_kids o)) = true
}.

Lemma inv_init : Inv init.
Proof. constructor; cbn; try constructor; try tauto; try discriminate. Qed.

Lemma alive_nz_In h i : alive_nz h i = true -> exists o, find_obj i h = Some o /\ t_zombie o = false.
Proof.
  unfold alive_nz. destruct (find_obj i h) as [o|]; [|discriminate].
  intros H. exists o. split; auto. destruct (t_zombie o); cbn in H; congruence.
Qed.

Lemma find_obj_cons_other x h i : t_oid x <> i -> find_obj i (x :: h) = find_obj i h.
Proof. intros H. cbn. destruct (N.eqb_spec (t_oid x) i); [congruence|auto]. Qed.

Lemma key_of_ext h h' sh kids :
  (forall c, In c kids -> addr_of h' c = addr_of h c) -> key_of h' sh kids = key_of h sh kids.
Proof.
  intros H. unfold key_of. apply flat_map_ext. intros k.
  assert (Hhd : hd_word h' kids = hd_word h kids).
  { destruct kids as [|c t]; cbn; auto. unfold aw. rewrite H; cbn; auto. }
  assert (Htl : map (aw h') (tl kids) = map (aw h) (tl kids)).
  { apply map_ext_in. intros c Hc. unfold aw. rewrite H; auto. destruct kids; cbn in *; [tauto|auto]. }
  destruct k; cbn [src_words]; congruence.
Qed.

Lemma agg_wf sh n : is_agg sh = true -> wf_shape sh n = true.
Proof.
  unfold is_agg, wf_shape. intros H. apply N.eqb_eq in H. rewrite H. reflexivity.
Qed.
Lemma ref_kids_length h sh kids0 : length (ref_kids h sh kids0) = length kids0.
Proof.
  unfold ref_kids. destruct (N.eqb (fst sh) 4); auto. destruct kids0; cbn; auto. rewrite map_length. auto.
Qed.

Lemma inv_handles_next_oid s n hd : Inv s -> (next_oid s <= n)%N ->
  Inv {| heap := heap s; cache := cache s; next_oid := n; handles := hd |}.
Proof.
  intros HI L. constructor; cbn [heap cache next_oid]; try (destruct HI; assumption).
  - intros o Ho. pose proof (i_fresh s HI o Ho). lia.
  - intros k i Hg. pose proof (i_cfresh s HI _ _ Hg). lia.
Qed.

Lemma new_pre_false s h sh kids0 a : new_pre s h sh kids0 (ref_kids (heap s) sh kids0) a = false ->
  (forall c, In c (ref_kids (heap s) sh kids0) -> alive_nz (heap s) c = true) /\
  occupied (heap s) a = false /\ wf_shape sh (length (ref_kids (heap s) sh kids0)) = true.
Proof.
  unfold new_pre. rewrite !orb_false_iff, !negb_false_iff, !forallb_forall, ref_kids_length. tauto.
Qed.

(* a live type of the description [sh, kids] is registered under its key, so it does not exist when the
   key is absent from the cache or leads to a dead weak reference *)
Lemma no_such_type s sh kids : Inv s ->
  (forall i, cache_get (key_of (heap s) sh kids) (cache s) = Some i -> alive_nz (heap s) i = false) ->
  forall o, In o (heap s) -> t_zombie o = false -> is_agg (t_shape o) = false ->
  desc_key (heap s) o <> key_of (heap s) sh kids.
Proof.
  intros HI Hdead o Ho Hz Ha E. pose proof (i_reg s HI o Ho Hz Ha) as Hg. rewrite E in Hg.
  specialize (Hdead _ Hg). unfold alive_nz in Hdead. rewrite (In_find_obj _ _ (i_oids s HI) Ho), Hz in Hdead.
  discriminate.
Qed.

(* how a new object may be registered: not at all if it is an aggregate, otherwise under the key of its
   description, until now absent from the cache or leading to a dead weak reference *)
Definition insertable (s : state) (sh : shape) (kids : list N) (ins : option key) : Prop :=
  match ins with
  | None => is_agg sh = true
  | Some k => is_agg sh = false /\ k = key_of (heap s) sh kids /\
              forall i, cache_get k (cache s) = Some i -> alive_nz (heap s) i = false
  end.

(* the state with the new object, handed out under handle h *)
Definition add_obj (s : state) (h a : N) (sh : shape) (kids : list N) (ins : option key) : state :=
  {| heap := {| t_oid := next_oid s; t_addr := a; t_shape := sh; t_kids := kids; t_ukey := ins;
                t_zombie := false |} :: heap s;
     cache := match ins with None => cache s | Some k => cache_set k (next_oid s) (cache s) end;
     next_oid := N.succ (next_oid s); handles := (h, next_oid s) :: handles s |}.

(* a new object at an unoccupied address, over live children *)
Lemma add_inv s h a sh kids ins : Inv s ->
  occupied (heap s) a = false -> (forall c, In c kids -> alive_nz (heap s) c = true) ->
  wf_shape sh (length kids) = true -> insertable s sh kids ins -> Inv (add_obj s h a sh kids ins).
Proof.
  intros HI Hocc Hk Hwf Hins. pose proof (no_such_type s sh kids HI) as FR.
  set (n := next_oid s) in *.
  set (x := {| t_oid := n; t_addr := a; t_shape := sh; t_kids := kids; t_ukey := ins; t_zombie := false |}).
  assert (Hn : forall o, In o (heap s) -> t_oid o <> n) by (intros o Ho; pose proof (i_fresh s HI o Ho); lia).
  assert (Hold : forall c, alive_nz (heap s) c = true -> c <> n).
  { intros c Hc. destruct (alive_nz_In _ _ Hc) as (oc & Hf & _). apply find_obj_In in Hf as [Hin <-]. auto. }
  assert (Hfind : forall c, c <> n -> find_obj c (x :: heap s) = find_obj c (heap s))
    by (intros c Hc; apply find_obj_cons_other; cbn; auto).
  assert (Hkey : forall sh' kids', (forall c, In c kids' -> alive_nz (heap s) c = true) ->
                 key_of (x :: heap s) sh' kids' = key_of (heap s) sh' kids').
  { intros sh' kids' Hal. apply key_of_ext. intros c Hc. unfold addr_of. rewrite Hfind; auto. }
  constructor; cbn [add_obj heap cache next_oid map]; fold n; fold x.
  - constructor; [|exact (i_oids s HI)]. intros Hin. apply in_map_iff in Hin as [o [E Ho]]. eapply Hn; eauto.
  - constructor; [apply occupied_false, Hocc | exact (i_addrs s HI)].
  - intros o [<-|Ho]; [cbn; lia|]. pose proof (i_fresh s HI o Ho). lia.
  - intros k i Hg. destruct ins as [k0|]; [destruct (key_eqb_spec k k0) as [->|Ne]|].
    + rewrite cache_get_set_same in Hg. inversion Hg; lia.
    + rewrite cache_get_set_other in Hg by auto. pose proof (i_cfresh s HI _ _ Hg). lia.
    + pose proof (i_cfresh s HI _ _ Hg). lia.
  - intros o Ho Hz c Hc. assert (Hal : alive_nz (heap s) c = true) by (destruct Ho as [<-|Ho]; [apply Hk, Hc | exact (i_kids s HI o Ho Hz c Hc)]).
    unfold alive_nz. rewrite Hfind by auto. exact Hal.
  - intros o [<-|Ho] Hz Hag; unfold desc_key; [rewrite (Hkey _ _ Hk) | rewrite (Hkey _ _ (i_kids s HI o Ho Hz))].
    + cbn in Hag |- *. destruct ins as [k0|]; [|congruence]. destruct Hins as (_ & -> & _). apply cache_get_set_same.
    + pose proof (i_reg s HI o Ho Hz Hag) as Hg. destruct ins as [k0|]; [|exact Hg].
      destruct Hins as (_ & -> & Hdead). rewrite cache_get_set_other; [exact Hg | apply FR; auto].
  - intros k i o Hg Hf Hz. unfold desc_key. destruct (N.eq_dec i n) as [->|Ni].
    + cbn in Hf. rewrite N.eqb_refl in Hf. inversion Hf; subst o. cbn [t_shape t_kids]. rewrite (Hkey _ _ Hk).
      destruct ins as [k0|]; [|pose proof (i_cfresh s HI _ _ Hg); lia]. destruct Hins as (Ha & E & _).
      destruct (key_eqb_spec k k0) as [->|Ne]; [auto|].
      rewrite cache_get_set_other in Hg by auto. pose proof (i_cfresh s HI _ _ Hg). lia.
    + rewrite Hfind in Hf by auto. pose proof (find_obj_In _ _ _ Hf) as [Ho _]. rewrite (Hkey _ _ (i_kids s HI o Ho Hz)).
      destruct ins as [k0|]; [|exact (i_sound s HI k i o Hg Hf Hz)].
      destruct (key_eqb_spec k k0) as [->|Ne].
      * rewrite cache_get_set_same in Hg. congruence.
      * rewrite cache_get_set_other in Hg by auto. exact (i_sound s HI k i o Hg Hf Hz).
  - intros o [<-|Ho]; [exact Hwf | exact (i_wf s HI o Ho)].
Qed.

(* what New does: rejected; or a live type of this description is in the cache and is handed out again; or a new
   object is made, registered as [insertable] says *)
Lemma step_new s h sh kids0 a : let kids := ref_kids (heap s) sh kids0 in
  if new_pre s h sh kids0 kids a then step s (New h sh kids0 a) = (s, OBad)
  else (exists i, is_agg sh = false /\ cache_get (key_of (heap s) sh kids) (cache s) = Some i /\
                  alive_nz (heap s) i = true /\
                  step s (New h sh kids0 a) =
                  ({| heap := heap s; cache := cache s; next_oid := N.succ (next_oid s);
                      handles := (h, i) :: handles s |}, ORet i)) \/
       (exists ins, insertable s sh kids ins /\
                    step s (New h sh kids0 a) = (add_obj s h a sh kids ins, ORet (next_oid s))).
Proof.
  intros kids. cbn [step]. rewrite key_kids_ok, insert_after_live_check_ok. cbn [andb]. fold kids.
  destruct (new_pre s h sh kids0 kids a); [reflexivity|].
  destruct (is_agg sh) eqn:Hag; [right; exists None; split; [exact Hag | reflexivity]|].
  destruct (cache_get (key_of (heap s) sh kids) (cache s)) as [i|] eqn:Hg; [destruct (alive_nz (heap s) i) eqn:Hal|].
  1: left; exists i; auto.
  (* a dead weak reference, or no entry *)
  all: right; exists (Some (key_of (heap s) sh kids)); split; [|reflexivity]; repeat split; auto; congruence.
Qed.

(* every object is rewritten in place, keeping identity, address, key and shape: garbage may be
   cleared, an aggregate may get its fields; live non-aggregates keep their children *)
Lemma map_inv s f hd : Inv s -> same_frame f ->
  (forall o, t_zombie (f o) = false -> t_zombie o = false) ->
  (forall o, In o (heap s) -> t_zombie (f o) = false ->
     forall c, In c (t_kids (f o)) -> alive_nz (map f (heap s)) c = true) ->
  (forall o, In o (heap s) -> is_agg (t_shape o) = false -> t_kids (f o) = t_kids o) ->
  Inv {| heap := map f (heap s); cache := cache s; next_oid := next_oid s; handles := hd |}.
Proof.
  intros HI FR Hz Hk Hr. destruct (frame_oids_addrs _ (heap s) FR) as [Mo Ma].
  constructor; cbn [heap cache next_oid]; try rewrite Mo; try rewrite Ma;
    try (intros o' Ho'; apply in_map_iff in Ho' as [o [<- Ho]]; destruct (FR o) as (Eo & _ & Eu & Es)).
  - exact (i_oids s HI).
  - exact (i_addrs s HI).
  - rewrite Eo. exact (i_fresh s HI o Ho).
  - exact (i_cfresh s HI).
  - exact (Hk o Ho).
  - intros Hz' Ha'. rewrite Es in Ha'. unfold desc_key. rewrite Es, Eo, (Hr o Ho Ha').
    rewrite (key_of_ext (heap s)) by (intros; apply addr_of_map; auto). apply (i_reg s HI); auto.
  - intros k i o' Hg Hf Hz'. rewrite find_obj_map in Hf by auto.
    destruct (find_obj i (heap s)) as [o|] eqn:Hf0; [|discriminate]. injection Hf as <-.
    destruct (FR o) as (_ & _ & _ & Es). destruct (i_sound s HI k i o Hg Hf0 (Hz o Hz')) as [Ha ->]. unfold desc_key.
    apply find_obj_In in Hf0 as [Ho _]. rewrite Es, (Hr o Ho Ha). split; [exact Ha|]. symmetry.
    apply key_of_ext. intros; apply addr_of_map; auto.
  - rewrite Es. destruct (is_agg (t_shape o)) eqn:Ha; [apply agg_wf, Ha | rewrite (Hr o Ho Ha); exact (i_wf s HI o Ho)].
Qed.

Lemma free_inv s i uk hd : Inv s -> has_parent (heap s) i = false ->
  Inv {| heap := heap_del i (heap s); cache := free_cache (cache s) uk (heap_del i (heap s));
         next_oid := next_oid s; handles := hd |}.
Proof.
  intros HI Hpar.
  assert (Hnokid : forall o', In o' (heap s) -> t_zombie o' = false -> ~ In i (t_kids o')).
  { intros o' Ho' Hz' Hk. unfold has_parent in Hpar. rewrite (proj2 (existsb_exists _ _)) in Hpar; [discriminate|].
    exists o'. split; auto. rewrite Hz'. apply nmem_In, Hk. }
  set (h' := heap_del i (heap s)).
  assert (Hal : forall c, c <> i -> alive_nz h' c = alive_nz (heap s) c).
  { intros c Hc. unfold alive_nz, h'. rewrite find_obj_del_other by auto. reflexivity. }
  assert (Hkey : forall o', In o' (heap s) -> t_zombie o' = false -> desc_key h' o' = desc_key (heap s) o').
  { intros o' Ho' Hz'. unfold desc_key. apply key_of_ext. intros c Hc. unfold addr_of, h'.
    rewrite find_obj_del_other; auto. intros ->. eapply Hnokid; eauto. }
  set (c' := free_cache (cache s) uk h').
  assert (Hsub : forall k j, cache_get k c' = Some j -> cache_get k (cache s) = Some j).
  { intros k j Hg. destruct (free_cache_get (cache s) uk h' k) as [E|[E _]]; fold c' in E; congruence. }
  assert (Hkeep : forall k j, cache_get k (cache s) = Some j -> alive_nz h' j = true -> cache_get k c' = Some j).
  { intros k j Hg Hj. destruct (free_cache_get (cache s) uk h' k) as [E|[_ D]]; [fold c' in E; congruence|].
    rewrite (D j Hg) in Hj. discriminate. }
  constructor; cbn [heap cache next_oid]; fold h'; fold c';
    try (intros o' Ho'; apply In_heap_del in Ho' as [Ho' Hne]).
  - apply NoDup_map_heap_del, (i_oids s HI).
  - apply NoDup_map_heap_del, (i_addrs s HI).
  - exact (i_fresh s HI o' Ho').
  - intros k j Hg. exact (i_cfresh s HI k j (Hsub k j Hg)).
  - intros Hz' c Hc. rewrite Hal; [exact (i_kids s HI o' Ho' Hz' c Hc)|]. intros ->. exact (Hnokid o' Ho' Hz' Hc).
  - intros Hz' Ha'. rewrite Hkey by auto. apply Hkeep; [exact (i_reg s HI o' Ho' Hz' Ha')|].
    rewrite Hal by auto. unfold alive_nz. rewrite (In_find_obj _ _ (i_oids s HI) Ho'), Hz'. reflexivity.
  - intros k j o' Hg Hf' Hz'. apply Hsub in Hg.
    destruct (N.eq_dec j i) as [->|Hne]; [unfold h' in Hf'; rewrite find_obj_del_same in Hf'; discriminate|].
    unfold h' in Hf'. rewrite find_obj_del_other in Hf' by auto. apply find_obj_In in Hf' as Ho'. rewrite Hkey by tauto.
    exact (i_sound s HI k j o' Hg Hf' Hz').
  - exact (i_wf s HI o' Ho').
Qed.

Lemma step_inv s o : Inv s -> Inv (fst (step s o)).
Proof.
  intros HI. destruct o as [h sh kids0 a|i kids|h|i|os]; [|cbn [step]..].
  - pose proof (step_new s h sh kids0 a) as N. cbv zeta in N.
    destruct (new_pre s h sh kids0 _ a) eqn:Hpre; [rewrite N; exact HI|].
    apply new_pre_false in Hpre as (Hk & Hocc & Hwf).
    destruct N as [(i & _ & _ & _ & ->)|(ins & Hins & ->)]; cbn [fst].
    + (* existing live type returned *) apply inv_handles_next_oid; [exact HI | cbn; lia].
    + apply add_inv; auto.
  - destruct (find_obj i (heap s)) as [o|] eqn:Hf; [|auto].
    destruct (is_agg (t_shape o) && negb (t_zombie o) && forallb (alive_nz (heap s)) kids) eqn:Hpre; [|auto].
    apply andb_true_iff in Hpre as [Hpre Hk]. apply andb_true_iff in Hpre as [Hag Hz].
    rewrite forallb_forall in Hk. pose proof (set_kids_frame i kids) as FR.
    assert (Hsame : forall o0, In o0 (heap s) -> t_oid o0 <> i -> set_kids i kids o0 = o0).
    { intros o0 _ Ni. unfold set_kids. destruct (N.eqb_spec (t_oid o0) i); [contradiction | reflexivity]. }
    assert (Hi : forall o0, In o0 (heap s) -> t_oid o0 = i -> o0 = o).
    { intros o0 Ho0 Ei. pose proof (In_find_obj _ _ (i_oids s HI) Ho0) as F. congruence. }
    apply map_inv; auto.
    + intros o0. unfold set_kids. destruct (N.eqb (t_oid o0) i); auto.
    + intros o0 Ho0 Hz0 c Hc.
      assert (Hal : alive_nz (heap s) c = true).
      { revert Hz0 Hc. unfold set_kids. destruct (N.eqb (t_oid o0) i); cbn; [auto | intros; eapply (i_kids s HI); eauto]. }
      revert Hal. unfold alive_nz. rewrite find_obj_map by auto. destruct (find_obj c (heap s)) as [oc|]; cbn; auto.
      unfold set_kids. destruct (N.eqb (t_oid oc) i); auto.
    + intros o0 Ho0 Ha0. rewrite Hsame; auto. intros Ei. rewrite (Hi o0 Ho0 Ei) in Ha0. congruence.
  - apply inv_handles_next_oid; [exact HI | cbn; lia].
  - destruct (find_obj i (heap s)) as [o|]; [|auto].
    destruct (has_handle s i || has_parent (heap s) i) eqn:Hpre; [auto|].
    apply orb_false_iff in Hpre as [_ Hpar]. rewrite weakrefs_cleared_first_ok.
    apply free_inv; assumption.
  - destruct (forallb _ os) eqn:Hpre; [|auto]. rewrite forallb_forall in Hpre.
    pose proof (set_zombie_frame os) as FR.
    assert (Hk0 : forall o0, t_kids (set_zombie os o0) = t_kids o0).
    { intros o0. unfold set_zombie. destruct (nmem (t_oid o0) os); reflexivity. }
    assert (Hz0 : forall o0, t_zombie (set_zombie os o0) = false -> t_zombie o0 = false /\ nmem (t_oid o0) os = false).
    { intros o0. unfold set_zombie. destruct (nmem (t_oid o0) os); cbn; [discriminate | auto]. }
    apply map_inv; auto.
    + intros o0 Hz. apply Hz0, Hz.
    + intros o0 Ho0 Hz' c Hc. destruct (Hz0 _ Hz') as [Hz Hnin]. rewrite Hk0 in Hc.
      pose proof (i_kids s HI o0 Ho0 Hz c Hc) as Hal.
      unfold alive_nz in *. rewrite find_obj_map by auto.
      destruct (find_obj c (heap s)) as [oc|] eqn:Hfc; [|discriminate]. cbn.
      apply find_obj_In in Hfc as [Hinc Ec].
      unfold set_zombie. destruct (nmem (t_oid oc) os) eqn:Hm; [|exact Hal].
      (* c is in the set: then its live parent o0 must be too *)
      exfalso. apply nmem_In in Hm. rewrite Ec in Hm. specialize (Hpre c Hm).
      apply andb_true_iff in Hpre as [_ Hcl]. rewrite forallb_forall in Hcl. specialize (Hcl o0 Ho0).
      rewrite Hz, Hnin, (proj2 (nmem_In c (t_kids o0)) Hc) in Hcl. discriminate.
Qed.

Lemma run_inv h : forall s, Inv s -> Inv (fst (run s h)).
Proof.
  induction h as [|o h IH]; cbn; intros s HI; auto.
  destruct (step s o) as [s1 r] eqn:Hs. destruct (run s1 h) as [s2 rs] eqn:Hr. cbn.
  change s2 with (fst (s2, rs)). rewrite <- Hr. apply IH.
  change s1 with (fst (s1, r)). rewrite <- Hs. apply step_inv; auto.
Qed.

Lemma run_snoc h o : forall s, fst (run s (h ++ [o])) = fst (step (fst (run s h)) o).
Proof.
  induction h as [|o' h IH]; intros s; cbn [run app].
  - cbn [fst]. destruct (step s o); reflexivity.
  - destruct (step s o') as [sa ra]. specialize (IH sa).
    destruct (run sa (h ++ [o])); destruct (run sa h); exact IH.
Qed.

Lemma free_heap s i : snd (step s (Free i)) = ODone -> heap (fst (step s (Free i))) = heap_del i (heap s).
Proof.
  cbn [step]. destruct (find_obj i (heap s)); [|discriminate].
  destruct (has_handle s i || has_parent (heap s) i); [discriminate|]. reflexivity.
Qed.

Definition reachable (s : state) : Prop := exists h, s = fst (run init h).
Lemma reachable_inv s : reachable s -> Inv s.
Proof. intros [h ->]. apply run_inv, inv_init. Qed.

(* two live (not garbage-cleared) non-aggregate types with the same description are one object *)
Theorem canonical s o1 o2 :
  reachable s -> In o1 (heap s) -> In o2 (heap s) ->
  t_zombie o1 = false -> t_zombie o2 = false -> is_agg (t_shape o1) = false ->
  t_shape o1 = t_shape o2 -> t_kids o1 = t_kids o2 -> o1 = o2.
Proof.
  intros HR H1 H2 Z1 Z2 A1 Es Ek. apply reachable_inv in HR.
  assert (A2 : is_agg (t_shape o2) = false) by congruence.
  pose proof (i_reg s HR o1 H1 Z1 A1) as G1. pose proof (i_reg s HR o2 H2 Z2 A2) as G2.
  unfold desc_key in *. rewrite Es, Ek in G1. rewrite G1 in G2. inversion G2 as [E].
  pose proof (In_find_obj _ _ (i_oids s HR) H1) as F1. pose proof (In_find_obj _ _ (i_oids s HR) H2) as F2.
  rewrite E in F1. congruence.
Qed.

Lemma addr_of_inj h c1 c2 o1 o2 :
  NoDup (map t_addr h) -> find_obj c1 h = Some o1 -> find_obj c2 h = Some o2 ->
  addr_of h c1 = addr_of h c2 -> c1 = c2.
Proof.
  intros Hnd F1 F2. unfold addr_of. rewrite F1, F2. intros E.
  apply find_obj_In in F1 as [In1 E1]. apply find_obj_In in F2 as [In2 E2]. subst.
  clear -Hnd In1 In2 E. induction h as [|x h IH]; cbn in *; [tauto|]. inversion Hnd; subst.
  destruct In1 as [->|In1], In2 as [->|In2]; auto.
  - exfalso. apply H1. rewrite E. apply in_map. auto.
  - exfalso. apply H1. rewrite <- E. apply in_map. auto.
Qed.

Lemma aw_inj h c1 c2 :
  NoDup (map t_addr h) -> alive_nz h c1 = true -> alive_nz h c2 = true -> aw h c1 = aw h c2 -> c1 = c2.
Proof.
  intros Hnd A1 A2 E. destruct (alive_nz_In _ _ A1) as (o1 & F1 & _). destruct (alive_nz_In _ _ A2) as (o2 & F2 & _).
  unfold aw in E. apply N2Z.inj in E. eapply addr_of_inj; eauto.
Qed.
Lemma map_aw_inj h k1 : forall k2,
  NoDup (map t_addr h) ->
  (forall c, In c k1 -> alive_nz h c = true) -> (forall c, In c k2 -> alive_nz h c = true) ->
  map (aw h) k1 = map (aw h) k2 -> k1 = k2.
Proof.
  induction k1 as [|c1 k1 IH]; destruct k2 as [|c2 k2]; cbn; intros Hnd A1 A2 E; try discriminate; auto.
  inversion E as [[E1 E2]]. f_equal; [eapply aw_inj; eauto|apply IH; auto].
Qed.

Lemma kids_of_key h k1 : forall k2,
  NoDup (map t_addr h) ->
  (forall c, In c k1 -> alive_nz h c = true) -> (forall c, In c k2 -> alive_nz h c = true) ->
  map (addr_of h) k1 = map (addr_of h) k2 -> k1 = k2.
Proof.
  intros k2 Hnd A1 A2 E. apply (map_aw_inj h); auto. unfold aw.
  rewrite <- !(map_map (addr_of h) Z.of_N). f_equal. exact E.
Qed.

Lemma len_word z : (-1 <= z < 9223372036854775808)%Z -> (z mod W64 = if z <? 0 then W64 - 1 else z)%Z.
Proof.
  intros H. destruct (Z.ltb_spec z 0).
  - assert (z = (-1)%Z) by lia. subst. reflexivity.
  - apply Z.mod_small. unfold W64. lia.
Qed.

(* The key words carry no kind tag, but the description can be read back off them: one word for a primitive
   (the address of a static table entry), void (another static address) or a pointer (a heap address), two
   for an array, three or more for a function.  Static words are negative (-1 for void, at most -2 for a
   primitive, see Model.static_word), heap addresses are not: hence the tests on one word.  The length word
   is the length mod 2^64, and the length is -1 or below 2^63. *)
Definition key_desc (k : key) : shape * list Z :=
  match k with
  | [w] => if (w <? -1)%Z then ((0%N, (- w - 2)%Z), [])
           else if (w =? -1)%Z then ((1%N, 0%Z), []) else ((2%N, 0%Z), [w])
  | [w; l] => ((3%N, if (l =? W64 - 1)%Z then (-1)%Z else l), [w])
  | r :: z :: _ :: args => ((4%N, z), r :: args)
  | [] => ((5%N, 0%Z), [])
  end.

(* per kind: what the argument checks of [New] leave, the words the regenerated recipe gives, and what is
   read back *)
Lemma key_desc_of h sh kids : wf_shape sh (length kids) = true -> is_agg sh = false ->
  key_desc (key_of h sh kids) = (sh, map (aw h) kids).
Proof.
  destruct sh as [k z]. unfold wf_shape, is_agg, key_of, recipe_of. cbn [fst snd].
  destruct (N.eqb_spec k 0) as [->|_]; [|destruct (N.eqb_spec k 1) as [->|_]; [|destruct (N.eqb_spec k 2) as [->|_];
    [|destruct (N.eqb_spec k 3) as [->|_]; [|destruct (N.eqb_spec k 4) as [->|_]; [|congruence]]]]];
    rewrite ?andb_true_iff, ?Z.leb_le, ?Z.ltb_lt, ?Z.eqb_eq; intros W _.
  - destruct kids; [|destruct W as [_ [=]]]. cbn. rewrite (proj2 (Z.ltb_lt _ _)) by lia. do 3 f_equal. lia.
  - destruct kids; [|destruct W as [_ [=]]]. destruct W as [-> _]. reflexivity.
  - destruct kids as [|c [|]]; try (destruct W as [_ D]; discriminate D). destruct W as [-> _]. cbn.
    pose proof (N2Z.is_nonneg (addr_of h c)). unfold aw.
    rewrite (proj2 (Z.ltb_ge _ _)), (proj2 (Z.eqb_neq _ _)) by lia. reflexivity.
  - destruct kids as [|c [|]]; try (destruct W as [_ D]; discriminate D). destruct W as [Hz _]. cbn.
    rewrite len_word by exact Hz. do 3 f_equal.
    destruct (Z.ltb_spec z 0); [cbn; lia | rewrite (proj2 (Z.eqb_neq _ _)) by (unfold W64; lia); reflexivity].
  - destruct kids as [|r args]; [destruct W as [_ [=]]|]. destruct W as [Hz _]. cbn.
    rewrite Z.mod_small, app_nil_r by lia. reflexivity.
Qed.

(* so the key words determine the description: live objects have different addresses *)
Lemma key_of_inj h sh1 k1 sh2 k2 :
  NoDup (map t_addr h) ->
  wf_shape sh1 (length k1) = true -> wf_shape sh2 (length k2) = true ->
  is_agg sh1 = false -> is_agg sh2 = false ->
  (forall c, In c k1 -> alive_nz h c = true) -> (forall c, In c k2 -> alive_nz h c = true) ->
  key_of h sh1 k1 = key_of h sh2 k2 -> sh1 = sh2 /\ k1 = k2.
Proof.
  intros Hnd W1 W2 A1 A2 L1 L2 E. apply (f_equal key_desc) in E. rewrite !key_desc_of in E by assumption.
  injection E as -> E. split; [reflexivity | eapply map_aw_inj; eauto].
Qed.

Lemma entry_sound s k i o : Inv s ->
  cache_get k (cache s) = Some i -> find_obj i (heap s) = Some o -> t_zombie o = false ->
  is_agg (t_shape o) = false /\ k = desc_key (heap s) o.
Proof. intros HI. apply (i_sound s HI). Qed.

(* what building a type returns: an object with EXACTLY the requested description (no false
   sharing through stale keys or reused addresses); the existing one if a live one exists,
   otherwise a brand-new object *)
Theorem new_returns s h sh kids0 a i :
  reachable s -> is_agg sh = false -> snd (step s (New h sh kids0 a)) = ORet i ->
  let s' := fst (step s (New h sh kids0 a)) in
  let kids := ref_kids (heap s) sh kids0 in
  exists o, find_obj i (heap s') = Some o /\ t_zombie o = false /\ t_shape o = sh /\ t_kids o = kids /\
            (In o (heap s) \/ (i = next_oid s /\
                               forall o0, In o0 (heap s) -> t_zombie o0 = false ->
                                          ~ (t_shape o0 = sh /\ t_kids o0 = kids))).
Proof.
  intros HR Hag H. pose proof (reachable_inv _ HR) as HI. pose proof (step_new s h sh kids0 a) as N. cbv zeta in N |- *.
  set (kids := ref_kids (heap s) sh kids0) in *.
  destruct (new_pre s h sh kids0 kids a) eqn:Hpre; [rewrite N in H; discriminate|].
  apply new_pre_false in Hpre as (Hk & Hocc & Hwf). fold kids in Hk, Hwf.
  destruct N as [(j & _ & Hg & Hal & E)|(ins & Hins & E)]; rewrite E in *; cbn [fst snd] in *; injection H as <-.
  - (* hit *)
    cbn [heap]. destruct (alive_nz_In _ _ Hal) as (o & Hf & Hz). exists o. split; auto. split; auto.
    destruct (entry_sound s _ _ _ HI Hg Hf Hz) as [Ha Ek]. pose proof (find_obj_In _ _ _ Hf) as [Hin _].
    (* the words of the requested description are the words of o's description: same description *)
    unfold desc_key in Ek.
    destruct (key_of_inj (heap s) sh kids (t_shape o) (t_kids o) (i_addrs s HI) Hwf (i_wf s HI o Hin) Hag Ha Hk
                         (i_kids s HI o Hin Hz) Ek) as [Es Em]; auto.
  - (* a new object: no live type has this description, or its key would lead to it *)
    destruct ins as [k|]; cbn [insertable] in Hins; [destruct Hins as (_ & -> & Hdead)|congruence].
    cbn [add_obj heap find_obj t_oid]. rewrite N.eqb_refl.
    eexists; split; [reflexivity|]; cbn; repeat split; auto; right; split; auto.
    intros o0 Ho0 Hz0 [Es Ek]. apply (no_such_type s sh kids HI Hdead o0 Ho0 Hz0); [congruence|].
    unfold desc_key. rewrite Es, Ek. reflexivity.
Qed.

(* the decayed arguments are alive whenever the given ones are: the third test of [New] is redundant
   on reachable states (an array type keeps its pointer type alive) *)
Lemma decay_alive s i : Inv s -> alive_nz (heap s) i = true -> alive_nz (heap s) (decay (heap s) i) = true.
Proof.
  intros HI Hal. unfold decay. destruct (alive_nz_In _ _ Hal) as (o & Hf & Hz). rewrite Hf.
  destruct (N.eqb (fst (t_shape o)) 3); auto.
  destruct (t_kids o) as [|c rest] eqn:Hk; cbn; auto.
  apply find_obj_In in Hf as [Hin _]. 
  apply (i_kids s HI o Hin Hz c). rewrite Hk. left; auto.
Qed.

Theorem ref_kids_alive s sh kids0 :
  reachable s -> forallb (alive_nz (heap s)) kids0 = true ->
  forallb (alive_nz (heap s)) (ref_kids (heap s) sh kids0) = true.
Proof.
  intros HR H. apply reachable_inv in HR. unfold ref_kids. destruct (N.eqb (fst sh) 4); auto.
  destruct kids0 as [|res args]; auto. cbn in *. apply andb_true_iff in H as [Hr Ha]. rewrite Hr. cbn.
  rewrite forallb_forall in *. intros c Hc. apply in_map_iff in Hc as [a0 [E Ha0]]. subst.
  apply decay_alive; auto.
Qed.

