(* C09 — literals: the hand model of cffi's literal scanning (Model.lit_value) against the C rules
   (Spec.c_literal); then the agreement theorem for expression trees. *)
From Coq Require Import ZArith NArith String List Bool Lia ZifyBool.
Import ListNotations.
From Cffi Require Import C09.Prim C09.Gen C09.Spec C09.Model C09.Proofs.
Open Scope Z_scope.

Lemma digit_not_ul : forall c,
  is_hex c = true \/ is_oct c = true \/ is_dec c = true \/ is_bin c = true -> is_ul c = false.
Proof. intros c. unfold is_hex, is_oct, is_dec, is_bin, is_ul, n_in. lia. Qed.
Lemma zero_not_ul : is_ul 48 = false.
Proof. reflexivity. Qed.

Lemma span_spec : forall p s d suf, span p s = (d, suf) -> s = d ++ suf /\ forallb p d = true.
Proof.
  induction s as [|c s IH]; intros d suf H; simpl in H.
  - inversion H; subst. auto.
  - destruct (p c) eqn:E.
    + destruct (span p s) as [a b] eqn:S. inversion H; subst.
      destruct (IH a suf eq_refl) as [-> F]. simpl. rewrite E, F. auto.
    + inversion H; subst. auto.
Qed.

Lemma long_part_ul : forall s z, long_part s = Some z -> forallb is_ul s = true.
Proof.
  intros s z. unfold long_part.
  destruct s as [|a [|b [|c r]]]; cbn [forallb]; try discriminate; [reflexivity| |];
    destruct (_ || _) eqn:E; try discriminate; intros _; unfold is_l, is_L, is_ul in *; lia.
Qed.

Lemma is_u_ul : forall c, is_u c = true -> is_ul c = true.
Proof. intros c. unfold is_u, is_ul. lia. Qed.

Lemma forallb_rev : forall (p : N -> bool) l, forallb p (rev l) = forallb p l.
Proof.
  induction l as [|a l IH]; [reflexivity|]. cbn [rev forallb].
  rewrite forallb_app, IH. cbn [forallb]. rewrite andb_true_r. apply andb_comm.
Qed.

Lemma parse_suffix_ul : forall s x, parse_suffix s = Some x -> forallb is_ul s = true.
Proof.
  intros s x. unfold parse_suffix. destruct s as [|c r]; [reflexivity|].
  destruct (is_u c) eqn:U.
  - destruct (long_part r) eqn:L; [|discriminate]. intros _.
    simpl. now rewrite (is_u_ul _ U), (long_part_ul _ _ L).
  - destruct (rev (c :: r)) as [|d r'] eqn:R; [discriminate|].
    destruct (is_u d) eqn:U2.
    + destruct (long_part (rev r')) eqn:L; [|discriminate]. intros _.
      rewrite <- forallb_rev, R. simpl. rewrite (is_u_ul _ U2).
      rewrite <- forallb_rev. now apply long_part_ul in L.
    + destruct (long_part (c :: r)) eqn:L; [|discriminate]. intros _. now apply long_part_ul in L.
Qed.

Lemma skip_while_app : forall (p : N -> bool) a x rest, forallb p a = true -> p x = false ->
  Model.skip_while p (a ++ x :: rest) = x :: rest.
Proof.
  induction a as [|c a IH]; intros x rest H Hx; simpl.
  - now rewrite Hx.
  - simpl in H. apply andb_true_iff in H. destruct H as [Hc Ha]. rewrite Hc. now apply IH.
Qed.

Lemma rstrip_ul_app : forall pre x suf, is_ul x = false -> forallb is_ul suf = true ->
  rstrip_ul ((pre ++ [x]) ++ suf) = pre ++ [x].
Proof.
  intros pre x suf Hx Hs. unfold rstrip_ul.
  rewrite rev_app_distr, rev_app_distr. simpl.
  rewrite skip_while_app by (rewrite ?forallb_rev; assumption).
  simpl. now rewrite rev_involutive.
Qed.

Lemma rstrip_digits : forall (p : N -> bool) pre d suf, (forall c, p c = true -> is_ul c = false) ->
  d <> [] -> forallb p d = true -> forallb is_ul suf = true -> rstrip_ul (pre ++ d ++ suf) = pre ++ d.
Proof.
  intros p pre d suf Hp Hne Hd Hs. destruct (exists_last Hne) as (d' & x & ->).
  rewrite forallb_app in Hd. apply andb_true_iff in Hd as [_ Hx]. cbn [forallb] in Hx. rewrite andb_true_r in Hx.
  rewrite app_assoc, (app_assoc pre). apply rstrip_ul_app; auto.
Qed.

Lemma finish_inv : forall dec base digits suf t v, finish dec base digits suf = Some (t, v) ->
  digits <> [] /\ parse_digits base 0 digits = Some v /\ forallb is_ul suf = true.
Proof.
  intros dec base digits suf t v. unfold finish. destruct digits as [|c ds]; [discriminate|].
  destruct (parse_digits base 0 (c :: ds)) as [v0|]; [|discriminate].
  destruct (parse_suffix suf) as [[uns ls]|] eqn:P; [|discriminate].
  destruct (first_fit v0 (candidates dec uns ls)); [|discriminate].
  intros H. inversion H; subst. split; [discriminate|]. split; [reflexivity|].
  eapply parse_suffix_ul; eauto.
Qed.

(* the four forms of a C integer literal once its suffix is stripped *)
Inductive lit_shape (v : Z) : text -> Prop :=
| ShHex : forall c d, is_x c = true -> d <> [] -> parse_digits 16 0 d = Some v -> lit_shape v (48%N :: c :: d)
| ShBin : forall c d, is_b c = true -> d <> [] -> parse_digits 2 0 d = Some v -> lit_shape v (48%N :: c :: d)
| ShOct : forall d, forallb is_oct d = true -> parse_digits 8 0 (48%N :: d) = Some v -> lit_shape v (48%N :: d)
| ShDec : forall c r, N.eqb c 48 = false -> is_dec c = true -> parse_digits 10 0 (c :: r) = Some v -> lit_shape v (c :: r).

Lemma number_literal_shape : forall s t v, number_literal s = Some (t, v) ->
  exists b suf, s = b ++ suf /\ rstrip_ul s = b /\ lit_shape v b.
Proof.
  intros s t v H. unfold number_literal in H. destruct s as [|c0 r0]; [discriminate|].
  destruct (N.eqb c0 48) eqn:Z0.
  - apply N.eqb_eq in Z0. subst c0. destruct r0 as [|c r].
    + apply finish_inv in H. destruct H as (_ & Hv & _).
      exists [48%N], []. repeat split. apply (ShOct v []); [reflexivity | exact Hv].
    + destruct (is_x c) eqn:X; [|destruct (is_b c) eqn:B].
      * destruct (span is_hex r) as [d suf] eqn:S. apply span_spec in S. destruct S as [-> Fd].
        apply finish_inv in H. destruct H as (Hne & Hv & Hs).
        exists (48%N :: c :: d), suf. split; [reflexivity|]. split; [|apply ShHex; assumption].
        apply (rstrip_digits is_hex [48%N; c]); auto using digit_not_ul.
      * destruct (span is_bin r) as [d suf] eqn:S. apply span_spec in S. destruct S as [-> Fd].
        apply finish_inv in H. destruct H as (Hne & Hv & Hs).
        exists (48%N :: c :: d), suf. split; [reflexivity|]. split; [|apply ShBin; assumption].
        apply (rstrip_digits is_bin [48%N; c]); auto using digit_not_ul.
      * destruct (span is_oct (c :: r)) as [d suf] eqn:S. apply span_spec in S. destruct S as [-> Fd].
        apply finish_inv in H. destruct H as (Hne & Hv & Hs).
        exists (48%N :: d), suf. split; [reflexivity|]. split; [|apply ShOct; assumption].
        apply (rstrip_digits is_oct [] (48%N :: d)); auto using digit_not_ul.
  - destruct (is_dec c0) eqn:D; [|discriminate]. cbn [span] in H. rewrite D in H.
    destruct (span is_dec r0) as [d suf] eqn:S. apply span_spec in S. destruct S as [-> Fd].
    apply finish_inv in H. destruct H as (Hne & Hv & Hs).
    exists (c0 :: d), suf. split; [reflexivity|]. split; [|apply ShDec; assumption].
    apply (rstrip_digits is_dec [] (c0 :: d)); auto using digit_not_ul. cbn [forallb]. now rewrite D.
Qed.

Lemma two_chars_length : forall (a b : N) (r : text), (1 <? Z.of_nat (length (a :: b :: r))) = true.
Proof. intros. simpl length. lia. Qed.

Lemma num_prefixed : forall c d v base, is_x c = true /\ base = 16 \/ is_b c = true /\ base = 2 ->
  d <> [] -> parse_digits base 0 d = Some v -> num_value (48%N :: c :: d) = Ok v.
Proof.
  intros c d v base Hc Hd Hv. unfold num_value. rewrite two_chars_length. destruct d as [|d0 ds]; [congruence|].
  assert (C : (c = 120 \/ c = 88)%N /\ base = 16 \/ (c = 98 \/ c = 66)%N /\ base = 2)
    by (unfold is_x, is_b in Hc; lia).
  destruct C as [[[-> | ->] ->] | [[-> | ->] ->]]; cbn; cbn in Hv; now rewrite Hv.
Qed.

Lemma oct_prefix_ok : forall p, is_oct p = true -> prefix_ok 8 p = false.
Proof. intros p. unfold is_oct, prefix_ok, lower, n_in. intros H. destruct (N.leb 65 p && N.leb p 90) eqn:E; lia. Qed.

Lemma num_oct : forall d v, forallb is_oct d = true -> parse_digits 8 0 (48%N :: d) = Some v ->
  num_value (48%N :: d) = Ok v.
Proof.
  intros d v Hd Hv. unfold num_value.
  change (starts0 (48%N :: d)) with true. cbv iota.
  assert (P : py_int 8 (48%N :: d) = Some v).
  { unfold py_int, strip_prefix. destruct d as [|p r]; [exact Hv|].
    simpl in Hd. apply andb_true_iff in Hd. destruct Hd as [Hp _].
    rewrite (oct_prefix_ok p Hp), andb_false_r. exact Hv. }
  now rewrite P.
Qed.

Lemma num_dec : forall c r v, N.eqb c 48 = false -> parse_digits 10 0 (c :: r) = Some v ->
  num_value (c :: r) = Ok v.
Proof.
  intros c r v Hc Hv. unfold num_value. unfold starts0. rewrite Hc.
  assert (P : py_int 10 (c :: r) = Some v).
  { unfold py_int, strip_prefix. destruct r as [|p r']; [exact Hv|]. rewrite Hc. exact Hv. }
  now rewrite P.
Qed.

Theorem number_literal_agree : forall s t v, number_literal s = Some (t, v) -> lit_value s = Ok v.
Proof.
  intros s t v H. destruct (number_literal_shape s t v H) as (b & suf & -> & Er & Sh).
  assert (Hd : exists c r, b = c :: r /\ n_in 48 57 c = true)
    by (destruct Sh as [c d|c d|d|c r _ D]; eexists _, _; (split; [reflexivity|]); try reflexivity; exact D).
  destruct Hd as (c & r & -> & Hc). unfold lit_value. cbn [app] in *. rewrite Hc, Er.
  destruct Sh.
  - apply (num_prefixed _ _ _ 16); auto.
  - apply (num_prefixed _ _ _ 2); auto.
  - apply num_oct; assumption.
  - apply num_dec; assumption.
Qed.

Fixpoint table_le (spec impl : list (N * Z)) : bool :=
  match spec with
  | [] => true
  | (k, v) :: rest => (match assoc k impl with Some v' => Z.eqb v v' | None => false end) && table_le rest impl
  end.
Lemma table_le_assoc : forall spec impl, table_le spec impl = true ->
  forall k v, assoc k spec = Some v -> assoc k impl = Some v.
Proof.
  induction spec as [|[k0 v0] rest IH]; intros impl H k v A; [discriminate|].
  simpl in H. apply andb_true_iff in H. destruct H as [H1 H2]. simpl in A.
  destruct (N.eqb k k0) eqn:E.
  - apply N.eqb_eq in E. subst. inversion A; subst.
    destruct (assoc k0 impl) as [v'|]; [|discriminate]. apply Z.eqb_eq in H1. now subst.
  - eauto.
Qed.

(* every simple escape of C11 6.4.4.4 is in cffi's table with the same value (the regenerated table) *)
Lemma escapes_covered : table_le c_escapes simple_escapes = true.
Proof. vm_compute. reflexivity. Qed.

Definition octal_singles : list (N * Z) :=
  [(48%N, 0); (49%N, 1); (50%N, 2); (51%N, 3); (52%N, 4); (53%N, 5); (54%N, 6); (55%N, 7)].
Lemma octal_singles_covered : table_le octal_singles simple_escapes = true.
Proof. vm_compute. reflexivity. Qed.
Lemma octal_single : forall e v, numeric_escape 8 is_oct 3 [e] = Some v -> assoc e octal_singles = Some v.
Proof.
  intros e v. unfold numeric_escape. simpl. rewrite andb_true_r.
  destruct (is_oct e) eqn:O; [|discriminate].
  assert (C : (e = 48 \/ e = 49 \/ e = 50 \/ e = 51 \/ e = 52 \/ e = 53 \/ e = 54 \/ e = 55)%N)
    by (unfold is_oct, n_in in O; lia).
  repeat (destruct C as [->|C]); try subst e; vm_compute; intros H; inversion H; reflexivity.
Qed.

Theorem char_literal_agree : forall s t v, char_literal s = Some (t, v) ->
  lit_value s = Ok v \/ (lit_value s = Err CDefError /\ (5 <= length s)%nat).
Proof.
  intros s t v H. unfold char_literal in H. destruct s as [|q body]; [discriminate|].
  destruct (rev body) as [|q2 rb] eqn:R; [discriminate|].
  destruct (N.eqb q 39 && N.eqb q2 39) eqn:Q; [|discriminate].
  apply andb_true_iff in Q. destruct Q as [Q1 Q2]. apply N.eqb_eq in Q1, Q2. subst q q2.
  assert (B : body = rev rb ++ [39%N]).
  { rewrite <- (rev_involutive body), R. reflexivity. }
  destruct (char_body_value (rev rb)) as [v0|] eqn:V; [|discriminate]. inversion H; subst t v0. clear H.
  set (b := rev rb) in *. subst body.
  assert (L : lit_value (39%N :: b ++ [39%N]) = char_value (39%N :: b ++ [39%N])).
  { unfold lit_value. change (n_in 48 57 39) with false. cbv iota.
    unfold last_is. change (39%N :: b ++ [39%N]) with ((39%N :: b) ++ [39%N]). rewrite rev_unit. reflexivity. }
  rewrite L. unfold char_body_value in V.
  destruct b as [|c1 [|c2 [|c3 rest]]].
  - discriminate.
  - left. simpl.
    destruct (N.eqb c1 39 || N.eqb c1 92 || N.eqb c1 10 || negb (N.ltb c1 128)) eqn:E; [discriminate|].
    inversion V; subst. assert (N.eqb c1 92 = false) as -> by lia. reflexivity.
  - destruct (N.eqb c1 92) eqn:E1; [|discriminate].
    destruct (N.eqb c2 120) eqn:E2; [discriminate|].
    change (char_value (39%N :: [c1; c2] ++ [39%N])) with
      (if N.eqb c1 92 then match assoc c2 simple_escapes with Some v0 => Ok v0 | None => Err CDefError end
       else Err CDefError).
    rewrite E1.
    destruct (assoc c2 c_escapes) as [v1|] eqn:A.
    + inversion V; subst. rewrite (table_le_assoc _ _ escapes_covered _ _ A). auto.
    + apply octal_single in V. rewrite (table_le_assoc _ _ octal_singles_covered _ _ V). auto.
  - right. split; [destruct rest; reflexivity|]. simpl. rewrite app_length. simpl. lia.
Qed.

Theorem literal_agree_strong : forall s t v, c_literal s = Some (t, v) ->
  lit_value s = Ok v \/ (lit_value s = Err CDefError /\ (5 <= length s)%nat /\ hd 0%N s = 39%N).
Proof.
  intros s t v H. unfold c_literal in H. destruct s as [|q r]; [discriminate|].
  destruct (N.eqb q 39) eqn:Q.
  - apply N.eqb_eq in Q. subst q. destruct (char_literal_agree _ _ _ H) as [A|[A B]]; auto.
  - left. eapply number_literal_agree; eauto.
Qed.

Theorem literal_agree : forall s t v, c_literal s = Some (t, v) ->
  lit_value s = Ok v \/ lit_value s = Err CDefError.
Proof. intros s t v H. destruct (literal_agree_strong _ _ _ H) as [A|[A _]]; auto. Qed.

(* the literals cffi supports: every number, and character constants of at most one (escaped) character *)
Definition supported_literal (s : text) : Prop := hd 0%N s = 39%N -> (length s <= 4)%nat.

Fixpoint supported (e : expr) : Prop :=
  match e with
  | Const s => supported_literal s
  | Unary _ e1 => supported e1
  | Binary _ l r => supported l /\ supported r
  | Id _ | Other => True
  end.

Lemma agree_both : forall cenv env e t v, env_agree cenv env -> c_eval cenv e = Some (t, v, true) ->
  py_eval env e = Ok v \/ (py_eval env e = Err CDefError /\ ~ supported e).
Proof.
  intros cenv env e. induction e as [s|n|op e1 IH|op l IHl r IHr|]; intros t v EA H; simpl in H; try discriminate.
  - destruct (c_literal s) as [[t0 v0]|] eqn:L; [|discriminate]. inversion H; subst.
    destruct (literal_agree_strong _ _ _ L) as [A|(A & Hl & Q)]; [left; exact A | right].
    split; [exact A | intros S; specialize (S Q); lia].
  - destruct (lookup n cenv) as [[t0 v0]|] eqn:L; [|discriminate]. inversion H; subst.
    simpl. rewrite (EA _ _ _ L). auto.
  - destruct (c_eval cenv e1) as [[[t1 v1] f1]|] eqn:E1; [|discriminate].
    assert (G : f1 = true /\ exists f, unop op = Some f /\ f v1 = Ok v).
    { destruct (String.eqb_spec op "+") as [->|_].
      - inversion H; subst. split; [reflexivity|]. exists (fun v => Ok v). split; [exact unop_plus | reflexivity].
      - destruct (String.eqb_spec op "-") as [->|_]; [|discriminate].
        apply result_exact in H. destruct H as [-> ->]. split; [reflexivity | apply unop_minus]. }
    destruct G as (-> & f & Hf & Hv). simpl. rewrite Hf.
    destruct (IH _ _ EA eq_refl) as [-> | [-> N]]; auto.
  - destruct (c_eval cenv l) as [[[ta a] fa]|] eqn:El; [|discriminate].
    destruct (c_eval cenv r) as [[[tb b] fb]|] eqn:Er; [|discriminate].
    apply binary_exact in H. destruct H as (-> & -> & B). simpl.
    destruct (IHl _ _ EA eq_refl) as [-> | [-> N]]; [|right; tauto].
    destruct (IHr _ _ EA eq_refl) as [-> | [-> N]]; [|right; tauto]. simpl. rewrite B. auto.
Qed.
