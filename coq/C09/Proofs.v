(* C09 — proofs about the regenerated evaluator (C09/Gen.v) against the C semantics (C09/Spec.v):
   operators. The literal part is in C09/Proofs2.v. *)
From Coq Require Import ZArith NArith String List Bool Lia ZifyBool.
Import ListNotations.
From Cffi Require Import C09.Prim C09.Gen C09.Spec C09.Model.
Open Scope Z_scope.

(* lia and nia below reason about / mod quot rem through their Euclidean equations.  `::=` is global, so the last
   sentence of the file sets the hook back: the files that require this one do not need it *)
Ltac Zify.zify_post_hook ::= Z.to_euclidean_division_equations.

Theorem c_div_quot : forall a b, b <> 0 -> c_div a b = Ok (Z.quot a b).
Proof.
  intros a b Hb. unfold c_div, bind2, bind, and_then, py_floordiv, py_mod.
  destruct (Z.eqb_spec b 0) as [E|_]; [contradiction|].
  destruct (Z.ltb_spec a 0), (Z.ltb_spec b 0), (Z.eqb_spec (a mod b) 0); simpl; f_equal; nia.
Qed.

Theorem c_rem : forall a b, b <> 0 ->
  binop "%" a b = Some (Ok (Z.rem a b)).
Proof.
  intros a b Hb. unfold binop. simpl. unfold bind2, bind. rewrite (c_div_quot a b Hb).
  do 2 f_equal. pose proof (Z.quot_rem' a b). lia.
Qed.

Lemma py_rshift_spec : forall a b, 0 <= b -> py_rshift a b = Ok (Z.shiftr a b).
Proof.
  intros a b Hb. unfold py_rshift.
  destruct (Z.ltb_spec b 0); [lia|].
  destruct (Z.ltb_spec (Z.log2 (Z.abs a)) b) as [L|L]; [|reflexivity].
  f_equal. rewrite Z.shiftr_div_pow2 by assumption.
  assert (P : Z.abs a < 2 ^ b).
  { destruct (Z.eq_dec a 0) as [->|Ha]; [simpl; apply Z.pow_pos_nonneg; lia|].
    apply Z.log2_lt_pow2; lia. }
  destruct (Z.ltb_spec a 0).
  - apply Z.div_unique with (r := a + 2 ^ b); lia.
  - symmetry. apply Z.div_small. lia.
Qed.

Lemma py_lshift_spec : forall a b, 0 <= b -> py_lshift a b = Ok (a * 2 ^ b).
Proof.
  intros a b Hb. unfold py_lshift. destruct (Z.ltb_spec b 0); [lia|].
  now rewrite Z.shiftl_mul_pow2.
Qed.

Lemma result_exact : forall t ex f t' v, result t ex f = Some (t', v, true) -> v = ex /\ f = true.
Proof.
  intros t ex f t' v. unfold result. destruct (sgn t).
  - destruct (fits t ex); [|discriminate]. intros H. inversion H; subst. auto.
  - intros H. injection H as H1 H2 H3. apply andb_true_iff in H3. destruct H3 as [Hf He].
    apply Z.eqb_eq in He. subst. auto.
Qed.

Lemma c_arith_exact : forall o ta a tb b f t v,
  c_arith o ta a tb b f = Some (t, v, true) ->
  f = true /\ v = exact_op o a b /\ ((o = Div \/ o = Rem) -> b <> 0).
Proof.
  intros o ta a tb b f t v. unfold c_arith.
  set (T := common ta tb). set (a' := conv T a). set (b' := conv T b).
  intros H.
  assert (G : exists ex, result T ex (f && (a' =? a) && (b' =? b)) = Some (t, v, true)
                         /\ ex = exact_op o a' b' /\ ((o = Div \/ o = Rem) -> b' <> 0)).
  { destruct o; try (eexists; split; [exact H|split; [reflexivity|intros [?|?]; discriminate]]).
    - destruct (Z.eqb_spec b' 0); [discriminate|].
      destruct (sgn T && (a' =? tmin T) && (b' =? -1)); [discriminate|]. eauto.
    - destruct (Z.eqb_spec b' 0); [discriminate|].
      destruct (sgn T && (a' =? tmin T) && (b' =? -1)); [discriminate|]. eauto. }
  destruct G as (ex & R & -> & Hb). apply result_exact in R. destruct R as [-> F].
  apply andb_true_iff in F. destruct F as [F Eb]. apply andb_true_iff in F. destruct F as [F Ea].
  apply Z.eqb_eq in Ea, Eb. rewrite Ea, Eb in *. auto.
Qed.

Lemma bits_le_64 : forall t, bits t <= 64.
Proof. intros t. unfold bits. destruct (rk t); lia. Qed.

Lemma c_shift_exact : forall left ta a b f t v,
  c_shift left ta a b f = Some (t, v, true) ->
  f = true /\ 0 <= b < 64 /\ v = (if left then a * 2 ^ b else Z.shiftr a b).
Proof.
  intros left ta a b f t v. unfold c_shift. pose proof (bits_le_64 ta) as B64.
  destruct (Z.ltb_spec b 0) as [Hlt|Hge]; simpl; [discriminate|].
  destruct (Z.leb_spec (bits ta) b); [discriminate|].
  destruct left.
  - destruct (sgn ta && (a <? 0)); [discriminate|]. intros R. apply result_exact in R.
    destruct R as [-> ->]. repeat split; lia.
  - intros R. inversion R; subst. repeat split; lia.
Qed.

Lemma binop_arith : forall op o a b, arith_of op = Some o -> ((o = Div \/ o = Rem) -> b <> 0) ->
  binop op a b = Some (Ok (exact_op o a b)).
Proof.
  intros op o a b H Hb. unfold arith_of in H.
  repeat match type of H with
  | (if String.eqb op ?s then _ else _) = _ =>
      destruct (String.eqb_spec op s) as [->|_];
      [inversion H; subst; clear H;
       try reflexivity;
       try (unfold binop; simpl; unfold bind2, bind; rewrite c_div_quot by auto; reflexivity);
       try (apply c_rem; auto)|]
  end.
  discriminate.
Qed.

Lemma binop_shift : forall a b, 0 <= b <= 1024 ->
  binop "<<" a b = Some (Ok (a * 2 ^ b)) /\ binop ">>" a b = Some (Ok (Z.shiftr a b)).
Proof.
  intros a b Hb. unfold binop. simpl.
  assert (G : negb ((0 <=? b) && (b <=? 1024)) = false) by lia.
  rewrite G. unfold bind2, bind.
  rewrite py_lshift_spec, py_rshift_spec by lia. auto.
Qed.

(* the Binary case of Spec.c_eval on evaluated operands: an exact result needs exact operands and is what binop computes *)
Lemma binary_exact : forall op ta a fa tb b fb t v,
  match arith_of op with
  | Some o => c_arith o ta a tb b (fa && fb)
  | None => if String.eqb op "<<" then c_shift true ta a b (fa && fb)
            else if String.eqb op ">>" then c_shift false ta a b (fa && fb) else None
  end = Some (t, v, true) ->
  fa = true /\ fb = true /\ binop op a b = Some (Ok v).
Proof.
  intros op ta a fa tb b fb t v H.
  assert (G : (fa && fb = true) /\ binop op a b = Some (Ok v)).
  { destruct (arith_of op) as [o|] eqn:A.
    - apply c_arith_exact in H. destruct H as (F & -> & Hb). split; [assumption|]. now apply binop_arith.
    - destruct (String.eqb_spec op "<<") as [->|_].
      + apply c_shift_exact in H. destruct H as (F & Hb & ->). split; [assumption|]. apply binop_shift; lia.
      + destruct (String.eqb_spec op ">>") as [->|_]; [|discriminate].
        apply c_shift_exact in H. destruct H as (F & Hb & ->). split; [assumption|]. apply binop_shift; lia. }
  destruct G as [F B]. apply andb_true_iff in F. tauto.
Qed.

Lemma unop_plus : unop "+" = Some (fun v => Ok v).
Proof. reflexivity. Qed.
Lemma unop_minus : forall v, exists f, unop "-" = Some f /\ f v = Ok (- v).
Proof. intros. eexists. split; reflexivity. Qed.

Ltac Zify.zify_post_hook ::= idtac.
