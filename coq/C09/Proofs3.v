(* C09 — the '#define NAME literal' / 'static const int NAME = [-]literal;' path: Parser._add_integer_constant
   (cparser.py:482; Model.add_integer_constant) gives every C integer literal, and its negation, the value C gives it
   (Spec.number_literal, C11 6.4.4.1 + gcc's 0b), except the binary form 0b..., which int(s, 0) is never offered
   unchanged (the octal fix-up turns "0b1" into "0ob1": ValueError; _r_int_literal does not accept it).
   Second subject, at the end of the file: the C types an array length passes through on its way to new_array_type
   (Gen.length_path) are wide enough to leave it unchanged. *)
From Coq Require Import ZArith NArith String List Bool Lia ZifyBool.
Import ListNotations.
From Cffi Require Import C09.Prim C09.Gen C09.Spec C09.Model C09.Proofs C09.Proofs2.
Open Scope Z_scope.
Local Open Scope list_scope.

Lemma digit_val_lower : forall c, digit_val (lower c) = digit_val c.
Proof.
  intros c. unfold lower. destruct (n_in 65 90 c) eqn:U; [|reflexivity]. unfold digit_val.
  replace (n_in 48 57 (c + 32)) with false by (unfold n_in in *; lia).
  replace (n_in 97 122 (c + 32)) with true by (unfold n_in in *; lia).
  replace (n_in 48 57 c) with false by (unfold n_in in *; lia).
  replace (n_in 97 122 c) with false by (unfold n_in in *; lia).
  rewrite U. f_equal. lia.
Qed.

Lemma parse_digits_lower : forall base d acc, parse_digits base acc (map lower d) = parse_digits base acc d.
Proof.
  induction d as [|c d IH]; intros acc; [reflexivity|]. cbn [map parse_digits]. rewrite digit_val_lower.
  destruct (digit_val c) as [x|]; [|reflexivity]. destruct (x <? base); [apply IH|reflexivity].
Qed.

Definition lu (c : N) : bool := N.eqb c 117 || N.eqb c 108.
Lemma lu_lower : forall c, lu (lower c) = is_ul c.
Proof. intros c. unfold lu, is_ul, lower, n_in. destruct (N.leb 65 c && N.leb c 90) eqn:U; lia. Qed.
Lemma skip_map_lower : forall l, skip_while lu (map lower l) = map lower (skip_while is_ul l).
Proof.
  induction l as [|c l IH]; [reflexivity|]. simpl. rewrite lu_lower. destruct (is_ul c); [assumption|reflexivity].
Qed.
Lemma rstrip_lower : forall s, rstrip_ul_lower s = map lower (rstrip_ul s).
Proof.
  intros s. unfold rstrip_ul_lower, rstrip_ul. change (fun c : N => (N.eqb c 117 || N.eqb c 108)%bool) with lu.
  now rewrite <- map_rev, skip_map_lower, map_rev.
Qed.
Lemma skip_while_snoc : forall (p : N -> bool) l c, p c = false -> skip_while p (l ++ [c]) = skip_while p l ++ [c].
Proof.
  induction l as [|a l IH]; intros c H; simpl; [now rewrite H|].
  destruct (p a); [now apply IH|reflexivity].
Qed.
Lemma rstrip_minus : forall r, rstrip_ul (45%N :: r) = 45%N :: rstrip_ul r.
Proof.
  intros r. unfold rstrip_ul. simpl rev. rewrite skip_while_snoc by reflexivity. now rewrite rev_unit.
Qed.

Definition binary_form (s : text) : bool := match s with _ :: c :: _ => is_b c | _ => false end.

Definition oct_fixup (s1 : text) : text :=
  if starts0 s1 && negb (text_eqb s1 [48%N]) && negb (starts_0x s1) then 48%N :: 111%N :: tl s1 else s1.
Definition convert (neg : bool) (s1 : text) : res Z :=
  match py_int0 (oct_fixup s1) with
  | Some v => Ok (if neg then - v else v)
  | None => Err ValueError
  end.
Lemma add_integer_constant_unfold : forall s,
  add_integer_constant s =
  let s1 := rstrip_ul_lower s in
  let neg := match s1 with c :: _ => N.eqb c 45 | [] => false end in
  convert neg (if neg then tl s1 else s1).
Proof. reflexivity. Qed.

Lemma lower_dec : forall c, is_dec c = true -> lower c = c.
Proof. intros c. unfold is_dec, lower, n_in. intros H. destruct (N.leb 65 c && N.leb c 90) eqn:U; [lia|reflexivity]. Qed.

Lemma shape_converts : forall v b, lit_shape v b -> binary_form b = false ->
  py_int0 (oct_fixup (map lower b)) = Some v /\
  match map lower b with c :: _ => N.eqb c 45 | [] => false end = false.
Proof.
  intros v b H NB. destruct H as [c d X Hne Hv | c d B | d Fo Hv | c r C0 D Hv].
  - assert (L : lower c = 120%N) by (unfold is_x in X; assert (C : c = 120%N \/ c = 88%N) by lia; destruct C; subst; reflexivity).
    destruct d as [|d0 ds]; [congruence|]. cbn [map]. change (lower 48) with 48%N. rewrite L. split; [|reflexivity].
    change (py_int0 (oct_fixup (48%N :: 120%N :: lower d0 :: map lower ds)))
      with (parse_digits 16 0 (map lower (d0 :: ds))).
    rewrite parse_digits_lower. exact Hv.
  - cbn [binary_form] in NB. congruence.
  - destruct d as [|d0 ds].
    + split; [|reflexivity]. cbn in Hv. inversion Hv. reflexivity.
    + cbn [forallb] in Fo. apply andb_true_iff in Fo. destruct Fo as [F0 Fs].
      assert (L : lower d0 = d0) by (apply lower_dec; unfold is_oct, is_dec, n_in in *; lia).
      assert (NX : N.eqb d0 120 = false) by (unfold is_oct, n_in in F0; lia).
      cbn [map]. change (lower 48) with 48%N. rewrite L. split; [|reflexivity].
      assert (F : oct_fixup (48%N :: d0 :: map lower ds) = 48%N :: 111%N :: d0 :: map lower ds).
      { unfold oct_fixup, starts0, starts_0x, text_eqb. cbn [length Nat.eqb andb negb tl]. rewrite NX.
        change (N.eqb 48 48) with true. reflexivity. }
      rewrite F.
      change (py_int0 (48%N :: 111%N :: d0 :: map lower ds)) with (parse_digits 8 0 (d0 :: map lower ds)).
      rewrite <- L. change (lower d0 :: map lower ds) with (map lower (d0 :: ds)). rewrite parse_digits_lower.
      exact Hv.
  - assert (L : lower c = c) by (apply lower_dec; exact D).
    cbn [map]. rewrite L. split.
    + assert (F : oct_fixup (c :: map lower r) = c :: map lower r).
      { unfold oct_fixup, starts0. rewrite C0. reflexivity. }
      rewrite F. unfold py_int0. rewrite C0. rewrite <- L. change (lower c :: map lower r) with (map lower (c :: r)).
      rewrite parse_digits_lower. exact Hv.
    + unfold is_dec, n_in in D. lia.
Qed.

(* what _add_integer_constant makes of a text whose suffix-free part has one of the four shapes: the value,
   and its negation after '-' *)
Theorem shape_value : forall s v, lit_shape v (rstrip_ul s) -> binary_form (rstrip_ul s) = false ->
  add_integer_constant s = Ok v /\ add_integer_constant (45%N :: s) = Ok (- v).
Proof.
  intros s v Sh NB. destruct (shape_converts v _ Sh NB) as [Hc Hh]. rewrite !add_integer_constant_unfold. cbv zeta.
  rewrite !rstrip_lower, rstrip_minus. cbn [map]. rewrite Hh.
  change (N.eqb (lower 45) 45) with true. cbv iota. cbn [tl]. unfold convert. rewrite Hc. auto.
Qed.

(* The array length on its way to new_array_type: Gen.length_path (regenerated from realize_c_type.c / _cffi_backend.c / parse_c_type.h by tools/props/c09_lenpath.py)
   lists the C type of every cast, variable and parameter an out-of-line array length passes through.  conv_to is C's
   conversion to an integer type of that signedness and width (gcc: modulo 2^w, two's complement). *)
Definition conv_to (sg : bool) (w v : Z) : Z :=
  if sg then (v + 2 ^ (w - 1)) mod 2 ^ w - 2 ^ (w - 1) else v mod 2 ^ w.
Definition through (path : list (string * (bool * Z))) (v : Z) : Z :=
  fold_left (fun x h => conv_to (fst (snd h)) (snd (snd h)) x) path v.
Definition all_wide (path : list (string * (bool * Z))) : bool := forallb (fun h => 64 <=? snd (snd h)) path.

Lemma conv_wide : forall sg w v, 64 <= w -> 0 <= v < 2 ^ 63 -> conv_to sg w v = v.
Proof.
  intros sg w v Hw Hv. unfold conv_to.
  assert (P : 2 ^ 63 <= 2 ^ (w - 1)) by (apply Z.pow_le_mono_r; lia).
  assert (Q : 2 ^ w = 2 * 2 ^ (w - 1)) by (rewrite <- Z.pow_succ_r by lia; f_equal; lia).
  destruct sg.
  - rewrite Z.mod_small by lia. lia.
  - apply Z.mod_small. lia.
Qed.

Lemma through_wide : forall path v, all_wide path = true -> 0 <= v < 2 ^ 63 -> through path v = v.
Proof.
  induction path as [|h path IH]; intros v H Hv; [reflexivity|].
  cbn [all_wide forallb] in H. apply andb_true_iff in H. destruct H as [Hh Hp].
  unfold through. cbn [fold_left]. rewrite conv_wide by (try apply Z.leb_le; assumption).
  apply IH; assumption.
Qed.
