(* C26 — whose result is returned: RInv, an invariant of EVERY step program (no `modelled` needed), and the
   history ghost reachH; then the two implementations from the state their constructor creates (C26/Impl.v):
   the base case impl_init_is_init computes the regenerated facts of C26/Gen.v. *)
From Coq Require Import Arith List Bool ZArith Lia.
Import ListNotations.
From Cffi Require Import C26.Model C26.Gen C26.Proofs C26.Proofs2 C26.Impl.

(* every value a thread can return (its result, a result tuple it read, its return value) and the
   cached value satisfy R *)
Definition TR (R : Z -> Prop) (me : tl) : Prop :=
  (forall r, res me = Some r -> R r) /\
  (forall r, xv me = XDone r -> R r) /\
  (forall r, pc me = Ret r -> R r).

Definition RInv (R : Z -> Prop) (s : state) : Prop :=
  (forall r, cache s = Done r -> R r) /\ forall t, TR R (th s t).

Lemma RInv_init (R : Z -> Prop) : RInv R init.
Proof. split; [|intros t; repeat split]; cbn; intros; discriminate. Qed.

Lemma RInv_upd (R : Z -> Prop) s t me' c' ow nl nd :
  (forall r, c' = Done r -> R r) -> TR R me' -> (forall t0, TR R (th s t0)) ->
  RInv R (mkSt (setth s t me') c' ow nl nd).
Proof.
  intros Hc Hme Hall. split; cbn [cache th]; auto.
  intros t0. unfold setth. destruct (Nat.eqb t0 t); auto.
Qed.

Lemma xof_done c r : xof c = XDone r -> c = Done r.
Proof. destruct c; cbn; congruence. Qed.

Lemma stepR_RInv (R : Z -> Prop) p s t s' : RInv R s -> stepR R p s t s' -> RInv R s'.
Proof.
  intros HI (o & H & HR).
  assert (Hf : forall r, in_f s t -> o = FRet r -> R r) by (intros r I E; apply HR; split; assumption).
  step_outcomes H; destruct HI as [Hc Hall]; destruct (Hall t) as (Hres & Hx & Hpc); unfold loc, goto;
    (apply RInv_upd; [ | unfold TR; cbn [pc xv res held fraised nstart]; repeat split | assumption ]);
    intros x K;
    (* K says where the value x sits in the new state: nowhere (a different constructor); where it sat
       before; in a field copied from the thread's own res / xv; in the tuple just read from the
       cache; or it is what f has just returned *)
    first [ discriminate K | eauto; fail | injection K as <-; eauto; fail
          | apply xof_done in K; eauto; fail | injection K as <-; eapply Hf; [eexists|]; eauto ].
Qed.

Lemma reachR_RInv (R : Z -> Prop) p s : reachR R p s -> RInv R s.
Proof. induction 1; [apply RInv_init | eapply stepR_RInv; eauto]. Qed.

Lemma reachR_reach (R : Z -> Prop) p s : reachR R p s -> reach p s.
Proof.
  induction 1 as [|s t s' _ IH (o & H & _)]; [constructor|]. eapply r_step; eauto. exists o; exact H.
Qed.

Lemma hist_upd_incl s t o h r : In r h -> In r (hist_upd s t o h).
Proof. unfold hist_upd. destruct (pc (th s t)); auto. destruct o; auto. intros; right; auto. Qed.

Lemma reachH_reachR p s h : reachH p s h -> forall R : Z -> Prop, (forall r, In r h -> R r) -> reachR R p s.
Proof.
  induction 1 as [|s h t o s' _ IH Hs]; intros R HR; [constructor|].
  eapply rr_step.
  - apply IH. intros r Hr. apply HR. apply hist_upd_incl; auto.
  - exists o. split; [exact Hs|]. intros r Hf. destruct Hf as [[n E] ->]. apply HR. unfold hist_upd. rewrite E. left; auto.
Qed.

Lemma reachH_reach p s h : reachH p s h -> reach p s.
Proof. induction 1; [constructor|]. eapply r_step; eauto. eexists; eauto. Qed.

Lemma reachH_len p s h : reachH p s h -> length h = ndone s.
Proof.
  induction 1 as [|s h t o s' Hr IH Hs]; [reflexivity|].
  pose proof (inf_at_call p s (reachH_reach _ _ _ Hr) t) as HF.
  unfold hist_upd. unfold step_fn in Hs.
  destruct (pc (th s t)) as [n|n| | |] eqn:Epc; try discriminate.
  - repeat match type of Hs with
           | match ?x with _ => _ end = Some _ => destruct x eqn:?
           end; try discriminate; inversion Hs; subst; cbn [ndone loc]; exact IH.
  - destruct (HF n eq_refl) as (ok & ex & En). rewrite En in Hs.
    destruct o; inversion Hs; subst; cbn [ndone loc length]; congruence.
Qed.

(* the base case: the constructor leaves no entry for any tag and new locks are unlocked.
   `reflexivity` computes the regenerated booleans of C26/Gen.v: a false one breaks this proof. *)
Lemma impl_init_is_init i : impl_init i = init.
Proof. destruct i; reflexivity. Qed.

(* the regenerated C step program is the one the invariant was proved for, and the C function has
   no `return` between PyThread_acquire_lock and PyThread_release_lock *)
Lemma c_prog_gen_ok : c_prog_gen = c_prog /\ gen_c_no_return_while_locked = true.
Proof. split; reflexivity. Qed.

Lemma prog_of_modelled i : modelled (prog_of i).
Proof. destruct i; [left; reflexivity | right; exact (proj1 c_prog_gen_ok)]. Qed.

Lemma ireach_reach i s : ireach i s -> reach (prog_of i) s.
Proof. induction 1; [rewrite impl_init_is_init; constructor | eapply r_step; eauto]. Qed.

Lemma imreach_mreach i S : imreach i S -> mreach (prog_of i) S.
Proof.
  induction 1.
  - replace (iminit i) with minit; [constructor|].
    unfold iminit, minit. rewrite impl_init_is_init. reflexivity.
  - eapply mr_step; eauto.
Qed.

