(* C26 — termination without a fairness hypothesis.
   For n callers (threads 0..n-1), the sum of the ranks of their program counters strictly decreases
   with EVERY step of any of them, so every run has at most n * (2 * length p + 2) steps, whatever
   the schedule; and a state in which none of the n callers can step (a maximal run's last state)
   has all n calls finished.  The only step that is not the implementation's own is "f returns or
   raises" (the InF step): a call that waits, waits for a caller that is enabled. *)
From Coq Require Import Arith List Bool ZArith Lia.
Import ListNotations.
From Cffi Require Import C26.Model C26.Gen C26.Proofs.

Inductive reachN (p : prog) (n : nat) : state -> Prop :=
| rn_init : reachN p n init
| rn_step : forall s t s', reachN p n s -> t < n -> step p s t s' -> reachN p n s'.

Inductive stepsN (p : prog) (n : nat) : state -> nat -> state -> Prop :=
| sn_nil : forall s, stepsN p n s 0 s
| sn_cons : forall s t s' k s'', t < n -> step p s t s' -> stepsN p n s' k s'' -> stepsN p n s (S k) s''.

Fixpoint total_rank (p : prog) (n : nat) (s : state) : nat :=
  match n with
  | O => 0
  | S k => total_rank p k s + rank p (pc (th s k))
  end.

Lemma reachN_reach p n s : reachN p n s -> reach p s.
Proof. induction 1; [constructor | eapply r_step; eauto]. Qed.

Lemma stepsN_reachN p n : forall s k s', stepsN p n s k s' -> reachN p n s -> reachN p n s'.
Proof. induction 1; intros; auto. apply IHstepsN. eapply rn_step; eauto. Qed.

Lemma total_rank_ext p n s s' :
  (forall t, t < n -> th s' t = th s t) -> total_rank p n s' = total_rank p n s.
Proof.
  induction n as [|k IH]; intros H; cbn; auto.
  rewrite IH by (intros; apply H; lia). rewrite H by lia. reflexivity.
Qed.

Lemma total_rank_decreases_fwd p n s t s' :
  forward p = true -> t < n -> step p s t s' -> total_rank p n s' < total_rank p n s.
Proof.
  intros Hf. induction n as [|k IH]; intros Hlt Hs; [lia|]. cbn.
  destruct (Nat.eq_dec t k) as [->|Hne].
  - rewrite (total_rank_ext p k s s').
    + pose proof (rank_decreases p s k s' Hf Hs). lia.
    + intros t0 H0. eapply step_frame; eauto. lia.
  - assert (Hk : t < k) by lia. specialize (IH Hk Hs).
    rewrite (step_frame p s t s' k Hs) by lia. lia.
Qed.

Lemma total_rank_init p n : total_rank p n init = n * (2 * length p + 2).
Proof. induction n as [|k IH]; cbn [total_rank]; [reflexivity|]. rewrite IH. cbn [init th tl0 pc rank]. lia. Qed.

Lemma stepsN_rank p n : forward p = true -> forall s k s', stepsN p n s k s' ->
  k + total_rank p n s' <= total_rank p n s.
Proof.
  intros Hf. induction 1; [lia|].
  pose proof (total_rank_decreases_fwd p n s t s' Hf H H0). lia.
Qed.

Lemma reachN_idle p n s : reachN p n s -> forall t, n <= t -> th s t = tl0.
Proof.
  induction 1; intros t0 Hle; [reflexivity|].
  rewrite (step_frame p s t s' t0 H1) by lia. auto.
Qed.

Lemma finished_outcome s t : Inv s -> ~ unfinished s t ->
  (exists r, returned s t r /\ cache s = Done r) \/ (pc (th s t) = Raised FExn /\ own_f_raised s t).
Proof.
  intros HI Hu.
  unfold unfinished in Hu. destruct (pc (th s t)) as [k|k|r|e|] eqn:E; try (exfalso; apply Hu; exact I).
  - left. exists r. split; [exact E|]. eapply returned_cache; eauto.
  - right. destruct (raised_own s t e HI E) as [-> H]. auto.
  - exfalso. eapply never_stuck; eauto.
Qed.

Lemma reachN_mono p n m s : n <= m -> reachN p n s -> reachN p m s.
Proof. intros L H; induction H; [constructor|]. eapply rn_step; eauto. lia. Qed.

