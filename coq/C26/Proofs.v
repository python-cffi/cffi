(* C26 — proofs: an inductive invariant [Inv] of the init_once transition system, for any number of threads and
   any schedule.  [pcinv] is a table indexed by the program points 0..14 of c_prog (C26/Model.v), looked up with
   [at_pc]; inv_keep and the update lemmas after it (inv_loc .. inv_store) are the ways a step changes the state,
   and inv_step_c applies one of them at each program point.  The regenerated Python program takes the same steps
   under the invariant (modelled_step).  From [Inv]: safety; progress (a blocked call waits for a holder that is
   enabled); then rank_decreases for programs whose edges go forward, and the harness runner stays in [reach]. *)
From Coq Require Import Arith List Bool ZArith Lia.
Import ListNotations.
From Cffi Require Import C26.Model C26.Gen.

(* the tuple x read from the cache is still consistent with the entry c: a lock tuple names lock 0 of
   an existing entry, a result tuple is the entry *)
Definition xgood (c : cachev) (x : xval) : Prop :=
  match x with
  | XNone => False
  | XPend l => l = 0 /\ c <> Absent
  | XDone r => c = Done r
  end.

(* what a thread knows at each program point of c_prog, given the cache entry c; program points
   that are not listed (15, 16 of py_prog, Stuck) are unreachable *)
Definition pcinv (c : cachev) (me : tl) : Prop :=
  match pc me with
  | At 0 => xv me = XNone /\ held me = None /\ fraised me = false /\ res me = None
  | At 1 => held me = None /\ fraised me = false /\ res me = None
  | At 2 => held me = None /\ fraised me = false /\ xgood c (xv me)
  | At 3 => held me = None /\ fraised me = false /\ exists r, xv me = XDone r /\ c = Done r
  | At 4 => held me = None /\ fraised me = false /\ xv me = XPend 0 /\ c <> Absent
  | At 5 => held me = Some 0 /\ fraised me = false /\ c <> Absent
  | At 6 => held me = Some 0 /\ fraised me = false /\ xv me = xof c /\ c <> Absent
  | At 7 => held me = Some 0 /\ fraised me = false /\ exists r, xv me = XDone r /\ c = Done r
  | At 8 => held me = None /\ fraised me = false /\ exists r, xv me = XDone r /\ c = Done r
  | At 9 => held me = Some 0 /\ fraised me = false /\ c = Pending 0
  | InF 9 => held me = Some 0 /\ fraised me = false /\ c = Pending 0
  | At 10 => held me = Some 0 /\ fraised me = false /\ c = Pending 0 /\ exists r, res me = Some r
  | At 11 => held me = Some 0 /\ fraised me = false /\ exists r, res me = Some r /\ c = Done r
  | At 12 => held me = None /\ fraised me = false /\ exists r, res me = Some r /\ c = Done r
  | At 13 => held me = Some 0 /\ fraised me = true
  | At 14 => held me = None /\ fraised me = true
  | Ret r => held me = None /\ fraised me = false /\ c = Done r
  | Raised e => held me = None /\ fraised me = true /\ e = FExn
  | _ => False
  end.

(* ndone = (a result is stored) + (the lock holder is at pc 10: f has returned, the store is next) *)
Definition dn (c : cachev) : nat := match c with Done _ => 1 | _ => 0 end.
Definition pend10 (s : state) : nat :=
  match owner s 0 with
  | Some t' => match pc (th s t') with At 10 => 1 | _ => 0 end
  | None => 0
  end.

(* iG1 / iG2: a thread holds lock 0 iff it is its owner, no other lock is ever owned; iG3: the only
   lock put into the cache is lock 0; iG5: the count of completions; iHP: every thread's pcinv *)
Record Inv (s : state) : Prop := mkInv {
  iG1 : forall t, held (th s t) = Some 0 -> owner s 0 = Some t;
  iG2 : forall l t, owner s l = Some t -> l = 0 /\ held (th s t) = Some 0;
  iG3 : match cache s with Absent => nextlock s = 0 | Pending l => l = 0 | Done _ => True end;
  iG5 : ndone s = dn (cache s) + pend10 s;
  iHP : forall t, pcinv (cache s) (th s t) }.

Lemma inv_init : Inv init.
Proof.
  constructor; cbn; intros; try discriminate; auto.
Qed.

(* the program counter only selects the clause of the table *)
Lemma pcinv_at c me p : pc me = p -> pcinv c me <-> pcinv c (goto me p).
Proof. intros <-. destruct me. reflexivity. Qed.

(* at_pc H E, for H : pcinv c me and E : pc me = p with p a literal, turns H into the clause of p: on
   goto me p the table computes.  This is how every proof below looks a clause up: pcinv is never
   unfolded over a variable pc, where the whole table would sit in the goal, or in the motive of the
   rewrite with E, at every use (slow to check, and the cases are split with pcinv folded for the same
   reason). *)
Ltac at_pc H E := apply (pcinv_at _ _ _ E) in H; cbn [pcinv goto pc xv res held fraised] in H.

(* the cases of pc me: the 15 + 1 program points of the table, and the rest *)
Ltac pc_cases me E :=
  let n := fresh "n" in
  destruct (pc me) as [n|n| | |] eqn:E; [do 15 (try destruct n as [|n]) | do 10 (try destruct n as [|n]) | | | ].

Lemma pcinv_held c me l : pcinv c me -> held me = Some l -> l = 0.
Proof.
  intros H Hl. pc_cases me E; at_pc H E; try contradiction; try (destruct H as (Hh & _); congruence).
  destruct H as (_ & Hh & _). congruence.
Qed.

(* every thread's facts survive the two ways another thread can change the cache: an entry that is
   not Done yet becomes (or stays) present; only the lock holder's facts pin a Pending entry *)
Lemma xgood_fill c c' x : xgood c x -> (forall r, c <> Done r) -> c' <> Absent -> xgood c' x.
Proof. destruct x; cbn; [auto | tauto | intros -> H; destruct (H r eq_refl)]. Qed.

Lemma pcinv_fill c c' me :
  pcinv c me -> (forall r, c <> Done r) -> c' <> Absent -> held me = None \/ c = Absent -> pcinv c' me.
Proof.
  intros H Hd Hp Hh.
  pc_cases me E; at_pc H E; apply (pcinv_at _ _ _ E); cbn [pcinv goto pc xv res held fraised];
    try exact H; destruct H as (Hl & Hf & H); (split; [exact Hl | split; [exact Hf|]]).
  all: try (destruct H as (r & _ & Hc); destruct (Hd r Hc)).
  all: try (destruct (Hd _ H)).
  all: try (exfalso; destruct Hh as [Hn| ->]; [congruence | intuition congruence]).
  - apply (xgood_fill c); assumption.
  - split; [apply H | exact Hp].
Qed.

Lemma pcinv_setdefault : forall me, pcinv Absent me -> pcinv (Pending 0) me.
Proof. intros me H. apply (pcinv_fill Absent); auto; discriminate. Qed.

Lemma pcinv_store : forall me r, pcinv (Pending 0) me -> held me = None -> pcinv (Done r) me.
Proof. intros me r H Hh. apply (pcinv_fill (Pending 0)); auto; discriminate. Qed.

Lemma setth_same s t me : setth s t me t = me.
Proof. unfold setth. rewrite Nat.eqb_refl. reflexivity. Qed.

Lemma setth_other s t me t0 : t0 <> t -> setth s t me t0 = th s t0.
Proof. intros H. unfold setth. rewrite (proj2 (Nat.eqb_neq t0 t) H). reflexivity. Qed.

(* the contribution of a program point to pend10 *)
Definition pend (c : pcv) : nat := match c with At 10 => 1 | _ => 0 end.

Lemma pend_cases c : c = At 10 \/ pend c = 0.
Proof.
  destruct c as [n| | | |]; try (right; reflexivity).
  do 10 (destruct n as [|n]; [right; reflexivity|]). destruct n; [left | right]; reflexivity.
Qed.

Lemma pend10_other s t me' c nl nd :
  (forall t', owner s 0 = Some t' -> t' <> t) ->
  pend10 (mkSt (setth s t me') c (owner s) nl nd) = pend10 s.
Proof.
  intros H. unfold pend10; cbn. destruct (owner s 0) as [t'|] eqn:E; auto.
  rewrite setth_other; auto.
Qed.

Lemma pend10_keep s t me' c nl nd :
  pend (pc me') = pend (pc (th s t)) ->
  pend10 (mkSt (setth s t me') c (owner s) nl nd) = pend10 s.
Proof.
  intros H. unfold pend10; cbn. destruct (owner s 0) as [t'|]; auto.
  unfold setth. destruct (Nat.eqb_spec t' t) as [->|]; [exact H | reflexivity].
Qed.

(* inv_loc, inv_setdefault_absent, inv_setdefault_present, inv_fret and inv_store are instances of
   this one: the thread keeps what it holds and no lock changes hands *)
Lemma inv_keep s t me' c' nl' nd' :
  Inv s -> held me' = held (th s t) ->
  match c' with Absent => nl' = 0 | Pending l => l = 0 | Done _ => True end ->
  nd' = dn c' + pend10 (mkSt (setth s t me') c' (owner s) nl' nd') ->
  pcinv c' me' -> (forall t0, t0 <> t -> pcinv c' (th s t0)) ->
  Inv (mkSt (setth s t me') c' (owner s) nl' nd').
Proof.
  intros [G1 G2 _ _ _] Hh H3 H5 Hp HP. constructor; cbn [th cache owner nextlock ndone]; auto.
  - intros t0 H. apply G1. destruct (Nat.eq_dec t0 t) as [->|Hne].
    + rewrite setth_same in H. congruence.
    + rewrite setth_other in H; auto.
  - intros l t0 H. destruct (G2 _ _ H) as [-> Hl]. split; auto. destruct (Nat.eq_dec t0 t) as [->|Hne].
    + rewrite setth_same. congruence.
    + rewrite setth_other; auto.
  - intros t0. destruct (Nat.eq_dec t0 t) as [->|Hne].
    + rewrite setth_same. exact Hp.
    + rewrite setth_other; auto.
Qed.

Lemma inv_loc s t c0 me' :
  Inv s -> pc (th s t) = c0 -> pend (pc me') = pend c0 -> held me' = held (th s t) -> pcinv (cache s) me' ->
  Inv (loc s t me').
Proof.
  intros HI <- Hn Hh Hp. apply inv_keep; auto.
  - exact (iG3 _ HI).
  - rewrite pend10_keep; auto. exact (iG5 _ HI).
  - intros; apply (iHP _ HI).
Qed.

Lemma inv_setdefault_absent s t c0 me' :
  Inv s -> pc (th s t) = c0 -> pend (pc me') = pend c0 -> cache s = Absent -> held me' = held (th s t) ->
  pcinv (Pending 0) me' ->
  Inv (mkSt (setth s t me') (Pending (nextlock s)) (owner s) (S (nextlock s)) (ndone s)).
Proof.
  intros HI <- Hn Hc Hh Hp. pose proof (iG3 _ HI) as G3. rewrite Hc in G3. rewrite G3.
  apply inv_keep; auto.
  - rewrite pend10_keep; auto. rewrite (iG5 _ HI), Hc. reflexivity.
  - intros t0 _. apply (pcinv_fill Absent); auto; try discriminate. rewrite <- Hc. apply (iHP _ HI).
Qed.

Lemma inv_setdefault_present s t c0 me' :
  Inv s -> pc (th s t) = c0 -> pend (pc me') = pend c0 -> cache s <> Absent -> held me' = held (th s t) ->
  pcinv (cache s) me' ->
  Inv (mkSt (setth s t me') (cache s) (owner s) (S (nextlock s)) (ndone s)).
Proof.
  intros HI <- Hn Hc Hh Hp. apply inv_keep; auto.
  - pose proof (iG3 _ HI). destruct (cache s); auto. congruence.
  - rewrite pend10_keep; auto. exact (iG5 _ HI).
  - intros; apply (iHP _ HI).
Qed.

Lemma inv_acquire s t me' :
  Inv s -> owner s 0 = None -> pend (pc me') = 0 -> held me' = Some 0 -> pcinv (cache s) me' ->
  Inv (mkSt (setth s t me') (cache s) (setown s 0 (Some t)) (nextlock s) (ndone s)).
Proof.
  intros [G1 G2 G3 G5 HP] Ho N2 Hh Hp.
  assert (Hfree : forall t0, held (th s t0) <> Some 0) by (intros t0 H; apply G1 in H; congruence).
  constructor; cbn [th cache owner nextlock ndone]; auto.
  - intros t0 H. cbn. destruct (Nat.eq_dec t0 t) as [->|Hne]; auto.
    rewrite setth_other in H; auto. destruct (Hfree _ H).
  - intros l t0. unfold setown. destruct (Nat.eqb_spec l 0) as [->|].
    + intros [= <-]. rewrite setth_same. auto.
    + intros H. destruct (G2 _ _ H). contradiction.
  - rewrite G5. unfold pend10; cbn. rewrite Ho, setth_same. symmetry. rewrite Nat.add_cancel_l. exact N2.
  - intros t0. destruct (Nat.eq_dec t0 t) as [->|Hne]; [rewrite setth_same | rewrite setth_other]; auto.
Qed.

Lemma inv_release s t c0 me' :
  Inv s -> pc (th s t) = c0 -> pend c0 = 0 -> held (th s t) = Some 0 -> held me' = None -> pcinv (cache s) me' ->
  Inv (mkSt (setth s t me') (cache s) (setown s 0 None) (nextlock s) (ndone s)).
Proof.
  intros [G1 G2 G3 G5 HP] <- N1 Hh Hn Hp. pose proof (G1 _ Hh) as Ho.
  constructor; cbn [th cache owner nextlock ndone]; auto.
  - intros t0 H. destruct (Nat.eq_dec t0 t) as [->|Hne].
    + rewrite setth_same in H. congruence.
    + rewrite setth_other in H; auto. apply G1 in H. congruence.
  - intros l t0. unfold setown. destruct (Nat.eqb_spec l 0) as [->|]; [discriminate|].
    intros H. destruct (G2 _ _ H). contradiction.
  - rewrite G5. unfold pend10; cbn. rewrite Ho. rewrite Nat.add_cancel_l. exact N1.
  - intros t0. destruct (Nat.eq_dec t0 t) as [->|Hne]; [rewrite setth_same | rewrite setth_other]; auto.
Qed.

Lemma inv_fret s t me' :
  Inv s -> pc (th s t) = InF 9 -> pc me' = At 10 -> held me' = held (th s t) -> pcinv (cache s) me' ->
  Inv (mkSt (setth s t me') (cache s) (owner s) (nextlock s) (S (ndone s))).
Proof.
  intros HI Hpc Hpc' Hh Hp.
  pose proof (iHP _ HI t) as Ht. at_pc Ht Hpc. destruct Ht as (Hheld & _ & Hc).
  apply inv_keep; auto.
  - exact (iG3 _ HI).
  - unfold pend10; cbn. rewrite (iG5 _ HI). unfold pend10.
    rewrite (iG1 _ HI _ Hheld), setth_same, Hpc, Hpc'. lia.
  - intros; apply (iHP _ HI).
Qed.

Lemma inv_store s t me' r :
  Inv s -> pc (th s t) = At 10 -> pc me' = At 11 -> held me' = held (th s t) -> pcinv (Done r) me' ->
  Inv (mkSt (setth s t me') (Done r) (owner s) (nextlock s) (ndone s)).
Proof.
  intros HI Hpc Hpc' Hh Hp.
  pose proof (iHP _ HI t) as Ht. at_pc Ht Hpc. destruct Ht as (Hheld & _ & Hc & _).
  apply inv_keep; auto.
  - unfold pend10; cbn. rewrite (iG5 _ HI). unfold pend10.
    rewrite (iG1 _ HI _ Hheld), setth_same, Hpc, Hpc', Hc. reflexivity.
  - intros t0 Hne. apply (pcinv_fill (Pending 0)); try discriminate.
    + rewrite <- Hc. apply (iHP _ HI).
    + left. destruct (held (th s t0)) as [l|] eqn:E; auto.
      rewrite (pcinv_held _ _ _ (iHP _ HI t0) E) in E. apply (iG1 _ HI) in E.
      rewrite (iG1 _ HI _ Hheld) in E. congruence.
Qed.

(* side conditions of the update lemmas: the source point is a hypothesis, between two literal points the `pend`
   premise computes, and the facts at the target point are among those at the source *)
Ltac side :=
  first [eassumption | reflexivity
        | cbn [pcinv xgood pc xv res held fraised goto xof]; repeat split; eauto; try congruence].

Lemma inv_step_c s t s' : Inv s -> step c_prog s t s' -> Inv s'.
Proof.
  intros HI [o Hs]. pose proof (iHP _ HI t) as Ht. pose proof (iG3 _ HI) as G3.
  (* Hs is read as (body (pc (th s t))) and body is named before the split on the program point, to be
     unfolded again at each literal point.  The obvious `rewrite E in Hs` at each point is slow to check:
     its motive is the whole body of step_fn, once for each of the 16 points. *)
  unfold step_fn in Hs. cbv zeta in Hs. pattern (pc (th s t)) in Hs.
  match type of Hs with ?F _ => set (body := F) in Hs end.
  destruct (pc (th s t)) as [n|n| | |] eqn:E.
  3,4: discriminate.
  - destruct n as [|[|[|[|[|[|[|[|[|[|[|[|[|[|[|n]]]]]]]]]]]]]]]; at_pc Ht E.
    all: cbv beta delta [body] in Hs; cbn [nth_error c_prog] in Hs; clear body.
    + (* 0: read *) destruct Ht as (? & ? & ? & ?).
      destruct (cache s) eqn:Ec; injection Hs as <-; eapply inv_loc; rewrite ?Ec; side.
    + (* 1: setdefault *) destruct Ht as (? & ? & ?). destruct (cache s) eqn:Ec; injection Hs as <-.
      * eapply inv_setdefault_absent; side.
      * rewrite <- Ec. eapply inv_setdefault_present; rewrite ?Ec; side.
      * rewrite <- Ec. eapply inv_setdefault_present; rewrite ?Ec; side.
    + (* 2 *) destruct Ht as (? & ? & Hx).
      destruct (xv (th s t)) as [|l|r] eqn:Ex; cbn in Hx; [contradiction | destruct Hx as [-> ?] | ];
        injection Hs as <-; eapply inv_loc; side.
    + (* 3 *) destruct Ht as (? & ? & r & Ex & Ec). rewrite Ex in Hs. injection Hs as <-. eapply inv_loc; side.
    + (* 4: acquire *) destruct Ht as (? & ? & Ex & Ec). rewrite Ex in Hs.
      destruct (owner s 0) eqn:Eo; [discriminate|]. injection Hs as <-. apply inv_acquire; side.
    + (* 5: read under the lock *) destruct Ht as (? & ? & ?).
      destruct (cache s) eqn:Ec; injection Hs as <-; eapply inv_loc; rewrite ?Ec; side.
    + (* 6 *) destruct Ht as (? & ? & Ex & ?). rewrite Ex in Hs.
      destruct (cache s) eqn:Ec; injection Hs as <-; eapply inv_loc; rewrite ?Ec; side.
    + (* 7: release *) destruct Ht as (Hh & ? & r & ? & ?). rewrite Hh in Hs. injection Hs as <-. eapply inv_release; side.
    + (* 8 *) destruct Ht as (? & ? & r & Ex & Ec). rewrite Ex in Hs. injection Hs as <-. eapply inv_loc; side.
    + (* 9: call f *) destruct Ht as (? & ? & ?). injection Hs as <-. eapply inv_loc; side.
    + (* 10: store *) destruct Ht as (? & ? & ? & r & Er). rewrite Er in Hs. injection Hs as <-. apply inv_store; side.
    + (* 11: release *) destruct Ht as (Hh & ? & r & ? & ?). rewrite Hh in Hs. injection Hs as <-. eapply inv_release; side.
    + (* 12 *) destruct Ht as (? & ? & r & Er & Ec). rewrite Er in Hs. injection Hs as <-. eapply inv_loc; side.
    + (* 13: release *) destruct Ht as (Hh & ?). rewrite Hh in Hs. injection Hs as <-. eapply inv_release; side.
    + (* 14 *) destruct Ht as (? & ?). injection Hs as <-. eapply inv_loc; side.
    + contradiction.
  - do 10 (try destruct n as [|n]); at_pc Ht E; try contradiction. destruct Ht as (? & ? & ?).
    cbv beta delta [body] in Hs; cbn [nth_error c_prog] in Hs; clear body.
    destruct o; injection Hs as <-; [apply inv_fret | eapply inv_loc]; side.
  - at_pc Ht E. contradiction.
Qed.

(* The Python program takes the same steps under the invariant: the two differ only in the KeyError
   edge of the re-read under the lock (pc 5), dead because the entry exists there, and in the two
   instructions behind that edge. *)
Definition modelled (p : prog) : Prop := p = py_prog \/ p = c_prog.

Lemma step_fn_instr p q s t o :
  match pc (th s t) with At n | InF n => nth_error p n = nth_error q n | _ => True end ->
  step_fn p s t o = step_fn q s t o.
Proof. unfold step_fn. destruct (pc (th s t)); intros H; try rewrite H; reflexivity. Qed.

Lemma modelled_step p s t o : modelled p -> pcinv (cache s) (th s t) -> step_fn p s t o = step_fn c_prog s t o.
Proof.
  intros [->| ->] H; [|reflexivity].
  pc_cases (th s t) E; try (apply step_fn_instr; rewrite E; reflexivity); at_pc H E; try contradiction.
  unfold step_fn. rewrite E. cbn [nth_error py_prog c_prog].
  destruct (cache s); [destruct H as (_ & _ & []) | ..]; reflexivity.
Qed.

Lemma inv_step p s t s' : modelled p -> Inv s -> step p s t s' -> Inv s'.
Proof.
  intros Hp HI [o Hs]. rewrite (modelled_step p s t o Hp (iHP _ HI t)) in Hs.
  apply (inv_step_c s t s' HI). exists o. exact Hs.
Qed.

Lemma inv_step_py s t s' : Inv s -> step py_prog s t s' -> Inv s'.
Proof. apply inv_step. left; reflexivity. Qed.

Lemma reach_inv p s : modelled p -> reach p s -> Inv s.
Proof.
  intros Hp H; induction H.
  - apply inv_init.
  - eapply inv_step; eauto.
Qed.

Lemma inf_facts s t n : Inv s -> pc (th s t) = InF n ->
  n = 9 /\ held (th s t) = Some 0 /\ cache s = Pending 0 /\ owner s 0 = Some t.
Proof.
  intros HI E. pose proof (iHP _ HI t) as H.
  do 10 (try destruct n as [|n]); at_pc H E; try contradiction. destruct H as (Hh & _ & Hc). repeat split; auto.
  apply (iG1 _ HI); auto.
Qed.

Lemma at10_facts s t : Inv s -> pc (th s t) = At 10 -> cache s = Pending 0 /\ owner s 0 = Some t.
Proof.
  intros HI E. pose proof (iHP _ HI t) as H. at_pc H E.
  destruct H as (Hh & _ & Hc & _). split; auto. apply (iG1 _ HI); auto.
Qed.

Lemma mutual_exclusion s t1 t2 : Inv s -> in_f s t1 -> in_f s t2 -> t1 = t2.
Proof.
  intros HI [n1 E1] [n2 E2].
  destruct (inf_facts _ _ _ HI E1) as (_ & _ & _ & O1).
  destruct (inf_facts _ _ _ HI E2) as (_ & _ & _ & O2). congruence.
Qed.

(* a completion counted but not yet stored belongs to the one thread at pc 10 *)
Lemma pend10_cases s : Inv s ->
  (pend10 s = 1 /\ cache s = Pending 0 /\ exists t, pc (th s t) = At 10) \/
  (pend10 s = 0 /\ forall t, pc (th s t) <> At 10).
Proof.
  intros HI. unfold pend10.
  assert (Hown : forall t, pc (th s t) = At 10 -> owner s 0 = Some t) by (intros t Et; apply (at10_facts s t HI Et)).
  destruct (owner s 0) as [t'|].
  - destruct (pend_cases (pc (th s t'))) as [E|E].
    + rewrite E. left. split; [reflexivity | split; [apply (at10_facts s t' HI E) | eauto]].
    + right. split; [exact E|]. intros t Et. pose proof (Hown t Et) as [= ->]. rewrite Et in E. discriminate.
  - right. split; auto. intros t Et. apply Hown in Et. discriminate.
Qed.

Lemma ndone_le_1 s : Inv s -> ndone s <= 1.
Proof.
  intros HI. rewrite (iG5 _ HI).
  destruct (pend10_cases s HI) as [(-> & -> & _)|[-> _]]; [|destruct (cache s)]; cbn; lia.
Qed.

Lemma ndone_cache s : Inv s -> (ndone s = 1 <-> (exists r, cache s = Done r) \/
                                 exists t, pc (th s t) = At 10) .
Proof.
  intros HI. rewrite (iG5 _ HI).
  destruct (pend10_cases s HI) as [(-> & -> & Ht)|[-> Hn]].
  - split; auto.
  - rewrite Nat.add_0_r. split.
    + destruct (cache s); try discriminate. eauto.
    + intros [[r ->]|[t Et]]; [reflexivity | destruct (Hn t Et)].
Qed.

Lemma returned_cache s t r : Inv s -> returned s t r -> cache s = Done r.
Proof. intros HI E. pose proof (iHP _ HI t) as H. at_pc H E. tauto. Qed.

Lemma done_no_f s r : Inv s -> cache s = Done r -> forall t, ~ in_f s t.
Proof. intros HI Ec t [n E]. destruct (inf_facts _ _ _ HI E) as (_ & _ & C & _). congruence. Qed.

Lemma raised_own s t e : Inv s -> pc (th s t) = Raised e -> e = FExn /\ own_f_raised s t.
Proof. intros HI E. pose proof (iHP _ HI t) as H. at_pc H E. unfold own_f_raised. tauto. Qed.

Lemma never_stuck s t : Inv s -> pc (th s t) <> Stuck.
Proof. intros HI E. pose proof (iHP _ HI t) as H. at_pc H E. exact H. Qed.

Lemma returned_not_raised s t r : Inv s -> returned s t r -> fraised (th s t) = false.
Proof. intros HI E. pose proof (iHP _ HI t) as H. at_pc H E. tauto. Qed.

Lemma safety : forall p s, modelled p -> reach p s ->
  (forall t1 t2, in_f s t1 -> in_f s t2 -> t1 = t2) /\
  ndone s <= 1 /\
  (forall t r, returned s t r -> cache s = Done r) /\
  (forall r, cache s = Done r -> forall t, ~ in_f s t) /\
  (forall t e, pc (th s t) = Raised e -> e = FExn /\ own_f_raised s t) /\
  (forall t r, returned s t r -> fraised (th s t) = false) /\
  (forall t, pc (th s t) <> Stuck).
Proof.
  intros p s Hp H. pose proof (reach_inv p s Hp H) as HI.
  repeat split.
  - intros; eapply mutual_exclusion; eauto.
  - apply ndone_le_1; auto.
  - intros; eapply returned_cache; eauto.
  - intros; eapply done_no_f; eauto.
  - eapply raised_own; eauto.
  - eapply raised_own; eauto.
  - intros; eapply returned_not_raised; eauto.
  - intros; eapply never_stuck; eauto.
Qed.

Ltac step_outcomes H :=
  unfold step_fn in H;
  repeat match type of H with
         | match ?x with _ => _ end = Some _ => destruct x eqn:?
         end; try discriminate; injection H as <-.

Lemma step_frame p s t s' t0 : step p s t s' -> t0 <> t -> th s' t0 = th s t0.
Proof. intros [o H] Hne. step_outcomes H; apply setth_other; exact Hne. Qed.

Lemma cache_written p s t o s' : step_fn p s t o = Some s' ->
  cache s' = cache s \/
  exists n, pc (th s t) = At n /\
    match nth_error p n with
    | Some (ISetDefault _) | Some (ISetDefaultX _ _) => cache s = Absent
    | Some (IStore _) => True
    | _ => False
    end.
Proof.
  intros H. step_outcomes H; auto; right; eexists; (split; [reflexivity|]);
    match goal with E : nth_error _ _ = _ |- _ => rewrite E end; auto.
Qed.

Lemma f_raise_keeps_cache p s t s' : is_f_raises_step p s t s' -> cache s' = cache s.
Proof.
  intros [[n E] H]. destruct (cache_written _ _ _ _ _ H) as [|(n' & E' & _)]; auto. congruence.
Qed.

(* in the modelled programs the writers are pc 1 and pc 10, where no f of the thread has raised and
   the entry is not Done *)
Lemma modelled_write p s t o s' : modelled p -> Inv s -> step_fn p s t o = Some s' ->
  cache s' = cache s \/ fraised (th s t) = false /\ forall r, cache s <> Done r.
Proof.
  intros Hp HI Hs. pose proof (iHP _ HI t) as Ht. rewrite (modelled_step p s t o Hp Ht) in Hs.
  destruct (cache_written _ _ _ _ _ Hs) as [|(n & E & Hw)]; auto. right.
  do 15 (try destruct n as [|n]); try contradiction; at_pc Ht E; try contradiction.
  - split; [tauto | congruence].
  - destruct Ht as (_ & ? & -> & _). split; [auto | discriminate].
Qed.

Lemma raiser_never_stores p s t s' :
  modelled p -> Inv s -> own_f_raised s t -> step p s t s' -> cache s' = cache s.
Proof.
  intros Hp HI Hr [o Hs]. destruct (modelled_write p s t o s' Hp HI Hs) as [|[Hf _]]; auto.
  unfold own_f_raised in Hr. congruence.
Qed.

Lemma done_stable p s t s' r : modelled p -> Inv s -> cache s = Done r -> step p s t s' -> cache s' = Done r.
Proof.
  intros Hp HI Hc [o Hs]. destruct (modelled_write p s t o s' Hp HI Hs) as [->|[_ Hd]]; auto.
  destruct (Hd r Hc).
Qed.

Lemma not_enabled_cases p s t o : step_fn p s t o = None ->
  ~ unfinished s t \/
  exists n k l t', pc (th s t) = At n /\ nth_error p n = Some (IAcquire k) /\
                   xv (th s t) = XPend l /\ owner s l = Some t'.
Proof.
  intros H. unfold step_fn, unfinished in *.
  destruct (pc (th s t)) as [n|n| | |] eqn:Epc; auto.
  - destruct (nth_error p n) as [i|] eqn:En; try discriminate.
    destruct i; try discriminate;
    repeat match type of H with
           | match ?x with _ => _ end = None => destruct x eqn:?
           end; try discriminate.
    right. eauto 10.
  - destruct (nth_error p n) as [i|] eqn:En; try discriminate.
    destruct i; try discriminate. destruct o; discriminate.
Qed.

Lemma acquiring_holds_nothing p s t n k : modelled p -> Inv s ->
  pc (th s t) = At n -> nth_error p n = Some (IAcquire k) -> held (th s t) = None.
Proof.
  intros Hp HI E En. pose proof (iHP _ HI t) as Ht.
  destruct Hp as [->| ->]; do 17 (try destruct n as [|n]); try discriminate En; try (destruct n; discriminate En);
    at_pc Ht E; tauto.
Qed.

(* a thread can step, or has finished, or waits for a lock that somebody holds (in any program and any state;
   the outcome tried does not matter: step_fn reads it only inside f, where both are enabled) *)
Lemma enabled_cases p s t : enabled p s t \/ ~ unfinished s t \/ exists t', blocked_on p s t t'.
Proof.
  destruct (step_fn p s t FRaise) as [s'|] eqn:E; [left; exists s', FRaise; exact E|]. right.
  destruct (not_enabled_cases _ _ _ _ E) as [Hu|(n & k & l & t' & H)]; [left; exact Hu|].
  right. exists t', n, k, l. exact H.
Qed.

Lemma holder_enabled p s t' : modelled p -> Inv s -> held (th s t') = Some 0 -> enabled p s t'.
Proof.
  intros Hp HI Hh. destruct (enabled_cases p s t') as [He|[E|(t'' & n & k & l & Epc & En & _)]]; [exact He|..]; exfalso.
  - pose proof (iHP _ HI t') as Ht. unfold unfinished in E.
    destruct (pc (th s t')) eqn:Ep; try (apply E; exact I); at_pc Ht Ep; intuition congruence.
  - rewrite (acquiring_holds_nothing p s t' n k) in Hh by assumption. discriminate.
Qed.

Lemma progress p s t : modelled p -> Inv s -> unfinished s t ->
  enabled p s t \/
  exists t', t' <> t /\ blocked_on p s t t' /\ enabled p s t'.
Proof.
  intros Hp HI Hu. destruct (enabled_cases p s t) as [He|[E|(t' & Hb)]]; [left; exact He | contradiction |].
  right. exists t'. pose proof Hb as (n & k & l & Epc & En & Ex & Eo). destruct (iG2 _ HI _ _ Eo) as [-> Hh].
  split; [|split; [exact Hb | apply holder_enabled; auto]].
  intros ->. rewrite (acquiring_holds_nothing p s t n k) in Hh by assumption. discriminate.
Qed.

Lemma forward_from_nth : forall p b n i, forward_from b p = true -> nth_error p n = Some i ->
  forall k, In k (succs i) -> b + n < k.
Proof.
  induction p as [|j p IH]; intros b n i Hf Hn k Hk.
  - destruct n; discriminate.
  - cbn in Hf. apply andb_prop in Hf. destruct Hf as [H1 H2]. destruct n as [|n].
    + cbn in Hn. inversion Hn; subst. rewrite forallb_forall in H1. apply H1 in Hk.
      apply Nat.ltb_lt in Hk. lia.
    + cbn in Hn. pose proof (IH (S b) n i H2 Hn k Hk). lia.
Qed.

Lemma step_pc p s t o s' : step_fn p s t o = Some s' ->
  match pc (th s' t) with
  | At k => exists n i, (pc (th s t) = At n \/ pc (th s t) = InF n) /\ nth_error p n = Some i /\ In k (succs i)
  | InF n => exists ok ex, pc (th s t) = At n /\ nth_error p n = Some (ICallF ok ex)
  | _ => unfinished s t
  end.
Proof.
  intros H. unfold unfinished. step_outcomes H; cbn [th loc]; rewrite setth_same; cbn [pc goto]; auto;
    try (eexists; eexists; split; [reflexivity | eassumption]);
    eexists; eexists; (split; [eauto | split; [eassumption | cbn; auto]]).
Qed.

(* a thread is inside f only at a call instruction, in every program: the fallback of step_fn's InF
   branch is never taken *)
Lemma inf_at_call p s : reach p s ->
  forall t n, pc (th s t) = InF n -> exists ok ex, nth_error p n = Some (ICallF ok ex).
Proof.
  induction 1 as [|s t s' _ IH [o Hs]]; intros t0 n E; [discriminate|].
  destruct (Nat.eq_dec t0 t) as [->|Hne].
  - apply step_pc in Hs. rewrite E in Hs. destruct Hs as (ok & ex & _ & En). eauto.
  - rewrite (step_frame p s t s' t0) in E by (eauto; exists o; exact Hs). eauto.
Qed.

Lemma rank_decreases p s t s' : forward p = true -> step p s t s' ->
  rank p (pc (th s' t)) < rank p (pc (th s t)).
Proof.
  intros Hf [o H]. apply step_pc in H.
  destruct (pc (th s' t)) as [k|n| | |];
    try (unfold unfinished in H; destruct (pc (th s t)); cbn; [lia | lia | contradiction..]).
  - destruct H as (n & i & E & En & Hk).
    pose proof (forward_from_nth p 0 n i Hf En k Hk).
    assert (n < length p) by (apply nth_error_Some; congruence).
    destruct E as [-> | ->]; cbn; lia.
  - destruct H as (ok & ex & -> & En).
    assert (n < length p) by (apply nth_error_Some; congruence). cbn; lia.
Qed.

Lemma forward_py : forward py_prog = true. Proof. vm_compute. reflexivity. Qed.
Lemma forward_c : forward c_prog = true. Proof. vm_compute. reflexivity. Qed.

Lemma modelled_forward p : modelled p -> forward p = true.
Proof. intros [->| ->]; [apply forward_py | apply forward_c]. Qed.

Lemma local_closure_reach p fuel : forall s t, reach p s -> reach p (local_closure p fuel s t).
Proof.
  induction fuel as [|f IH]; intros s t H; cbn [local_closure]; auto.
  destruct (pc (th s t)); auto. destruct (nth_error p n); auto. destruct (is_local i); auto.
  destruct (step_fn p s t FRaise) as [s'|] eqn:E; auto.
  apply IH. apply (r_step p s t s'); auto. exists FRaise; exact E.
Qed.

Lemma vstep_reach p s t o s' : reach p s -> vstep p s t o = Some s' -> reach p s'.
Proof.
  unfold vstep. intros H E. destruct (step_fn p s t o) as [s1|] eqn:E1; try discriminate.
  inversion E; subst. apply local_closure_reach. apply (r_step p s t s1); auto. exists o; exact E1.
Qed.

Lemma run_steps_reach p : forall sch s acc s' tr, reach p s ->
  run_steps p s sch acc = Some (s', tr) -> reach p s'.
Proof.
  induction sch as [|[t o] sch IH]; intros s acc s' tr H E; cbn in E.
  - inversion E; subst; auto.
  - destruct (vstep p s t o) as [s1|] eqn:E1; try discriminate.
    eapply IH; [|eauto]. eapply vstep_reach; eauto.
Qed.
