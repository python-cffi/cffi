(* Facts about the C-expression evaluator C03/CExpr.v (shared by C03 and C02). *)
From Coq Require Import ZArith Bool Lia ZifyBool String.
From Cffi Require Import Base.Wrap C03.CExpr.
Open Scope Z_scope.

Lemma fits_ull z : fits TULL z = true <-> 0 <= z < 2 ^ 64.
Proof. unfold fits, tmin, tmax; cbn [is_signed bits]. lia. Qed.
Lemma fits_ll z : fits TLL z = true <-> - 2 ^ 63 <= z < 2 ^ 63.
Proof. unfold fits, tmin, tmax; cbn [is_signed bits]. lia. Qed.
Lemma fits_int z : fits TInt z = true <-> - 2 ^ 31 <= z < 2 ^ 31.
Proof. unfold fits, tmin, tmax; cbn [is_signed bits]. lia. Qed.

Lemma conv_wrap t z : conv t z = wrap (is_signed t) (bits t) z.
Proof. reflexivity. Qed.

Lemma fits_in_bits t z : fits t z = true <-> in_bits (is_signed t) (bits t) z.
Proof. unfold fits, tmin, tmax, in_bits. destruct t; cbn [is_signed bits]; lia. Qed.

Lemma conv_id t z : fits t z = true -> conv t z = z.
Proof. intros H. apply wrap_id; [destruct t; reflexivity | apply fits_in_bits, H]. Qed.

Lemma common_same t : common t t = t.
Proof. destruct t; reflexivity. Qed.

(* operands of one type that hold values of that type are not converted *)
Lemma eval_bin_same o t a b : fits t a = true -> fits t b = true ->
  eval_bin o t a t b =
  match o with
  | BAdd => arith t (a + b)
  | BSub => arith t (a - b)
  | BMul => arith t (a * b)
  | BAnd => Some (t, conv t (Z.land a b))
  | BOr => Some (t, conv t (Z.lor a b))
  | BLt => Some (TInt, b2z (a <? b))
  | BGt => Some (TInt, b2z (b <? a))
  | BLe => Some (TInt, b2z (a <=? b))
  | BGe => Some (TInt, b2z (b <=? a))
  | BEq => Some (TInt, b2z (a =? b))
  | BNe => Some (TInt, b2z (negb (a =? b)))
  | BShl | BShr | BLAnd | BLOr => eval_bin o t a t b
  end.
Proof.
  intros Fa Fb. destruct o; try reflexivity;
    unfold eval_bin; cbv zeta; rewrite common_same, (conv_id t a Fa), (conv_id t b Fb); reflexivity.
Qed.
