(* Lemmas about C03/Mem.v: the codec encode_le / decode_le; the truncating write read back (read_unsigned_write,
   read_signed_write: the conversion of Base.Wrap); the frame lemmas of splice and unit_at, a location inside a
   larger object. *)
From Coq Require Import ZArith Znumtheory List Bool Lia.
From Cffi Require Import Base.Wrap Base.ListFacts C03.Mem.
Import ListNotations.
Open Scope Z_scope.

Lemma length_encode_le n z : List.length (encode_le n z) = n.
Proof. revert z; induction n; intros; cbn [encode_le List.length]; [reflexivity|now rewrite IHn]. Qed.

Lemma decode_encode_le n z : decode_le (encode_le n z) = z mod 2 ^ (8 * Z.of_nat n).
Proof.
  revert z; induction n; intros z.
  - cbn. now rewrite Z.mod_1_r.
  - cbn [encode_le decode_le]. rewrite IHn.
    replace (8 * Z.of_nat (S n)) with (8 + 8 * Z.of_nat n) by lia.
    rewrite Z.pow_add_r by lia. change (2 ^ 8) with 256.
    rewrite Z.rem_mul_r by lia. reflexivity.
Qed.

Lemma encode_le_bytes n z : Forall (fun b => 0 <= b < 256) (encode_le n z).
Proof.
  revert z; induction n; intros; cbn [encode_le]; constructor; auto.
  apply Z.mod_pos_bound; lia.
Qed.

Lemma encode_decode_le bs : Forall (fun b => 0 <= b < 256) bs -> encode_le (length bs) (decode_le bs) = bs.
Proof.
  induction 1 as [|b bs Hb H IH]; cbn [length encode_le decode_le]; [reflexivity|].
  rewrite Z.mul_comm, Z.mod_add, Z.div_add, Z.mod_small, Z.div_small by lia. cbn [Z.add]. rewrite IH. reflexivity.
Qed.

Lemma decode_le_bound bs : Forall (fun b => 0 <= b < 256) bs -> 0 <= decode_le bs < 2 ^ (8 * Z.of_nat (length bs)).
Proof.
  induction 1 as [|b r Hb Hr IH]; cbn [decode_le length].
  - cbn. lia.
  - replace (8 * Z.of_nat (S (length r))) with (8 + 8 * Z.of_nat (length r)) by lia.
    rewrite Z.pow_add_r by lia. change (2 ^ 8) with 256. nia.
Qed.

Lemma decode_le_app a b : decode_le (a ++ b) = decode_le a + 2 ^ (8 * Z.of_nat (length a)) * decode_le b.
Proof.
  induction a as [|x a IH]; cbn [app decode_le length]; [change (2 ^ (8 * Z.of_nat 0)) with 1; lia|].
  rewrite IH. replace (8 * Z.of_nat (S (length a))) with (8 + 8 * Z.of_nat (length a)) by lia.
  rewrite Z.pow_add_r by lia. change (2 ^ 8) with 256. ring.
Qed.

Lemma decode_le_inj a b : Forall (fun x => 0 <= x < 256) a -> Forall (fun x => 0 <= x < 256) b ->
  length a = length b -> decode_le a = decode_le b -> a = b.
Proof. intros Ha Hb L E. rewrite <- (encode_decode_le a Ha), <- (encode_decode_le b Hb), L, E. reflexivity. Qed.

Lemma firstn_encode_le n k z : (k <= n)%nat -> firstn k (encode_le n z) = encode_le k z.
Proof.
  revert k z; induction n; intros k z Hk.
  - assert (k = 0%nat) as -> by lia. reflexivity.
  - destruct k; [reflexivity|]. cbn [encode_le firstn]. f_equal. apply IHn. lia.
Qed.

Lemma write_raw_length s v : List.length (write_raw s v) = s.
Proof. apply length_encode_le. Qed.

(* the (unsigned long long) conversion of the source does not show in a write of at most 8 bytes *)
Lemma mod64_mod s z : (s <= 8)%nat -> (z mod 2 ^ 64) mod 2 ^ (8 * Z.of_nat s) = z mod 2 ^ (8 * Z.of_nat s).
Proof. intros Hs. apply mod_mod_pow2. lia. Qed.

Lemma encode_le_congr n a b :
  a mod 2 ^ (8 * Z.of_nat n) = b mod 2 ^ (8 * Z.of_nat n) -> encode_le n a = encode_le n b.
Proof.
  revert a b; induction n; intros a b E; [reflexivity|]. cbn [encode_le].
  replace (8 * Z.of_nat (S n)) with (8 + 8 * Z.of_nat n) in E by lia.
  rewrite Z.pow_add_r in E by lia. change (2 ^ 8) with 256 in E.
  assert (0 < 2 ^ (8 * Z.of_nat n)) by (apply Z.pow_pos_nonneg; lia).
  rewrite !Z.rem_mul_r in E by lia.
  pose proof (Z.mod_pos_bound a 256 ltac:(lia)). pose proof (Z.mod_pos_bound b 256 ltac:(lia)).
  f_equal; [|apply IHn]; lia.
Qed.

Lemma write_raw_congr s a b : (s <= 8)%nat ->
  a mod 2 ^ (8 * Z.of_nat s) = b mod 2 ^ (8 * Z.of_nat s) -> write_raw s a = write_raw s b.
Proof. intros Hs E. apply encode_le_congr. rewrite !mod64_mod by assumption. exact E. Qed.

Lemma read_unsigned_write s v : (s <= 8)%nat ->
  read_raw_unsigned (write_raw s v) = wrap false (8 * Z.of_nat s) v.
Proof.
  intros Hs. unfold read_raw_unsigned, write_raw. rewrite decode_encode_le. apply mod64_mod, Hs.
Qed.

Lemma read_signed_write s v : (1 <= s <= 8)%nat ->
  read_raw_signed (write_raw s v) = wrap true (8 * Z.of_nat s) v.
Proof.
  intros Hs. unfold read_raw_signed. rewrite write_raw_length.
  fold (read_raw_unsigned (write_raw s v)). rewrite read_unsigned_write, wrap_signed_ltb by lia. reflexivity.
Qed.

Lemma splice_length off new mem : (off + List.length new <= List.length mem)%nat ->
  List.length (splice off new mem) = List.length mem.
Proof.
  intros H. unfold splice. rewrite !app_length, firstn_length, skipn_length. lia.
Qed.

Lemma nth_splice_outside off new mem j d : (off + List.length new <= List.length mem)%nat ->
  (j < off \/ off + List.length new <= j)%nat -> nth j (splice off new mem) d = nth j mem d.
Proof.
  intros H Hj. unfold splice. destruct Hj as [Hj|Hj].
  - rewrite app_nth1 by (rewrite firstn_length; lia).
    transitivity (nth j (firstn off mem ++ skipn off mem) d); [|rewrite firstn_skipn; reflexivity].
    rewrite app_nth1 by (rewrite firstn_length; lia). reflexivity.
  - rewrite app_nth2 by (rewrite firstn_length; lia). rewrite firstn_length.
    rewrite app_nth2 by lia.
    transitivity (nth j (firstn (off + List.length new) mem ++ skipn (off + List.length new) mem) d);
      [|rewrite firstn_skipn; reflexivity].
    rewrite app_nth2 by (rewrite firstn_length; lia). rewrite firstn_length. f_equal. lia.
Qed.

Lemma unit_at_splice off new mem : (off + List.length new <= List.length mem)%nat ->
  unit_at off (List.length new) (splice off new mem) = new.
Proof.
  intros H. unfold unit_at, splice.
  rewrite skipn_app, firstn_length. replace (off - Nat.min off (List.length mem))%nat with 0%nat by lia.
  rewrite skipn_all2 by (rewrite firstn_length; lia). cbn [app skipn].
  rewrite firstn_app, Nat.sub_diag, firstn_O, app_nil_r. apply firstn_all.
Qed.

Lemma splice_same off size mem : (off + size <= List.length mem)%nat ->
  splice off (unit_at off size mem) mem = mem.
Proof.
  intros H. unfold splice, unit_at.
  assert (List.length (firstn size (skipn off mem)) = size) as L
    by (rewrite firstn_length, skipn_length; lia).
  rewrite L. rewrite <- (firstn_skipn off mem) at 4. f_equal.
  rewrite <- (firstn_skipn size (skipn off mem)) at 2. f_equal.
  apply skipn_add.
Qed.

Lemma unit_at_length off size mem : (off + size <= List.length mem)%nat ->
  List.length (unit_at off size mem) = size.
Proof. intros. unfold unit_at. rewrite firstn_length, skipn_length. lia. Qed.

Lemma splice_adjacent : forall off (a b mem : list Z),
  (off + length a <= length mem)%nat ->
  splice (off + length a) b (splice off a mem) = splice off (a ++ b) mem.
Proof.
  intros off a b mem H. unfold splice.
  assert (Hf : length (firstn off mem) = off) by (rewrite firstn_length; lia).
  set (p := firstn off mem) in *.
  set (r := skipn (off + length a) mem).
  assert (E1 : firstn (off + length a) (p ++ a ++ r) = p ++ a).
  { rewrite app_assoc. replace (off + length a)%nat with (length (p ++ a) + 0)%nat by (rewrite app_length; lia).
    rewrite firstn_app_2. cbn. apply app_nil_r. }
  assert (E2 : skipn (off + length a + length b) (p ++ a ++ r) = skipn (length b) r).
  { rewrite app_assoc. replace (off + length a + length b)%nat with (length (p ++ a) + length b)%nat by (rewrite app_length; lia).
    rewrite skipn_app. rewrite skipn_all2 by lia.
    replace (length (p ++ a) + length b - length (p ++ a))%nat with (length b) by lia. reflexivity. }
  rewrite E1, E2. unfold r. rewrite <- skipn_add, app_length.
  replace (off + length a + length b)%nat with (off + (length a + length b))%nat by lia.
  now rewrite <- !app_assoc.
Qed.

Lemma splice_whole : forall (bs mem : list Z), length bs = length mem -> splice 0 bs mem = bs.
Proof.
  intros bs mem H. unfold splice. cbn [firstn app plus]. rewrite H, skipn_all. apply app_nil_r.
Qed.
