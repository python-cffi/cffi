(* C03 — proofs about C03/Store.v (independent of regenerated files). *)
From Coq Require Import ZArith Znumtheory List Bool Lia ZifyBool.
From Cffi Require Export C03.MemProofs.
From Cffi Require Import Base.Wrap C03.Store.
Import ListNotations.
Open Scope Z_scope.

(* Zify's hook, for this file only.  The file compiles without it, but the `lia`s of store_exact and read_encode
   cost less than half with it: its last pass, Z.euclidean_division_equations_cleanup, resolves the implications
   that zify leaves against the context before lia sees them.  `::=` is global, `Local` or not, so the last sentence
   of the file sets the hook back: otherwise every `lia` of every file that requires this one (C02, C04, C20) would
   run the hook over its context, which none of them needs and which costs them more than it saves. *)
Ltac Zify.zify_post_hook ::= Z.to_euclidean_division_equations.

(* the bytes an accepted store of v leaves in a target of type T *)
Definition encode_int (T : ity) (v : Z) : list Z := write_raw (isize T) v.

Lemma signed_fits_iff s v : (1 <= s)%nat ->
  let n := 8 * Z.of_nat s in
  let u := v mod 2 ^ n in
  (v =? (if u <? 2 ^ (n - 1) then u else u - 2 ^ n)) = ((- 2 ^ (n - 1) <=? v) && (v <=? 2 ^ (n - 1) - 1)).
Proof. intros Hs n. cbv zeta. rewrite <- (fits_iff true) by lia. f_equal. symmetry. apply (wrap_signed_ltb n). lia. Qed.

(* the integer ctypes of the platform: 1..8 bytes, and _Bool is unsigned *)
Definition wf_ity (T : ity) : Prop :=
  (1 <= isize T <= 8)%nat /\ (ibool T = true -> isigned T = false).

Theorem store_exact T v data : wf_ity T ->
  convert_from_object_int T v data =
  if in_range T v then (Ok tt, encode_int T v) else (Err OverflowError, data).
Proof.
  intros [Hs Hb]. unfold convert_from_object_int, in_range, encode_int, tbits.
  destruct (isigned T) eqn:Hsg.
  - assert (ibool T = false) as -> by (destruct (ibool T); auto; discriminate (Hb eq_refl)).
    assert (2 ^ (8 * Z.of_nat (isize T) - 1) <= 2 ^ 63) by (apply Z.pow_le_mono_r; lia).
    unfold as_longlong. destruct ((- 2 ^ 63 <=? v) && (v <? 2 ^ 63)) eqn:Hll.
    + rewrite read_signed_write, (fits_iff true) by lia.
      destruct ((- 2 ^ (8 * Z.of_nat (isize T) - 1) <=? v) && (v <=? 2 ^ (8 * Z.of_nat (isize T) - 1) - 1));
        reflexivity.
    + (* beyond long long: certainly out of T's range *)
      match goal with |- _ = if ?c then _ else _ => destruct c eqn:E end; [exfalso; lia | reflexivity].
  - assert (2 ^ (8 * Z.of_nat (isize T)) <= 2 ^ 64) by (apply Z.pow_le_mono_r; lia).
    unfold as_ulonglong_strict.
    destruct (v <? 0) eqn:Hneg; [|destruct (v <? 2 ^ 64) eqn:Hbig]; destruct (ibool T);
      (* refused by the converter: out of T's range as well *)
      try (match goal with |- (Err _, _) = if ?c then _ else _ => destruct c eqn:E end; [exfalso; lia | reflexivity]).
    + destruct (1 <? v) eqn:E1; destruct ((0 <=? v) && (v <=? 1)) eqn:E2; try reflexivity; exfalso; lia.
    + rewrite read_unsigned_write, (fits_iff false) by lia.
      match goal with |- _ = if ?c then _ else _ => destruct c end; reflexivity.
Qed.

Lemma in_range_longlong T v : wf_ity T -> isigned T = true -> in_range T v = true -> as_longlong v = Ok v.
Proof.
  intros [Hs Hb] Hsg. unfold in_range, tbits, as_longlong. rewrite Hsg.
  destruct (ibool T); [specialize (Hb eq_refl); congruence|]. intros Hr.
  assert (2 ^ (8 * Z.of_nat (isize T) - 1) <= 2 ^ 63) by (apply Z.pow_le_mono_r; lia).
  replace ((- 2 ^ 63 <=? v) && (v <? 2 ^ 63)) with true by lia. reflexivity.
Qed.

Theorem read_encode T v : wf_ity T -> in_range T v = true -> read_int T (encode_int T v) = v.
Proof.
  intros [Hs Hb] Hr. unfold read_int, encode_int, in_range, tbits in *.
  assert (2 ^ 8 <= 2 ^ (8 * Z.of_nat (isize T))) by (apply Z.pow_le_mono_r; lia).
  destruct (isigned T) eqn:Hsg; [rewrite read_signed_write by lia|rewrite read_unsigned_write by lia];
    (apply wrap_id; [lia|]); unfold in_bits; destruct (ibool T); lia.
Qed.

Ltac Zify.zify_post_hook ::= idtac.
