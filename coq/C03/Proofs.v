(* C03 — the API-mode converters and the callback result of C03/Model.v.  The regenerated bound expressions
   (C03/Gen.v) are evaluated for each SIZE (gen_signed_bounds, gen_unsigned_bounds); the body of the macro is
   proved once, for whatever bounds and return type it is given (to_c_fn_signed, to_c_fn_unsigned), and then
   instantiated (to_c_i_exact, to_c_u_exact, to_c_int_exact).  The memory path is C03/StoreProofs.v, exported here. *)
From Coq Require Import ZArith Znumtheory List Bool Lia ZifyBool Ascii String DecimalString.
From Cffi Require Export C03.MemProofs C03.StoreProofs.
From Cffi Require Import Base.Wrap C03.CExpr C03.CExprFacts C03.IR C03.Gen C03.Model.
Import ListNotations.
Open Scope Z_scope.

(* one `tmp OP bound` test of a macro with SIZE = N: the operator, and the type and value of the bound *)
Definition eval_check (N : Z) (c : binop * cexpr) : option (binop * cty * Z) :=
  match ceval (env_size N) (snd c) with
  | Some (t, z) => Some (fst c, t, z)
  | None => None
  end.

(* the bound expressions of the macros, evaluated with C semantics for every instantiated SIZE *)
Lemma gen_signed_bounds : forall N, In N [8; 16; 32; 64] ->
  map (eval_check N) signed_checks =
  [Some (BGt, TLL, 2 ^ (N - 1) - 1); Some (BLt, TLL, - 2 ^ (N - 1))].
Proof.
  intros N H. cbn [In] in H.
  destruct H as [<- | [<- | [<- | [<- | []]]]]; vm_compute; reflexivity.
Qed.

Lemma gen_unsigned_bounds : forall N, In N [8; 16; 32; 64] ->
  map (eval_check N) unsigned_checks = [Some (BGt, TULL, 2 ^ N - 1)].
Proof.
  intros N H. cbn [In] in H.
  destruct H as [<- | [<- | [<- | [<- | []]]]]; vm_compute; reflexivity.
Qed.

Lemma gen_conversions :
  signed_tmp_type = TLL /\ signed_conv = ConvLL /\ unsigned_tmp_type = TULL /\ unsigned_conv = ConvULL true.
Proof. repeat split. Qed.

(* every instantiation returns through a type that can hold all N-bit values of its signedness *)
Lemma gen_rettypes :
  forallb (fun p => (snd p <=? bits (fst p)) && is_signed (fst p)) signed_insts = true /\
  forallb (fun p => if is_signed (fst p) then snd p <? bits (fst p) else snd p <=? bits (fst p)) unsigned_insts = true.
Proof. vm_compute. split; reflexivity. Qed.

(* _cffi_include.h calls each converter through _cffi_exports[K] cast to a function type:
   slot K of the backend's table is that converter and the return types agree.  The macro name is
   "i" or "u" followed by N in decimal: its first character selects the signed or unsigned instantiations *)
Definition cast_ok (c : string * cty * nat) : bool :=
  let '(name, ret, k) := c in
  String.eqb (nth k backend_exports "") (String.append "_cffi_to_c_" name) &&
  match name with
  | String "i"%char _ => existsb (fun p => cty_eqb (fst p) ret &&
                       String.eqb name (String.append "i" (NilEmpty.string_of_uint (N.to_uint (Z.to_N (snd p)))))) signed_insts
  | String "u"%char _ => existsb (fun p => cty_eqb (fst p) ret &&
                       String.eqb name (String.append "u" (NilEmpty.string_of_uint (N.to_uint (Z.to_N (snd p)))))) unsigned_insts
  | _ => false
  end.

Lemma wrapT_id T v : (1 <= isize T)%nat -> in_range T v = true -> ibool T = false -> wrapT T v = v.
Proof.
  intros Hs Hr Hb. unfold in_range in Hr. rewrite Hb in Hr.
  apply (wrap_id (isigned T) (tbits T)); unfold in_bits, tbits in *; destruct (isigned T); lia.
Qed.

(* the last arm is the left-hand side again: no claim for operators other than the four comparisons *)
Lemma check_one_eval N tty tmp c o hi : eval_check N c = Some (o, tty, hi) ->
  fits tty tmp = true -> fits tty hi = true ->
  check_one N tty tmp c =
  match o with
  | BLt => Some (tmp <? hi) | BGt => Some (hi <? tmp) | BLe => Some (tmp <=? hi) | BGe => Some (hi <=? tmp)
  | _ => check_one N tty tmp c
  end.
Proof.
  unfold eval_check, check_one. destruct (ceval (env_size N) (snd c)) as [[t z]|]; [|discriminate].
  intros H Ht Hh. injection H as <- <- <-.
  rewrite eval_bin_same by assumption.
  destruct (fst c); try reflexivity; cbn [b2z]; match goal with |- context [b2z ?b] => destruct b end; reflexivity.
Qed.

Lemma any_check_signed N checks lo hi tmp :
  map (eval_check N) checks = [Some (BGt, TLL, hi); Some (BLt, TLL, lo)] ->
  fits TLL tmp = true -> fits TLL lo = true -> fits TLL hi = true ->
  any_check N TLL tmp checks = Some (negb ((lo <=? tmp) && (tmp <=? hi))).
Proof.
  intros H Ht Hl Hh. destruct checks as [|c1 [|c2 [|]]]; try discriminate.
  cbn [map] in H. injection H as H1 H2. cbn [any_check].
  rewrite (check_one_eval _ _ _ _ _ _ H1), (check_one_eval _ _ _ _ _ _ H2) by assumption.
  rewrite (Z.ltb_antisym tmp hi), (Z.ltb_antisym lo tmp).
  destruct (tmp <=? hi), (lo <=? tmp); reflexivity.
Qed.

Lemma any_check_unsigned N checks hi tmp :
  map (eval_check N) checks = [Some (BGt, TULL, hi)] ->
  fits TULL tmp = true -> fits TULL hi = true ->
  any_check N TULL tmp checks = Some (negb (tmp <=? hi)).
Proof.
  intros H Ht Hh. destruct checks as [|c1 [|]]; try discriminate.
  cbn [map] in H. injection H as H1. cbn [any_check].
  rewrite (check_one_eval _ _ _ _ _ _ H1) by assumption.
  rewrite (Z.ltb_antisym tmp hi). destruct (tmp <=? hi); reflexivity.
Qed.

Lemma fits_between t lo hi v : fits t lo = true -> fits t hi = true -> lo <= v <= hi -> fits t v = true.
Proof. unfold fits. lia. Qed.

(* the body of the signed macro, for whatever bounds its tests evaluate to and any return type that
   holds them: exactly the values between the bounds are accepted, and returned unchanged *)
Lemma to_c_fn_signed checks ret N lo hi v :
  map (eval_check N) checks = [Some (BGt, TLL, hi); Some (BLt, TLL, lo)] ->
  fits TLL lo = true -> fits TLL hi = true -> fits ret lo = true -> fits ret hi = true ->
  to_c_fn TLL ConvLL checks ret N v = if (lo <=? v) && (v <=? hi) then Ok v else Err OverflowError.
Proof.
  intros HB Hl Hh Hrl Hrh. unfold to_c_fn. cbn [run_conv]. unfold as_longlong.
  destruct ((- 2 ^ 63 <=? v) && (v <? 2 ^ 63)) eqn:Hll.
  - rewrite (any_check_signed _ _ _ _ _ HB) by (assumption || (apply fits_ll; lia)).
    destruct ((lo <=? v) && (v <=? hi)) eqn:Hr; cbn [negb]; [|reflexivity].
    rewrite conv_id; [reflexivity|]. apply (fits_between ret lo hi); auto. lia.
  - (* beyond long long: beyond the bounds, which are long longs *)
    apply fits_ll in Hl, Hh.
    destruct ((lo <=? v) && (v <=? hi)) eqn:Hr; [exfalso; lia|reflexivity].
Qed.

Lemma to_c_fn_unsigned checks ret N hi v :
  map (eval_check N) checks = [Some (BGt, TULL, hi)] ->
  fits TULL hi = true -> fits ret 0 = true -> fits ret hi = true ->
  to_c_fn TULL (ConvULL true) checks ret N v = if (0 <=? v) && (v <=? hi) then Ok v else Err OverflowError.
Proof.
  intros HB Hh Hr0 Hrh. unfold to_c_fn. cbn [run_conv]. unfold as_ulonglong_strict.
  apply fits_ull in Hh.
  destruct (v <? 0) eqn:Hneg; [|destruct (v <? 2 ^ 64) eqn:Hbig].
  - destruct ((0 <=? v) && (v <=? hi)) eqn:Hr; [exfalso; lia|reflexivity].
  - rewrite (any_check_unsigned _ _ _ _ HB) by (apply fits_ull; lia).
    replace (0 <=? v) with true by lia. cbn [andb]. destruct (Z.leb_spec v hi); cbn [negb]; [|reflexivity].
    rewrite conv_id; [reflexivity|]. apply (fits_between ret 0 hi); auto. lia.
  - destruct ((0 <=? v) && (v <=? hi)) eqn:Hr; [exfalso; lia|reflexivity].
Qed.

(* which return type instantiation N has, and that it holds the bounds, are facts of the regenerated
   table: evaluated *)
Ltac eval_inst :=
  match goal with |- context [inst_ret ?l ?n] =>
    let x := eval vm_compute in (inst_ret l n) in change (inst_ret l n) with x end; cbv iota beta.

Lemma to_c_i_exact N v : In N [8; 16; 32; 64] ->
  to_c_i N v = if (- 2 ^ (N - 1) <=? v) && (v <=? 2 ^ (N - 1) - 1) then Ok v else Err OverflowError.
Proof.
  intros HN. pose proof (gen_signed_bounds N HN) as HB. unfold to_c_i. cbn [In] in HN.
  destruct HN as [<- | [<- | [<- | [<- | []]]]]; eval_inst;
    (apply to_c_fn_signed; [exact HB|reflexivity..]).
Qed.

Lemma to_c_u_exact N v : In N [8; 16; 32; 64] ->
  to_c_u N v = if (0 <=? v) && (v <=? 2 ^ N - 1) then Ok v else Err OverflowError.
Proof.
  intros HN. pose proof (gen_unsigned_bounds N HN) as HB. unfold to_c_u. cbn [In] in HN.
  destruct HN as [<- | [<- | [<- | [<- | []]]]]; eval_inst;
    (apply to_c_fn_unsigned; [exact HB|reflexivity..]).
Qed.

(* the sizes _cffi_to_c_int has an arm for *)
Definition api_sizes (T : ity) : Prop :=
  isize T = 1%nat \/ isize T = 2%nat \/ isize T = 4%nat \/ isize T = 8%nat.

(* the arm of _cffi_to_c_int for sizeof(type) calls the converters of 8 * sizeof(type) bits *)
Lemma dispatch_arm T : api_sizes T ->
  find (fun a => fst (fst a) =? Z.of_nat (isize T)) to_c_int_dispatch = Some (Z.of_nat (isize T), tbits T, tbits T) /\
  In (tbits T) [8; 16; 32; 64].
Proof. unfold tbits. intros [-> | [-> | [-> | ->]]]; cbn; tauto. Qed.

Lemma to_c_int_exact T v : api_sizes T -> ibool T = false ->
  to_c_int T v = if in_range T v then Ok v else Err OverflowError.
Proof.
  intros Hs Hb. destruct (dispatch_arm T Hs) as (Hf & Hbits). unfold to_c_int. rewrite Hf.
  pose proof (wrapT_id T v) as W. unfold in_range in *. rewrite Hb in *.
  destruct (isigned T); [rewrite to_c_i_exact by exact Hbits|rewrite to_c_u_exact by exact Hbits];
    match goal with |- context [if ?c then Ok v else _] => destruct c end; try reflexivity;
    rewrite W; auto; unfold api_sizes in Hs; lia.
Qed.

Lemma to_c_bool_exact v :
  to_c_bool v = if (0 <=? v) && (v <=? 1) then Ok v else Err OverflowError.
Proof.
  unfold to_c_bool, as_longlong.
  destruct ((- 2 ^ 63 <=? v) && (v <? 2 ^ 63)) eqn:E.
  - destruct (Z.eqb_spec v 0); [subst; reflexivity|].
    destruct (Z.eqb_spec v 1); [subst; reflexivity|].
    destruct ((0 <=? v) && (v <=? 1)) eqn:E2; [exfalso; lia|reflexivity].
  - destruct ((0 <=? v) && (v <=? 1)) eqn:E2; [exfalso; lia|reflexivity].
Qed.

Lemma firstn_write_raw_8 s v : (s <= 8)%nat -> firstn s (write_raw 8 v) = write_raw s v.
Proof.
  intros Hs. apply firstn_encode_le, Hs.
Qed.

Lemma firstn_overwrite (new old : list Z) : firstn (List.length new) (overwrite new old) = new.
Proof.
  unfold overwrite. rewrite firstn_app, Nat.sub_diag, firstn_O, app_nil_r. apply firstn_all.
Qed.

Lemma fficallback_exact T v result : wf_ity T ->
  let r := convert_from_object_fficallback T v result in
  if in_range T v then fst r = Ok tt /\ firstn (isize T) (snd r) = encode_int T v
  else fst r = Err OverflowError.
Proof.
  intros Hwf. cbv zeta. unfold convert_from_object_fficallback. rewrite !store_exact by assumption.
  destruct (in_range T v) eqn:Hr; [|destruct (isize T <? 8)%nat, (isigned T); reflexivity].
  destruct (Nat.ltb_spec (isize T) 8); [destruct (isigned T) eqn:Hsg|]; cbn [fst snd].
  - rewrite (in_range_longlong T v) by assumption. cbn [fst snd].
    split; [reflexivity|apply firstn_write_raw_8; lia].
  - split; [reflexivity|]. unfold encode_int.
    rewrite <- (write_raw_length (isize T) v) at 1. apply firstn_overwrite.
  - split; [reflexivity|]. apply firstn_all2. unfold encode_int. rewrite write_raw_length. lia.
Qed.

