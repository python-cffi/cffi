(* C03 — Integer stores accept exactly the type's range and round-trip.

   T ranges over integer ctypes (size in bytes, signedness, _Bool flag; an enum is its base type);
   wf_ity T: 1 <= size <= 8 and _Bool is unsigned.  v ranges over ALL Python ints (Z).
   Memory paths (ffi.new initializer, item, field, ABI- and API-mode global, ABI argument buffer)
   all call convert_from_object on the address of the location (they differ only in how that
   address is computed, which is C16/C20's subject; C03_store_frame states the store at an
   offset of a larger object); enum ctypes carry CT_PRIMITIVE_SIGNED/UNSIGNED of their base type
   and convert_from_object never looks at CT_IS_ENUM, so an enum is the ity of its base type
   (tied by the correspondence run over five enums); API-mode arguments through _cffi_to_c_int / _cffi_to_c__Bool whose range
   tests are regenerated from the source text (C03/Gen.v) and evaluated with C semantics. *)
From Coq Require Import ZArith List Bool String Lia.
From Cffi Require Import C03.CExpr C03.IR C03.Gen C03.Model C03.Interp C03.Proofs.
Import ListNotations.
Open Scope Z_scope.

(* accepted iff in range; then the target holds exactly the little-endian encoding of v;
   rejected => OverflowError and the target bytes are unchanged *)
Theorem C03_store_exact : forall T v data, wf_ity T ->
  convert_from_object_int T v data =
  if in_range T v then (Ok tt, encode_int T v) else (Err OverflowError, data).
Proof. exact store_exact. Qed.
Print Assumptions C03_store_exact.

(* reading the location back yields exactly v *)
Theorem C03_roundtrip : forall T v, wf_ity T -> in_range T v = true ->
  read_int T (encode_int T v) = v.
Proof. exact read_encode. Qed.
Print Assumptions C03_roundtrip.

(* the store inside a larger object (array item, struct field, global, argument buffer): nothing
   outside the ct_size bytes at the target offset changes, whatever the outcome *)
Theorem C03_store_frame : forall T v off mem, wf_ity T -> (off + isize T <= List.length mem)%nat ->
  let r := store_at T v off mem in
  List.length (snd r) = List.length mem /\
  (forall j d, (j < off \/ off + isize T <= j)%nat -> nth j (snd r) d = nth j mem d) /\
  (if in_range T v then fst r = Ok tt /\ unit_at off (isize T) (snd r) = encode_int T v
   else r = (Err OverflowError, mem)).
Proof.
  intros T v off mem Hwf Hlen. cbv zeta. unfold store_at. rewrite store_exact by exact Hwf.
  destruct (in_range T v); cbn [fst snd].
  - assert (List.length (encode_int T v) = isize T) as L by apply write_raw_length.
    repeat split.
    + apply splice_length. lia.
    + intros j d Hj. apply nth_splice_outside; lia.
    + rewrite <- L at 1. apply unit_at_splice. lia.
  - rewrite splice_same by exact Hlen. repeat split; reflexivity.
Qed.
Print Assumptions C03_store_frame.

(* "or the value the C function received": whoever reads the stored bytes as a T gets v *)
Theorem C03_store_received : forall T v data bs, wf_ity T ->
  convert_from_object_int T v data = (Ok tt, bs) -> read_int T bs = v /\ in_range T v = true.
Proof.
  intros T v data bs Hwf E. rewrite store_exact in E by exact Hwf.
  destruct (in_range T v) eqn:R; [|discriminate]. injection E as <-.
  split; [apply read_encode; assumption|reflexivity].
Qed.
Print Assumptions C03_store_received.

(* objects that are not ints (not in the property's quantifier; the code's branches for them):
   floats and objects without __int__ raise TypeError and leave the target unchanged, an object
   with __int__ is treated as the int it returns *)
Theorem C03_store_obj_exact : forall T o data, wf_ity T ->
  store_obj T o data =
  match o with
  | PInt v | PIntLike v => if in_range T v then (Ok tt, encode_int T v) else (Err OverflowError, data)
  | PFloat | PNoInt => (Err TypeError, data)
  end.
Proof. intros T o data Hwf. destruct o; cbn [store_obj]; try reflexivity; apply store_exact; exact Hwf. Qed.
Print Assumptions C03_store_obj_exact.

(* the regenerated macro bounds are 2^(N-1)-1, -2^(N-1) and 2^N-1, of the types the comparison
   with `tmp` needs, for every instantiated SIZE; no C undefined behaviour in evaluating them *)
Theorem C03_gen_signed_bounds : forall N, In N [8; 16; 32; 64] ->
  map (eval_check N) signed_checks =
  [Some (BGt, TLL, 2 ^ (N - 1) - 1); Some (BLt, TLL, - 2 ^ (N - 1))].
Proof. exact gen_signed_bounds. Qed.
Print Assumptions C03_gen_signed_bounds.

Theorem C03_gen_unsigned_bounds : forall N, In N [8; 16; 32; 64] ->
  map (eval_check N) unsigned_checks = [Some (BGt, TULL, 2 ^ N - 1)].
Proof. exact gen_unsigned_bounds. Qed.
Print Assumptions C03_gen_unsigned_bounds.

(* instantiations, dispatch of _cffi_to_c_int, and the export-table slots/casts used by
   _cffi_include.h are consistent with the backend *)
Theorem C03_gen_tables :
  (map snd signed_insts = [8; 16; 32; 64] /\ map snd unsigned_insts = [8; 16; 32; 64] /\
   to_c_int_dispatch = [(1, 8, 8); (2, 16, 16); (4, 32, 32); (8, 64, 64)]) /\
  (forallb cast_ok include_casts = true /\ List.length include_casts = 8%nat /\
   nth 22 backend_exports ""%string = "_cffi_to_c__Bool"%string).
Proof. vm_compute. repeat split. Qed.
Print Assumptions C03_gen_tables.

(* API-mode argument: the C function receives exactly v iff v is in range, else OverflowError
   (never UB, never a wrapped value) *)
Theorem C03_api_arg_exact : forall T v, api_sizes T -> wf_ity T -> (ibool T = true -> isize T = 1%nat) ->
  api_arg T v = if in_range T v then Ok v else Err OverflowError.
Proof.
  intros T v Hs Hwf Hb1. unfold api_arg. destruct (ibool T) eqn:Hb.
  - rewrite to_c_bool_exact. unfold in_range. rewrite Hb. reflexivity.
  - apply to_c_int_exact; assumption.
Qed.
Print Assumptions C03_api_arg_exact.

(* all store paths agree, for every value *)
Theorem C03_paths_agree : forall T v data, api_sizes T -> wf_ity T -> (ibool T = true -> isize T = 1%nat) ->
  match api_arg T v, convert_from_object_int T v data with
  | Ok x, (Ok _, bs) => read_int T bs = x /\ x = v
  | Err e1, (Err e2, bs) => e1 = e2 /\ bs = data
  | _, _ => False
  end.
Proof.
  intros T v data Hs Hwf Hb1. rewrite C03_api_arg_exact, store_exact by assumption.
  destruct (in_range T v) eqn:E.
  - split; [apply read_encode; assumption|reflexivity].
  - split; reflexivity.
Qed.
Print Assumptions C03_paths_agree.

(* callback result: the C caller receives v if in range, else the callback's error value E *)
Theorem C03_callback_exact : forall T v E garbage, wf_ity T -> in_range T E = true ->
  List.length garbage = 8%nat ->
  callback_received T v E garbage = Ok (if in_range T v then (v, false) else (E, true)).
Proof.
  intros T v E garbage Hwf HE Hlen. unfold callback_received, callback_rawerr.
  pose proof (fficallback_exact T E (repeat 0 8) Hwf) as HEr. cbv zeta in HEr. rewrite HE in HEr.
  destruct (convert_from_object_fficallback T E (repeat 0 8)) as [rE bE]. cbn [fst snd] in HEr.
  destruct HEr as [-> HbE].
  pose proof (fficallback_exact T v garbage Hwf) as Hv. cbv zeta in Hv.
  destruct (convert_from_object_fficallback T v garbage) as [rv bv]. cbn [fst snd] in Hv.
  destruct (in_range T v) eqn:Hr.
  - destruct Hv as [-> Hbv]. rewrite Hbv. rewrite read_encode by assumption. reflexivity.
  - rewrite Hv. rewrite HbE. rewrite read_encode by assumption. reflexivity.
Qed.
Print Assumptions C03_callback_exact.

(* the statements of convert_from_object's integer branches as they stand in the source
   (regenerated: which helper and strict flag, every write and its destination, every
   `goto overflow` test, their order), executed, ARE the hand model above — for all T, v, data *)
Theorem C03_gen_store_refines : forall T v data, gen_store T v data = convert_from_object_int T v data.
Proof.
  (* the guards read the flags of T: told apart before the statements are run, cbn follows one path for each *)
  intros [n sg bl] v data.
  unfold gen_store, convert_from_object_int. cbn [isigned ibool isize].
  destruct sg.
  - unfold store_signed_prog. cbn [exec_store guard_on negb run_conv].
    destruct (as_longlong v) as [x|e|]; cbn [s_err s_val s_buf s_data s_set s_get]; try reflexivity.
    cbn [forallb atom_holds s_get s_val s_buf andb isize].
    destruct (negb (x =? read_raw_signed (write_raw n x))); reflexivity.
  - unfold store_unsigned_prog.
    destruct bl; cbn [exec_store guard_on negb run_conv ibool];
      destruct (as_ulonglong_strict v) as [x|e|]; cbn [s_err s_val s_buf s_data s_set s_get]; try reflexivity;
      cbn [forallb atom_holds s_get s_set s_val s_buf s_data s_err andb isize].
    + destruct (1 <? x); reflexivity.
    + destruct (negb (x =? read_raw_unsigned (write_raw n x))); reflexivity.
Qed.
Print Assumptions C03_gen_store_refines.

(* the target is written only after the range check succeeded: no statement that can fail follows
   a write to `data`, no test reads `data` *)
Theorem C03_gen_store_writes_after_checks :
  data_written_last store_signed_prog = true /\ data_written_last store_unsigned_prog = true.
Proof. split; reflexivity. Qed.
Print Assumptions C03_gen_store_writes_after_checks.

(* whenever the executed statements do not succeed the target bytes are the old ones *)
Theorem C03_gen_store_failure_pure : forall T v data, wf_ity T ->
  fst (gen_store T v data) <> Ok tt -> snd (gen_store T v data) = data.
Proof.
  intros T v data Hwf. rewrite C03_gen_store_refines, store_exact by exact Hwf.
  destruct (in_range T v); cbn [fst snd]; [congruence|reflexivity].
Qed.
Print Assumptions C03_gen_store_failure_pure.

(* likewise the narrow-result blocks of convert_from_object_fficallback (first conversion only to
   detect overflow, then a whole sign-extended ffi_arg; zero-fill then plain conversion) *)
Theorem C03_gen_fficallback_refines : forall T v result,
  gen_fficallback T v result = convert_from_object_fficallback T v result.
Proof.
  intros T v result.
  unfold gen_fficallback, convert_from_object_fficallback.
  destruct (isize T <? 8)%nat; [|reflexivity].
  destruct (isigned T).
  - unfold fcb_signed_prog. cbn [exec_fcb f_res f_val f_err f_env]. unfold tail_conv.
    destruct (convert_from_object_int T v (firstn (isize T) result)) as [[u|e|] low];
      cbn [exec_fcb f_res f_val f_err f_env run_conv]; try reflexivity.
    unfold as_longlong. destruct ((- 2 ^ 63 <=? v) && (v <? 2 ^ 63)); cbn [exec_fcb f_res f_val f_err f_env]; reflexivity.
  - unfold fcb_zeroext_prog. cbn [exec_fcb f_res f_val f_err f_env]. reflexivity.
Qed.
Print Assumptions C03_gen_fficallback_refines.

(* "one function for all paths" as an obligation on the source: each store path the property names —
   ffi.new initialiser (direct_newp), p[i] = v (cdata_ass_sub), p.f = v (cdata_setattro ->
   convert_field_from_object), struct / array initialisers, ABI-mode and API-mode global setters
   (dl_write_variable; lib_setattr -> write_global_var), the ABI argument loop of cdata_call, callback
   results, and API-mode _cffi_to_c through cffi_exports[] — textually calls convert_from_object, whose
   integer branches are the regenerated store_signed_prog / store_unsigned_prog above.  The facts are
   regenerated from src/c/_cffi_backend.c, lib_obj.c, cglob.c on every run (tools/props/c03_regen.py). *)
Theorem C03_paths_reach_convert_from_object : forallb (fun b : bool => b) all_paths = true.
Proof. reflexivity. Qed.
Print Assumptions C03_paths_reach_convert_from_object.
Example C03_ex_paths : List.length all_paths = 12%nat /\ path_direct_newp = true /\ path_global_api = true.
Proof. repeat split. Qed.

(* non-vacuity: the hypotheses are met by the platform's types, and both outcomes occur *)
Example C03_ex_wf : wf_ity (mk_ity 4 true false) /\ wf_ity (mk_ity 1 false true) /\
                    api_sizes (mk_ity 8 false false).
Proof. unfold wf_ity, api_sizes; cbn; repeat split; try lia; try discriminate; auto. Qed.
Example C03_ex_accept : convert_from_object_int (mk_ity 2 true false) (-32768) [170; 170] = (Ok tt, [0; 128]).
Proof. vm_compute. reflexivity. Qed.
Example C03_ex_reject : convert_from_object_int (mk_ity 2 true false) 32768 [170; 170] = (Err OverflowError, [170; 170]).
Proof. vm_compute. reflexivity. Qed.
Example C03_ex_api : api_arg (mk_ity 4 false false) (2 ^ 32 - 1) = Ok (2 ^ 32 - 1) /\
                     api_arg (mk_ity 4 false false) (2 ^ 32) = Err OverflowError /\
                     api_arg (mk_ity 8 true false) (- 2 ^ 63) = Ok (- 2 ^ 63) /\
                     api_arg (mk_ity 1 false true) 2 = Err OverflowError.
Proof. vm_compute. repeat split. Qed.
Example C03_ex_callback : callback_received (mk_ity 2 true false) 40000 (-7) (repeat 170 8) = Ok (-7, true).
Proof. vm_compute. reflexivity. Qed.
Example C03_ex_gen_store : gen_store (mk_ity 1 false false) 261 [255] = (Err OverflowError, [255]) /\
                           gen_store (mk_ity 2 true false) (-2) [0; 0] = (Ok tt, [254; 255]) /\
                           gen_fficallback (mk_ity 2 true false) (-2) (repeat 170 8) = (Ok tt, [254; 255; 255; 255; 255; 255; 255; 255]).
Proof. vm_compute. repeat split. Qed.
