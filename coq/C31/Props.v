(* C31 — Comments, spacing and line directives do not change a cdef's meaning.
   The lemmas they rest on are in C31/Proofs.v, Proofs2.v, Proofs3.v, Proofs4.v.  The model (C31/Model.v, C31/Order.v) is
   cparser.py's textual pre-processing and the front part of Parser._parse; it is tied to the code by differential tests
   on every run and by C31/Gen.v (regenerated from cparser.py on every run: regex sources, statement order).
   What is NOT covered by these theorems (tested only, tools/props/c31.py): pycparser's lexer and
   parser, and the '...' / extern "Python" / __stdcall rewriting.  The composed _preprocess is covered on plain
   declarations with one line directive (C31_preprocess_plain, C31_directive_insertion_plain) and on texts without
   '#' (C31_preprocess_hashfree_norm, C31_preprocess_hashfree, C31_insertion_preprocess_hashfree); for arbitrary
   texts the composed statement is false (C31_full_statement_refuted). *)
From Coq Require Import List NArith Bool.
From Coq Require Import Lia.
Import ListNotations.
From Cffi Require Import C31.Model C31.Proofs C31.Proofs2 C31.Proofs3 C31.Order C31.Proofs4.
From Cffi Require C31.Gen.
Open Scope N_scope.

(* TIES of the hand-modelled regular expressions to Python's `re` (differential runs of tools/props/c31.py on
   every ./check C31; a disagreement is reported under exactly these names):
     [tie-comment]    "C31.Model.sc vs cparser._r_comment.sub(replace_keeping_newlines)"   sc, block_end, line_end, closed
     [tie-words]      "C31.Model.words vs cparser._r_words.findall"                         words (lwords: same scanner, '\n' kept)
     [tie-preprocess] "C31.Model.preprocess vs cparser._preprocess"                         _r_other_whitespace (normalize_ws),
                      _r_line_directive (is_dirline, stash/restore), _r_define (define_at, value_end, macro_value), the
                      composition; on texts where the later '...'/extern "Python"/__stdcall rewriting finds nothing
     [tie-ctn]        "C31.Order.common_type_names vs cparser._common_type_names"
     [regen]          facts about C31/Gen.v, rewritten from cparser.py by tools/props/c31_regen.py on every run *)

(* comment removal never changes the number of line ends (all texts) *)
(* [tie-comment] *)
Theorem C31_newlines_preserved : forall s, count_nl (sc s) = count_nl s.
Proof.
  intros s. apply (sc_ind (fun s t => count_nl t = count_nl s)); try reflexivity.
  - intros c d r IH. rewrite !(count_nl_cons c), IH. reflexivity.
  - intros o body rest Ho IH. rewrite !count_nl_cons, !count_nl_app, count_nl_repeat, IH.
    destruct Ho as [-> | ->]; reflexivity.
Qed.
Print Assumptions C31_newlines_preserved.

(* at a cut outside comments the scanner works on both sides independently (all texts s2) *)
(* [tie-comment] *)
Theorem C31_scanner_compositional : forall s1, closed s1 -> forall s2, sc (s1 ++ s2) = sc s1 ++ sc s2.
Proof. exact sc_app. Qed.
Print Assumptions C31_scanner_compositional.

(* an inserted comment is, for every later step, a blank followed by its own newlines *)
(* [tie-comment] *)
Theorem C31_block_comment_is_space : forall s1 c nl s2, closed s1 ->
  block_end (c ++ [STAR; SLASH]) 0 = Some (nl, []) ->
  sc (s1 ++ (SLASH :: STAR :: c ++ [STAR; SLASH]) ++ s2) = sc s1 ++ (SP :: repeat NL nl) ++ sc s2.
Proof.
  intros s1 c nl s2 H1 H. rewrite (sc_app s1 H1).
  destruct (filler_ok _ (f_block c nl H)) as [Hc _].
  rewrite (sc_app _ Hc), (sc_block _ _ _ H). simpl. now rewrite app_nil_r.
Qed.
Print Assumptions C31_block_comment_is_space.

(* [tie-comment] *)
Theorem C31_line_comment_is_space : forall s1 c s2, closed s1 -> forallb plain_char c = true ->
  sc (s1 ++ (SLASH :: SLASH :: c ++ [NL]) ++ s2) = sc s1 ++ [SP; NL] ++ sc s2.
Proof.
  intros s1 c s2 H1 H. destruct (filler_ok _ (f_line c H)) as [Hc _].
  rewrite (sc_app s1 H1), (sc_app _ Hc).
  rewrite (sc_line _ _ _ (line_end_plain c [] 0%nat H)). reflexivity.
Qed.
Print Assumptions C31_line_comment_is_space.

(* central statement: inserting any sequence of white space, /* */ comments and // comments at a cut
   that is outside comments and does not split a word leaves the word sequence (\w+|\S, what
   _common_type_names and every later step sees) unchanged *)
(* [tie-comment] [tie-words] *)
Theorem C31_insertion_keeps_words : forall s1 f s2,
  closed s1 -> filler f -> word_boundary (sc s1) (sc s2) ->
  words (sc (s1 ++ f ++ s2)) = words (sc (s1 ++ s2)).
Proof.
  intros s1 f s2 H1 Hf Hb. destruct (filler_ok f Hf) as [Hc Hs].
  apply (insertion_generic is_space space_not_word); assumption.
Qed.
Print Assumptions C31_insertion_keeps_words.

(* ... and, when the filler contains no newline, also the line structure (newline kept as a token):
   what the line-based steps _r_define and _r_line_directive see *)
(* [tie-comment] [tie-words] *)
Theorem C31_inline_insertion_keeps_lines : forall s1 f s2,
  closed s1 -> inline_filler f -> word_boundary (sc s1) (sc s2) ->
  lwords (sc (s1 ++ f ++ s2)) = lwords (sc (s1 ++ s2)).
Proof.
  intros s1 f s2 H1 Hf Hb. destruct (inline_filler_ok f Hf) as [Hc Hs].
  apply (insertion_generic is_inline_space inline_space_not_word); assumption.
Qed.
Print Assumptions C31_inline_insertion_keeps_lines.

(* a backslash-newline inside the value part of a #define: the value group of _r_define extends over
   it, the rest of the text is the same, and the macro value is the same *)
(* [tie-preprocess] *)
Theorem C31_define_continuation : forall a b rest,
  forallb plain_char a = true -> forallb plain_char b = true ->
  value_end (a ++ BSL :: NL :: b ++ NL :: rest) = Some (a ++ BSL :: NL :: b, NL :: rest) /\
  value_end (a ++ b ++ NL :: rest) = Some (a ++ b, NL :: rest) /\
  macro_value (a ++ BSL :: NL :: b) = macro_value (a ++ b).
Proof.
  intros a b rest Ha Hb.
  assert (V : value_end (b ++ NL :: rest) = Some (b, NL :: rest)).
  { rewrite (value_end_plain b _ Hb). simpl. now rewrite app_nil_r. }
  repeat split.
  - rewrite (value_end_plain a _ Ha).
    change (value_end (BSL :: NL :: b ++ NL :: rest)) with
      (match value_end (b ++ NL :: rest) with Some (v, r) => Some (BSL :: NL :: v, r) | None => None end).
    now rewrite V.
  - rewrite (value_end_plain a _ Ha), V. reflexivity.
  - unfold macro_value. rewrite !(remove_bsnl_nobsl a) by now apply plain_nobsl.
    change (remove_bsnl (BSL :: NL :: b)) with (remove_bsnl b). reflexivity.
Qed.
Print Assumptions C31_define_continuation.

(* blanks around a macro value are irrelevant *)
(* [tie-preprocess] *)
Theorem C31_macro_value_blanks : forall ws1 v ws2,
  forallb is_space ws1 = true -> forallb is_space ws2 = true ->
  forallb (fun x => negb (x =? BSL)) v = true ->
  macro_value (ws1 ++ v ++ ws2) = macro_value v.
Proof.
  intros ws1 v ws2 H1 H2 Hv. unfold macro_value. rewrite (remove_bsnl_id v Hv), remove_bsnl_id.
  - now apply strip_ws_blanks.
  - now rewrite !forallb_app, Hv, !spaces_nobsl.
Qed.
Print Assumptions C31_macro_value_blanks.

(* stashing the line directives and putting them back is the identity on every text
   (nothing is raised when nothing happens in between) *)
(* [tie-preprocess] *)
Theorem C31_line_directives_roundtrip : forall s,
  put_back_line_directives (fst (remove_line_directives s)) (snd (remove_line_directives s)) = Ok s.
Proof. intros s. apply put_back_of_remove, surjective_pairing. Qed.
Print Assumptions C31_line_directives_roundtrip.

(* the stashed placeholder '#line@N' passes through comment removal untouched at any cut outside comments:
   the directive text (whose file name may contain comment openers) cannot confuse the comment scanner *)
(* [tie-comment] [tie-preprocess] *)
Theorem C31_placeholder_inert : forall s1 i s2, closed s1 ->
  sc (s1 ++ (s_lineat ++ dec i) ++ s2) = sc s1 ++ (s_lineat ++ dec i) ++ sc s2.
Proof.
  intros s1 i s2 H1. now rewrite (sc_app s1 H1), sc_placeholder.
Qed.
Print Assumptions C31_placeholder_inert.

(* Composed _preprocess (the five modelled stages: \r\f\v normalisation, directive stash, comment removal, #define
   extraction, directive restore) and the insertion of a line directive.
   `plain_text`: no '#', no '/', no \r \f \v -- declarations without comments, directives and #define lines; a
   decidable condition on the two sides of the insertion point.  In the MODEL the later rewriting steps ('...',
   extern "Python", __stdcall) do not exist, so "outside the rewritten constructs" cannot be expressed here: the
   theorem below is the positive statement for the modelled stages only; the positions inside those constructs
   are where the real parser fails (known finding directive_in_rewritten_construct, metamorphic test).
   Proved beside these theorems (Proofs3.preprocess_directives, of which this one and
   C31_directive_insertion_plain are the cases of no and of one directive, without comments): any number of directive
   lines between stretches of text without '#', comments allowed; every directive comes back verbatim, every stretch
   is scanned by itself.  NOT proved: #define lines on either side; a // comment on the line directly above a
   directive (a stretch before a directive must be `closed`); a directive on the first line, or on the last without
   a newline after it; covered by the metamorphic test. *)
(* [tie-preprocess] *)
Theorem C31_preprocess_plain : forall s, plain_text s = true -> preprocess s = Ok (s, []).
Proof.
  intros s H. destruct (plain_parts s H) as (Hh & Hs & Hn).
  now rewrite (preprocess_hashfree_norm s Hh), (normalize_id s Hn), (sc_noslash s Hs).
Qed.
Print Assumptions C31_preprocess_plain.

(* one line directive d -- any content, its file name may contain comment openers, '#', quotes -- inserted
   between two lines of plain declarations comes back verbatim at the same place; nothing else changes, no macro
   appears, no error *)
(* [tie-preprocess] *)
Theorem C31_directive_insertion_plain : forall x d y,
  plain_text x = true -> plain_text y = true ->
  is_dirline d = true -> nlfree d -> forallb (fun c => negb (other_ws c)) d = true ->
  preprocess (x ++ NL :: d ++ NL :: y) = Ok (x ++ NL :: d ++ NL :: y, []).
Proof. exact directive_insertion_plain. Qed.
Print Assumptions C31_directive_insertion_plain.

(* non-vacuity:  "int"  |  # 5 "a//b/*c"  |  "x;" *)
Example C31_directive_insertion_example :
  let d := [35;32;53;32;34;97;47;47;98;47;42;99;34] in
  plain_text [105;110;116] = true /\ plain_text [120;59] = true /\ is_dirline d = true /\
  preprocess ([105;110;116] ++ NL :: d ++ NL :: [120;59]) = Ok ([105;110;116] ++ NL :: d ++ NL :: [120;59], []).
Proof. vm_compute. repeat split; reflexivity. Qed.

Definition C31_full_statement : Prop :=
  forall s1 f s2, closed s1 -> filler f -> word_boundary (sc s1) (sc s2) ->
  match preprocess (s1 ++ f ++ s2), preprocess (s1 ++ s2) with
  | Ok (t1, m1), Ok (t2, m2) => words t1 = words t2 /\ m1 = m2
  | Err _, Err _ => True
  | _, _ => False
  end.

(* witness texts (C31/Proofs3.v): w_s1 = "#define X ", w_f = "/*\n*/", w_s2 = "1\n" *)
(* known finding define_multiline_comment: the macro X becomes empty and "1" stays in the text *)
(* [tie-preprocess] [tie-comment] [tie-words] *)
Theorem C31_full_statement_refuted : ~ C31_full_statement.
Proof. exact full_statement_refuted. Qed.
Print Assumptions C31_full_statement_refuted.

(* known finding comment_on_directive_line:  "/**/# 5"  is refused by _put_back_line_directives
   with a CDefError: the cdef still changes meaning *)
Example C31_comment_before_directive_raises :
  preprocess [47;42;42;47;35;32;53] = Err CDefError.
Proof. vm_compute. reflexivity. Qed.

(* \r, \f, \v are turned into blanks first (_r_other_whitespace): same words, none left *)
(* [tie-preprocess] [tie-words] *)
Theorem C31_normalize_keeps_words : forall s, words (normalize_ws s) = words s.
Proof. intros s. apply gwords_aux_normalize. Qed.
Print Assumptions C31_normalize_keeps_words.

(* [tie-preprocess] *)
Theorem C31_normalize_removes : forall s, forallb (fun c => negb (other_ws c)) (normalize_ws s) = true.
Proof.
  induction s as [|c s IH]; [reflexivity|]. unfold normalize_ws in *. simpl.
  destruct (other_ws c) eqn:O; [|rewrite O]; simpl; assumption.
Qed.
Print Assumptions C31_normalize_removes.

(* a continuation before the name:  "# \<nl> define \<nl> X 1\n"  is the macro X = "1" *)
Example C31_define_continuation_before_name :
  preprocess [35;32;92;10;32;100;101;102;105;110;101;32;92;10;32;88;32;49;10] = Ok ([10], [([88], [49])]).
Proof. vm_compute. reflexivity. Qed.

(* "int" | "/* a*b // */" "// x\n" "  \t\n" | "*y;"  : closed prefix, composite filler, word boundary *)
Example C31_example_filler :
  let s1 := [105;110;116] in
  let f := (SLASH :: STAR :: [32;97;42;98;32;47;47;32] ++ [STAR; SLASH]) ++ (SLASH :: SLASH :: [32;120] ++ [NL]) ++ [32;32;9;10] in
  let s2 := [42;121;59] in
  closed s1 /\ filler f /\ word_boundary (sc s1) (sc s2) /\
  words (sc (s1 ++ f ++ s2)) = [[105;110;116]; [42]; [121]; [59]].
Proof.
  intros s1 f s2. split; [|split; [|split]].
  - repeat (apply cl_plain; [discriminate|]). constructor.
  - apply f_app; [apply (f_block _ 0%nat); reflexivity|].
    apply f_app; [apply f_line; reflexivity|apply f_ws; reflexivity].
  - reflexivity.
  - reflexivity.
Qed.

(* the hypothesis `closed` excludes what it must: after "5 /" an inserted comment would become "//..." *)
Example C31_example_not_closed :
  sc ([53;32;47] ++ [47;42;99;42;47] ++ [50;10]) = [53;32;32;10] /\ ~ closed [53;32;47].
Proof.
  split; [reflexivity|]. intros H.
  inversion H as [|c r Hc Hr|d r H1 H2 Hr|r nl rest Hb Hr|r nl rest Hl Hr]; subst.
  inversion Hr as [|c r Hc2 Hr2| | |]; subst.
  inversion Hr2 as [|c r Hc3 Hr3| | |]; subst. now apply Hc3.
Qed.

(* #define X 1 \<nl> 2 : continuation in a value; directive stash on a text with two directives *)
Example C31_example_define :
  macro_value ([32;49;32] ++ BSL :: NL :: [32;50]) = [49;32;32;50] /\
  remove_line_directives [35;32;53;10;105;10;35;108;105;110;101;32;55] =
    ([35;108;105;110;101;64;48;10;105;10;35;108;105;110;101;64;49], [[35;32;53]; [35;108;105;110;101;32;55]]).
Proof. split; reflexivity. Qed.

(* [regen] the pattern text and flags of the five hand-modelled regular expressions, and the statements of
   _remove_line_directives ('#line@%d'), _put_back_line_directives ('#line@', s[6:], except (ValueError, IndexError))
   and _common_type_names are the ones the model was written for.  A finite comparison of regenerated constants. *)
Example C31_sources_pinned :
  Gen.r_comment_src = exp_r_comment_src /\ Gen.r_define_src = exp_r_define_src /\
  Gen.r_line_directive_src = exp_r_line_directive_src /\ Gen.r_words_src = exp_r_words_src /\
  Gen.r_other_whitespace_src = exp_r_other_whitespace_src /\
  [Gen.r_comment_flags; Gen.r_define_flags; Gen.r_line_directive_flags; Gen.r_words_flags; Gen.r_other_whitespace_flags]
    = exp_flags /\
  Gen.remove_line_directives_stmts = exp_remove_line_directives /\
  Gen.put_back_line_directives_stmts = exp_put_back_line_directives /\
  Gen.common_type_names_stmts = exp_common_type_names.
Proof. repeat split; reflexivity. Qed.

(* [regen] executing the REGENERATED list of the top-level statements of cparser._preprocess, each mapped to the model
   function it stands for (C31/Order.v: stage_of, run_pre; the '...'/__stdcall/extern "Python" steps are the identity
   on the model's domain), is Model.preprocess -- for every text.  Reordering, removing, adding or editing a statement
   of _preprocess makes this fail. *)
Theorem C31_preprocess_order_tie : forall s, run_preprocess Gen.preprocess_stmts s = Some (preprocess s).
Proof.
  intros s. unfold run_preprocess. rewrite preprocess_stages_computed. unfold preprocess, process_defines.
  cbn [run_pre]. destruct (remove_line_directives (normalize_ws s)) as [c d]. cbn [run_pre].
  destruct (defs (S (length (sc c))) true (sc c) []) as [t m]. cbn [fst snd].
  destruct (put_back_line_directives t d) as [c'|e]; reflexivity.
Qed.
Print Assumptions C31_preprocess_order_tie.

(* [regen] the front part of Parser._parse (regenerated statement list): _preprocess is called first, and
   _common_type_names scans the preprocessed text; the names pre-declared to pycparser are `declared` followed by the
   common type names found in the PREPROCESSED text that are not in `declared` (all texts, all sets of names) *)
Theorem C31_parse_front_tie : forall common declared raw,
  run_parse_front common declared Gen.parse_front_stmts raw = Some (parse_front common declared raw).
Proof.
  intros. unfold run_parse_front. rewrite parse_stages_computed. unfold parse_front. cbn [run_parse].
  destruct (preprocess raw) as [[t m]|e]; reflexivity.
Qed.
Print Assumptions C31_parse_front_tie.

(* no '#': nothing is stashed, no #define is found, nothing is raised; the result is the normalised text with every
   comment replaced by a blank and its newlines, and there are no macros *)
(* [tie-preprocess] [tie-comment] *)
Theorem C31_preprocess_hashfree_norm : forall s, nohash s -> preprocess s = Ok (sc (normalize_ws s), []).
Proof. exact preprocess_hashfree_norm. Qed.
Print Assumptions C31_preprocess_hashfree_norm.

(* [tie-preprocess] [tie-comment] *)
Theorem C31_preprocess_hashfree : forall s, nohash s -> no_other_ws s -> preprocess s = Ok (sc s, []).
Proof. intros s H Hn. rewrite (C31_preprocess_hashfree_norm s H), (normalize_id s Hn). reflexivity. Qed.
Print Assumptions C31_preprocess_hashfree.

(* for a cdef without '#' (no directives, no #define) and
   without \r \f \v, any sequence of comments and white space inserted at a cut outside comments that does not split
   a word leaves the words of the text handed on unchanged, produces no macro and raises nothing *)
(* [tie-preprocess] [tie-comment] [tie-words] *)
Theorem C31_insertion_preprocess_hashfree : forall s1 f s2,
  nohash (s1 ++ f ++ s2) -> no_other_ws (s1 ++ f ++ s2) ->
  closed s1 -> filler f -> word_boundary (sc s1) (sc s2) ->
  exists t1 t2, preprocess (s1 ++ f ++ s2) = Ok (t1, []) /\ preprocess (s1 ++ s2) = Ok (t2, []) /\
                words t1 = words t2.
Proof.
  intros s1 f s2 Hh Hn Hc Hf Hw.
  exists (sc (s1 ++ f ++ s2)), (sc (s1 ++ s2)). split; [|split].
  - apply C31_preprocess_hashfree; assumption.
  - apply C31_preprocess_hashfree; apply (drop_middle s1 f s2 Hh Hn).
  - apply C31_insertion_keeps_words; assumption.
Qed.
Print Assumptions C31_insertion_preprocess_hashfree.

(* the common type names (the names that get `typedef int NAME;` in front of the text given to pycparser) depend on
   the text only through its words *)
(* [tie-ctn] *)
Theorem C31_ctn_words_only : forall common t1 t2, words t1 = words t2 ->
  common_type_names common t1 = common_type_names common t2.
Proof. intros common t1 t2 H. unfold common_type_names. now rewrite H. Qed.
Print Assumptions C31_ctn_words_only.

(* comments cannot change which type names are pre-declared -- whatever their text ("typedef unsigned char uint8_t;"
   included), for every set of common types and every set of earlier typedefs; stated on the model's parse_front and on
   the regenerated statement order of Parser._parse *)
(* [tie-ctn] [tie-preprocess] [regen] *)
Theorem C31_typenames_comment_invariant : forall common declared s1 f s2,
  nohash (s1 ++ f ++ s2) -> no_other_ws (s1 ++ f ++ s2) ->
  closed s1 -> filler f -> word_boundary (sc s1) (sc s2) ->
  exists tn t1 t2,
    parse_front common declared (s1 ++ f ++ s2) = Ok (tn, t1, []) /\
    parse_front common declared (s1 ++ s2) = Ok (tn, t2, []) /\ words t1 = words t2.
Proof.
  intros common declared s1 f s2 Hh Hn Hc Hf Hw.
  destruct (C31_insertion_preprocess_hashfree s1 f s2 Hh Hn Hc Hf Hw) as (t1 & t2 & E1 & E2 & Ew).
  exists (declared ++ filter (fun n => negb (mem n declared)) (common_type_names common t1)), t1, t2.
  unfold parse_front. rewrite E1, E2, (C31_ctn_words_only common t1 t2 Ew). auto.
Qed.
Print Assumptions C31_typenames_comment_invariant.

Theorem C31_parse_front_comment_invariant : forall common declared s1 f s2,
  nohash (s1 ++ f ++ s2) -> no_other_ws (s1 ++ f ++ s2) ->
  closed s1 -> filler f -> word_boundary (sc s1) (sc s2) ->
  exists tn t1 t2,
    run_parse_front common declared Gen.parse_front_stmts (s1 ++ f ++ s2) = Some (Ok (tn, t1, [])) /\
    run_parse_front common declared Gen.parse_front_stmts (s1 ++ s2) = Some (Ok (tn, t2, [])) /\ words t1 = words t2.
Proof.
  intros common declared s1 f s2 Hh Hn Hc Hf Hw.
  destruct (C31_typenames_comment_invariant common declared s1 f s2 Hh Hn Hc Hf Hw) as (tn & t1 & t2 & E1 & E2 & Ew).
  exists tn, t1, t2. rewrite !C31_parse_front_tie, E1, E2. auto.
Qed.
Print Assumptions C31_parse_front_comment_invariant.

(* non-vacuity, and why the ORDER is part of the tie: the scanner applied to the raw text is not invariant.
   "uint8_t x;" pre-declares uint8_t; with "// typedef int uint8_t;\n" in front the raw scan finds nothing, while
   parse_front (scan after comment removal) still pre-declares uint8_t *)
Example C31_ctn_raw_not_invariant :
  filler ex_comment /\
  common_type_names ex_common ex_decl = [[117;105;110;116;56;95;116]] /\
  common_type_names ex_common (ex_comment ++ ex_decl) = [] /\
  parse_front ex_common [] (ex_comment ++ ex_decl) = Ok ([[117;105;110;116;56;95;116]], SP :: NL :: ex_decl, []).
Proof.
  split; [|vm_compute; repeat split; reflexivity].
  change ex_comment with (SLASH :: SLASH :: [32;116;121;112;101;100;101;102;32;105;110;116;32;117;105;110;116;56;95;116;59] ++ [NL]).
  apply f_line. reflexivity.
Qed.
