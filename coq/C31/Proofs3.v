(* C31 — the composed _preprocess model on '#'-free stretches of text (comments allowed) woven with line directives
   (hash_ok: no #define is found); the witness that refutes the composed statement for arbitrary fillers. *)
From Coq Require Import List NArith ZArith Bool Arith Lia ZifyBool.
Import ListNotations.
From Cffi Require Import C31.Model C31.Proofs C31.Proofs2.
Open Scope N_scope.

(* no '#' in s, hence neither directive nor #define (hypothesis of the C31_*_hashfree theorems) *)
Definition nohash (s : text) : Prop := Forall (fun c => c <> HASH) s.

Lemma plain_parts : forall s, plain_text s = true ->
  nohash s /\ Forall (fun c => c <> SLASH) s /\ forallb (fun c => negb (other_ws c)) s = true.
Proof.
  induction s as [|c s IH]; intros H.
  - split; [constructor|split; [constructor|reflexivity]].
  - unfold plain_text in H. simpl in H. apply andb_true_iff in H. destruct H as [Hc Hs].
    destruct (IH Hs) as (A & B & C).
    apply andb_true_iff in Hc. destruct Hc as [Hc H3]. apply andb_true_iff in Hc. destruct Hc as [H1 H2].
    apply negb_true_iff in H1, H2. apply N.eqb_neq in H1, H2.
    split; [constructor; assumption|split; [constructor; assumption|]]. simpl. now rewrite H3, C.
Qed.

Lemma normalize_id : forall s, forallb (fun c => negb (other_ws c)) s = true -> normalize_ws s = s.
Proof.
  induction s as [|c s IH]; intros H; [reflexivity|]. simpl in H. apply andb_true_iff in H. destruct H as [Hc Hs].
  unfold normalize_ws in *. simpl. apply negb_true_iff in Hc. rewrite Hc. now rewrite IH.
Qed.

Lemma split_aux_app_nl : forall a cur b,
  split_lines_aux cur (a ++ NL :: b) = split_lines_aux cur a ++ split_lines_aux [] b.
Proof.
  induction a as [|c a IH]; intros cur b; simpl.
  - reflexivity.
  - destruct (c =? NL); [now rewrite IH|apply IH].
Qed.

Lemma split_app_nl : forall a b, split_lines (a ++ NL :: b) = split_lines a ++ split_lines b.
Proof. intros. apply split_aux_app_nl. Qed.

Lemma split_nlfree : forall l, nlfree l -> split_lines l = [l].
Proof.
  intros l H. unfold split_lines. rewrite <- (app_nil_r l) at 1.
  rewrite split_aux_nlfree_prefix by assumption. reflexivity.
Qed.

Lemma split_aux_in : forall s cur l c, In l (split_lines_aux cur s) -> In c l -> In c cur \/ In c s.
Proof.
  induction s as [|a s IH]; intros cur l c Hl Hc; simpl in Hl.
  - destruct Hl as [<-|[]]. auto.
  - destruct (a =? NL).
    + destruct Hl as [<-|Hl]; [auto|]. destruct (IH _ _ _ Hl Hc) as [[]|H]; auto using in_cons.
    + destruct (IH _ _ _ Hl Hc) as [H|H]; [|auto using in_cons].
      apply in_app_or in H. destruct H as [H|[<-|[]]]; auto using in_eq.
Qed.

Lemma skip_while_in : forall p s c, In c (skip_while p s) -> In c s.
Proof.
  induction s as [|a s IH]; intros c H; simpl in H; [assumption|].
  destruct (p a); [right; auto|assumption].
Qed.

Lemma nohash_not_dirline : forall l, nohash l -> is_dirline l = false.
Proof.
  intros l H. unfold is_dirline. destruct (skip_while is_hspace l) as [|c r] eqn:E; [reflexivity|].
  assert (In c l) by (apply (skip_while_in is_hspace); rewrite E; apply in_eq).
  unfold nohash in H. rewrite Forall_forall in H. specialize (H c H0).
  apply N.eqb_neq in H. now rewrite H.
Qed.

Lemma lines_nodir : forall s, nohash s -> Forall (fun l => is_dirline l = false) (split_lines s).
Proof.
  intros s H. apply Forall_forall. intros l Hl. apply nohash_not_dirline.
  apply Forall_forall. intros c Hc. destruct (split_aux_in _ _ _ _ Hl Hc) as [[]|Hs].
  unfold nohash in H. rewrite Forall_forall in H. auto.
Qed.

Lemma stash_nodir : forall ls i, Forall (fun l => is_dirline l = false) ls -> stash_lines ls i = (ls, []).
Proof.
  induction 1 as [|l ls Hl Hls IH]; [reflexivity|]. rewrite stash_cons, Hl, IH. reflexivity.
Qed.

Lemma stash_prefix l1 : Forall (fun l => is_dirline l = false) l1 -> forall ls i,
  stash_lines (l1 ++ ls) i = let (o, st) := stash_lines ls i in (l1 ++ o, st).
Proof.
  induction 1 as [|l l1 Hl _ IH]; intros ls i; cbn [app]; [now destruct (stash_lines ls i)|].
  rewrite stash_cons, Hl, IH. now destruct (stash_lines ls i).
Qed.

Lemma restore_nodir : forall ls st, Forall (fun l => is_dirline l = false) ls -> restore_lines ls st = Ok ls.
Proof.
  induction 1 as [|l ls Hl Hls IH]; [reflexivity|]. rewrite restore_cons, Hl, IH. reflexivity.
Qed.

Lemma restore_one : forall l1 d l2, Forall (fun l => is_dirline l = false) l1 ->
  Forall (fun l => is_dirline l = false) l2 ->
  restore_lines (l1 ++ (s_lineat ++ dec 0) :: l2) [d] = Ok (l1 ++ d :: l2).
Proof.
  induction 1 as [|l l1 Hl Hl1 IH]; intros H2.
  - rewrite !app_nil_l. rewrite restore_cons, is_dirline_placeholder.
    pose proof (replace_placeholder 0 [] d [] eq_refl) as R. rewrite app_nil_l in R.
    rewrite R, (restore_nodir l2 [d] H2). reflexivity.
  - rewrite <- !app_comm_cons. rewrite restore_cons, Hl, (IH H2). reflexivity.
Qed.

(* #define extraction finds nothing when every '#' is followed by 'l' *)
Fixpoint hash_ok (s : text) : bool :=
  match s with
  | [] => true
  | c :: r => (if c =? HASH then match r with d :: _ => d =? 108 | [] => false end else true) && hash_ok r
  end.

Lemma hash_ok_skip : forall p s, hash_ok s = true -> hash_ok (skip_while p s) = true.
Proof.
  induction s as [|c s IH]; intros H; [reflexivity|]. simpl.
  destruct (p c); [|assumption]. simpl in H. apply andb_true_iff in H. now apply IH.
Qed.

Lemma define_at_none : forall s, hash_ok s = true -> define_at s = None.
Proof.
  intros s H. unfold define_at. pose proof (hash_ok_skip is_space s H) as H'.
  destruct (skip_while is_space s) as [|c r]; [reflexivity|].
  destruct (c =? HASH) eqn:E; [|reflexivity].
  simpl in H'. rewrite E in H'. destruct r as [|d r0]; [discriminate|].
  apply andb_true_iff in H'. destruct H' as [Hd _]. apply N.eqb_eq in Hd. subst d. reflexivity.
Qed.

Lemma defs_id : forall f bol s acc, hash_ok s = true -> defs f bol s acc = (s, acc).
Proof.
  induction f as [|f IH]; intros bol s acc H; [reflexivity|].
  destruct s as [|c r]; [reflexivity|]. simpl defs.
  assert (D : (if bol then define_at (c :: r) else None) = None)
    by (destruct bol; [now apply define_at_none|reflexivity]).
  rewrite D. simpl in H. apply andb_true_iff in H. destruct H as [_ Hr].
  now rewrite (IH (c =? NL) r acc Hr).
Qed.

Lemma hash_ok_nohash_app : forall a b, nohash a -> hash_ok (a ++ b) = hash_ok b.
Proof.
  induction 1 as [|c a Hc Ha IH]; [reflexivity|]. simpl. apply N.eqb_neq in Hc. rewrite Hc. exact IH.
Qed.

Lemma nohash_hash_ok : forall a, nohash a -> hash_ok a = true.
Proof. intros a H. rewrite <- (app_nil_r a). now rewrite hash_ok_nohash_app. Qed.

Lemma dec_nohash : forall i, nohash (dec i).
Proof. intros i. exact (uint_chars_not HASH (N.to_uint i) eq_refl). Qed.

Lemma placeholder_hash_ok : forall i rest, hash_ok rest = true -> hash_ok ((s_lineat ++ dec i) ++ rest) = true.
Proof. intros i rest H. rewrite <- app_assoc. cbn. now rewrite (hash_ok_nohash_app _ _ (dec_nohash i)). Qed.

Lemma sc_in : forall s c, In c (sc s) -> In c s \/ c = SP \/ c = NL.
Proof.
  intros s. apply (sc_ind (fun s t => forall c, In c t -> In c s \/ c = SP \/ c = NL)); auto.
  - intros c d r IH x [<-|Hx]; [left; apply in_eq|].
    destruct (IH x Hx) as [Hi|Hi]; [left; right; exact Hi | right; exact Hi].
  - intros o body rest _ IH x [<-|Hx]; [right; left; reflexivity|].
    apply in_app_or in Hx. destruct Hx as [Hx|Hx]; [right; right; apply repeat_spec in Hx; exact Hx|].
    destruct (IH x Hx) as [Hi|Hi]; [left; right; right; apply in_or_app; right; exact Hi | right; exact Hi].
Qed.

Lemma sc_nohash : forall s, nohash s -> nohash (sc s).
Proof.
  intros s H. unfold nohash in *. rewrite Forall_forall in *. intros c Hc.
  destruct (sc_in _ _ Hc) as [Hi|[->| ->]]; [auto|discriminate|discriminate].
Qed.

Lemma normalize_nohash : forall s, nohash s -> nohash (normalize_ws s).
Proof.
  intros s H. unfold nohash, normalize_ws in *. rewrite Forall_forall in *. intros c Hc.
  apply in_map_iff in Hc. destruct Hc as (x & <- & Hx). destruct (other_ws x); [discriminate|auto].
Qed.

Lemma defines_none s : hash_ok s = true -> process_defines s = (s, []).
Proof. apply defs_id. Qed.

Lemma lines_around x m y : nlfree m -> split_lines (x ++ NL :: m ++ NL :: y) = split_lines x ++ m :: split_lines y.
Proof. intros H. now rewrite !split_app_nl, (split_nlfree m H). Qed.

(* Every text the theorems on the composed preprocess speak of has one shape, x1 \n d1 \n x2 \n d2 \n ... y: stretches
   without '#' (comments allowed) separated by directive lines.  Each stage of _preprocess has one lemma on that shape
   (remove_weave, sc_weave, hash_ok_weave); the put-back stage has none, being the stash read backwards
   (Proofs2.put_back_of_remove).  `number i` is what the stash writes; the scanner leaves it alone (sc_placeholder), so
   the scanned text stashes to the same numbers again, and that is all put_back_of_remove asks. *)
Fixpoint weave (xds : list (text * text)) (y : text) : text :=
  match xds with [] => y | (x, d) :: r => x ++ NL :: d ++ NL :: weave r y end.

Fixpoint number (i : N) (xds : list (text * text)) : list (text * text) :=
  match xds with [] => [] | (x, d) :: r => (x, s_lineat ++ dec i) :: number (i + 1) r end.

Definition scanned (xds : list (text * text)) := map (fun xd => (sc (fst xd), snd xd)) xds.

Definition seg_ok (xd : text * text) : Prop := nohash (fst xd) /\ is_dirline (snd xd) = true /\ nlfree (snd xd).

Lemma stash_weave y xds : nohash y -> Forall seg_ok xds -> forall i,
  stash_lines (split_lines (weave xds y)) i = (split_lines (weave (number i xds) y), map snd xds).
Proof.
  intros Hy. induction 1 as [|[x d] r (Hx & Hd & Hnl) _ IH]; intros i; cbn [weave number map snd fst] in *.
  - apply stash_nodir, lines_nodir, Hy.
  - rewrite (lines_around x d _ Hnl), (lines_around x _ _ (placeholder_nlfree i)).
    now rewrite (stash_prefix _ (lines_nodir x Hx)), stash_cons, Hd, IH.
Qed.

Lemma remove_weave xds y : Forall seg_ok xds -> nohash y ->
  remove_line_directives (weave xds y) = (weave (number 0 xds) y, map snd xds).
Proof. intros H Hy. unfold remove_line_directives. now rewrite (stash_weave y xds Hy H 0), join_split. Qed.

Lemma sc_weave y xds : Forall (fun xd => closed (fst xd)) xds -> forall i,
  sc (weave (number i xds) y) = weave (number i (scanned xds)) (sc y).
Proof.
  induction 1 as [|[x d] r Hx _ IH]; intros i; cbn [weave number scanned map fst snd] in *; [reflexivity|].
  now rewrite (sc_app x Hx), sc_plain, sc_placeholder, sc_plain, IH by discriminate.
Qed.

Lemma hash_ok_weave y xds : nohash y -> Forall seg_ok xds -> forall i, hash_ok (weave (number i xds) y) = true.
Proof.
  intros Hy. induction 1 as [|[x d] r (Hx & _) _ IH]; intros i; cbn [weave number fst] in *; [now apply nohash_hash_ok|].
  rewrite (hash_ok_nohash_app _ _ Hx). apply (placeholder_hash_ok i (NL :: _)), IH.
Qed.

Lemma scanned_ok xds : Forall seg_ok xds -> Forall seg_ok (scanned xds).
Proof.
  intros H. apply Forall_map. eapply Forall_impl; [|exact H].
  intros xd (Hx & Hd). split; [apply sc_nohash, Hx | exact Hd].
Qed.

Lemma scanned_snd xds : map snd (scanned xds) = map snd xds.
Proof. unfold scanned. now rewrite map_map. Qed.

(* After the normalisation of white space: every directive comes back verbatim at its place, every stretch is scanned
   by itself, no macro is found, nothing is raised.  The put-back stage is not analysed: the result stashes to what the
   scanner left.  preprocess_hashfree_norm and directive_insertion_plain are the cases of no and of one directive.
   Not covered: a stretch before a directive that is not `closed` because its last line ends in a // comment (a //
   comment on the line directly above a directive: the newline that ends it stands in front of the directive, outside
   the stretch) or in '/'; a directive on the first line of the text, or on the last without a newline after it (weave
   puts a newline on either side of a directive); a '#' anywhere else (#define lines, '#' inside a comment or a
   string). *)
Theorem preprocess_directives s xds y :
  normalize_ws s = weave xds y -> Forall seg_ok xds -> Forall (fun xd => closed (fst xd)) xds -> nohash y ->
  preprocess s = Ok (weave (scanned xds) (sc y), []).
Proof.
  intros E0 Hd Hc Hy. pose proof (scanned_ok xds Hd) as Hd'. pose proof (sc_nohash y Hy) as Hy'.
  unfold preprocess. rewrite E0, (remove_weave xds y Hd Hy), (sc_weave y xds Hc 0), <- scanned_snd.
  now rewrite (defines_none _ (hash_ok_weave _ _ Hy' Hd' 0)), (put_back_of_remove _ _ _ (remove_weave _ _ Hd' Hy')).
Qed.

(* no '#': nothing is stashed, no #define is found, nothing is raised *)
Theorem preprocess_hashfree_norm s : nohash s -> preprocess s = Ok (sc (normalize_ws s), []).
Proof. intros H. apply (preprocess_directives s [] _ eq_refl); [constructor.. | now apply normalize_nohash]. Qed.

(* one line directive d (any content: its file name may contain comment openers, '#', quotes) inserted between
   two lines of plain declarations comes back verbatim, at the same place, and nothing else changes *)
Theorem directive_insertion_plain : forall x d y,
  plain_text x = true -> plain_text y = true ->
  is_dirline d = true -> nlfree d -> forallb (fun c => negb (other_ws c)) d = true ->
  preprocess (x ++ NL :: d ++ NL :: y) = Ok (x ++ NL :: d ++ NL :: y, []).
Proof.
  intros x d y Hx Hy Hd Hnl Hdn.
  destruct (plain_parts x Hx) as (Hxh & Hxs & Hxn). destruct (plain_parts y Hy) as (Hyh & Hys & Hyn).
  rewrite (preprocess_directives _ [(x, d)] y); cbn [weave scanned map fst snd];
    [now rewrite (sc_noslash x Hxs), (sc_noslash y Hys) | | repeat constructor; assumption
    | repeat constructor; now apply closed_noslash | assumption].
  apply normalize_id. rewrite forallb_app. cbn. rewrite forallb_app. cbn. now rewrite Hxn, Hdn, Hyn.
Qed.

Definition w_s1 : text := [35;100;101;102;105;110;101;32;88;32].     (* "#define X " *)
Definition w_f  : text := [47;42;10;42;47].                          (* block comment with a newline *)
Definition w_s2 : text := [49;10].                                   (* "1" newline *)

Lemma w_f_filler : filler w_f.
Proof. apply (f_block [10] 1%nat). reflexivity. Qed.

Lemma w_s1_closed : closed w_s1.
Proof. repeat (apply cl_plain; [discriminate|]). constructor. Qed.

Lemma full_statement_refuted :
  ~ (forall s1 f s2, closed s1 -> filler f -> word_boundary (sc s1) (sc s2) ->
     match preprocess (s1 ++ f ++ s2), preprocess (s1 ++ s2) with
     | Ok (t1, m1), Ok (t2, m2) => words t1 = words t2 /\ m1 = m2
     | Err _, Err _ => True
     | _, _ => False
     end).
Proof.
  intros H. specialize (H w_s1 w_f w_s2 w_s1_closed w_f_filler eq_refl).
  vm_compute in H. destruct H as [H _]. discriminate H.
Qed.
