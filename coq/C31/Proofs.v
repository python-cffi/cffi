(* C31 — proofs about the comment scanner and the word scanner (C31/Model.v). *)
From Coq Require Import List NArith Bool Arith Lia.
Import ListNotations.
From Cffi Require Import Base.ListFacts C31.Model.
Open Scope N_scope.

Lemma block_end_cons2 : forall c d r nl,
  block_end (c :: d :: r) nl =
  if (c =? STAR) && (d =? SLASH) then Some (nl, r)
  else block_end (d :: r) (if c =? NL then S nl else nl).
Proof. reflexivity. Qed.

Lemma line_end_cons : forall c r nl,
  line_end (c :: r) nl =
  if c =? NL then Some (nl, c :: r)
  else if c =? BSL then
    match r with
    | [] => None
    | d :: r' => line_end r' (if d =? NL then S nl else nl)
    end
  else line_end r nl.
Proof. reflexivity. Qed.

Lemma strip_cons2 : forall f c d r,
  strip (S f) (c :: d :: r) =
  if (c =? SLASH) && (d =? STAR) then
    match block_end r 0 with
    | Some (nl, rest) => SP :: repeat NL nl ++ strip f rest
    | None => c :: strip f (d :: r)
    end
  else if (c =? SLASH) && (d =? SLASH) then
    match line_end r 0 with
    | Some (nl, rest) => SP :: repeat NL nl ++ strip f rest
    | None => c :: strip f (d :: r)
    end
  else c :: strip f (d :: r).
Proof. reflexivity. Qed.

Lemma count_nl_cons : forall c s, count_nl (c :: s) = ((if (c =? NL)%N then 1 else 0) + count_nl s)%nat.
Proof. intros. unfold count_nl. simpl. destruct (c =? NL); reflexivity. Qed.

Lemma count_nl_app : forall a b, count_nl (a ++ b) = (count_nl a + count_nl b)%nat.
Proof. intros. unfold count_nl. now rewrite filter_app, app_length. Qed.

(* what both comment scanners return: the text is split into the part skipped and the part where scanning
   resumes, and the counter has advanced by the newlines skipped *)
Definition skips (s : text) (n nl : nat) (rest : text) : Prop :=
  exists body, s = body ++ rest /\ nl = (n + count_nl body)%nat.

Lemma skips_cons c s n nl rest :
  skips s (if c =? NL then S n else n) nl rest -> skips (c :: s) n nl rest.
Proof.
  intros (body & -> & ->). exists (c :: body). split; [reflexivity|].
  rewrite count_nl_cons. destruct (c =? NL); lia.
Qed.

Lemma block_end_skips : forall s n nl rest, block_end s n = Some (nl, rest) ->
  skips s n nl rest /\ (length rest < length s)%nat.
Proof.
  induction s as [|c r IH]; intros n nl rest H; [discriminate|].
  destruct r as [|d r']; [discriminate|]. rewrite block_end_cons2 in H.
  destruct ((c =? STAR) && (d =? SLASH)) eqn:E.
  - injection H as <- <-. apply andb_true_iff in E. destruct E as [E1 E2]. apply N.eqb_eq in E1, E2. subst.
    split; [exists [STAR; SLASH]; split; [reflexivity | cbn; lia] | cbn; lia].
  - apply IH in H. destruct H as [H L]. split; [apply skips_cons, H | cbn in *; lia].
Qed.

Lemma line_end_skips : forall s n nl rest, line_end s n = Some (nl, rest) ->
  skips s n nl rest /\ (length rest <= length s)%nat.
Proof.
  assert (H0 : forall s n, skips s n n s) by (intros; exists []; split; [reflexivity | cbn; lia]).
  induction s as [|c|c d r IHr IHdr] using list_ind2; intros n nl rest H.
  - cbn in H. injection H as <- <-. auto.
  - rewrite line_end_cons in H. destruct (c =? NL) eqn:Ec; [injection H as <- <-; auto|].
    destruct (c =? BSL); [discriminate|]. cbn in H. injection H as <- <-.
    split; [apply skips_cons; rewrite Ec; apply H0 | cbn; lia].
  - rewrite line_end_cons in H. destruct (c =? NL) eqn:Ec; [injection H as <- <-; auto|].
    destruct (c =? BSL).
    + apply IHr in H. destruct H as [H L]. split; [apply skips_cons; rewrite Ec; apply skips_cons, H | cbn in *; lia].
    + apply IHdr in H. destruct H as [H L]. split; [apply skips_cons; rewrite Ec; exact H | cbn in *; lia].
Qed.

Lemma block_end_len : forall s n nl rest,
  block_end s n = Some (nl, rest) -> (length rest < length s)%nat.
Proof. intros s n nl rest H. apply (block_end_skips _ _ _ _ H). Qed.

Lemma line_end_len : forall s n nl rest,
  line_end s n = Some (nl, rest) -> (length rest <= length s)%nat.
Proof. intros s n nl rest H. apply (line_end_skips _ _ _ _ H). Qed.

Lemma block_end_nl : forall s n nl rest, block_end s n = Some (nl, rest) ->
  (nl + count_nl rest = n + count_nl s)%nat.
Proof.
  intros s n nl rest H. destruct (proj1 (block_end_skips _ _ _ _ H)) as (body & -> & ->).
  rewrite count_nl_app. lia.
Qed.

Lemma strip_nil : forall f, strip f [] = [].
Proof. destruct f; reflexivity. Qed.

Lemma strip_fuel : forall f1 f2 s, (length s <= f1)%nat -> (length s <= f2)%nat ->
  strip f1 s = strip f2 s.
Proof.
  induction f1; intros f2 s H1 H2.
  - destruct s; [|simpl in H1; lia]. now rewrite !strip_nil.
  - destruct f2. { destruct s; [|simpl in H2; lia]. now rewrite !strip_nil. }
    destruct s as [|c r]; [reflexivity|].
    destruct r as [|d r']; [reflexivity|].
    rewrite !strip_cons2. simpl in H1, H2.
    assert (Hd : strip f1 (d :: r') = strip f2 (d :: r')) by (apply IHf1; simpl; lia).
    destruct ((c =? SLASH) && (d =? STAR)).
    + destruct (block_end r' 0) as [[nl rest]|] eqn:E.
      * apply block_end_len in E. f_equal. f_equal. apply IHf1; lia.
      * now rewrite Hd.
    + destruct ((c =? SLASH) && (d =? SLASH)).
      * destruct (line_end r' 0) as [[nl rest]|] eqn:E.
        -- apply line_end_len in E. f_equal. f_equal. apply IHf1; lia.
        -- now rewrite Hd.
      * now rewrite Hd.
Qed.

Lemma sc_nil : sc [] = [].
Proof. reflexivity. Qed.

Lemma sc_single : forall c, sc [c] = [c].
Proof. reflexivity. Qed.

Lemma strip_sc : forall f s, (length s <= f)%nat -> strip f s = sc s.
Proof. intros f s H. apply strip_fuel; [exact H | apply le_n]. Qed.

Lemma sc_cons2 : forall c d r,
  sc (c :: d :: r) =
  if (c =? SLASH) && (d =? STAR) then
    match block_end r 0 with
    | Some (nl, rest) => SP :: repeat NL nl ++ sc rest
    | None => c :: sc (d :: r)
    end
  else if (c =? SLASH) && (d =? SLASH) then
    match line_end r 0 with
    | Some (nl, rest) => SP :: repeat NL nl ++ sc rest
    | None => c :: sc (d :: r)
    end
  else c :: sc (d :: r).
Proof.
  intros. unfold sc at 1. change (length (c :: d :: r)) with (S (S (length r))).
  rewrite strip_cons2, (strip_sc _ (d :: r)) by (simpl; lia).
  destruct (block_end r 0) as [[nl rest]|] eqn:Eb;
    [apply block_end_len in Eb; rewrite (strip_sc _ rest) by lia|];
    (destruct (line_end r 0) as [[nl' rest']|] eqn:El;
       [apply line_end_len in El; rewrite (strip_sc _ rest') by lia|]); reflexivity.
Qed.

(* induction along the scanner; a comment is "/" o, the text it skips and the text after it *)
Lemma sc_ind (P : text -> text -> Prop) :
  P [] [] -> (forall c, P [c] [c]) ->
  (forall c d r, P (d :: r) (sc (d :: r)) -> P (c :: d :: r) (c :: sc (d :: r))) ->
  (forall o body rest, o = STAR \/ o = SLASH ->
     P rest (sc rest) -> P (SLASH :: o :: body ++ rest) (SP :: repeat NL (count_nl body) ++ sc rest)) ->
  forall s, P s (sc s).
Proof.
  intros H0 H1 Hcopy Hcom.
  assert (G : forall k s, (length s <= k)%nat -> P s (sc s)).
  { induction k; intros s Hk.
    - destruct s; [exact H0 | simpl in Hk; lia].
    - destruct s as [|c [|d r]]; [exact H0 | apply H1 |]. simpl in Hk.
      assert (Hd : P (c :: d :: r) (c :: sc (d :: r))) by (apply Hcopy, IHk; simpl; lia).
      assert (Hc : forall o nl rest, c = SLASH -> d = o -> o = STAR \/ o = SLASH ->
                skips r 0 nl rest /\ (length rest <= length r)%nat ->
                P (c :: d :: r) (SP :: repeat NL nl ++ sc rest)).
      { intros o nl rest -> -> Ho [(body & -> & ->) L]. apply Hcom; [exact Ho|]. apply IHk. lia. }
      rewrite sc_cons2.
      destruct ((c =? SLASH) && (d =? STAR)) eqn:E1; [|destruct ((c =? SLASH) && (d =? SLASH)) eqn:E2; [|exact Hd]].
      + destruct (block_end r 0) as [[nl rest]|] eqn:B; [|exact Hd].
        apply andb_true_iff in E1. destruct E1 as [Ea Eb]. apply N.eqb_eq in Ea, Eb.
        apply block_end_skips in B. apply (Hc STAR); auto. split; [apply B | lia].
      + destruct (line_end r 0) as [[nl rest]|] eqn:L; [|exact Hd].
        apply andb_true_iff in E2. destruct E2 as [Ea Eb]. apply N.eqb_eq in Ea, Eb.
        apply (Hc SLASH); auto. apply line_end_skips, L. }
  intros s. apply (G (length s)). lia.
Qed.

Lemma sc_plain : forall c r, c <> SLASH -> sc (c :: r) = c :: sc r.
Proof.
  intros c r H. destruct r as [|d r]; [reflexivity|].
  rewrite sc_cons2. apply N.eqb_neq in H. rewrite H. reflexivity.
Qed.

Lemma sc_slash : forall d r, d <> STAR -> d <> SLASH -> sc (SLASH :: d :: r) = SLASH :: sc (d :: r).
Proof.
  intros d r H1 H2. rewrite sc_cons2. apply N.eqb_neq in H1, H2. rewrite H1, H2.
  rewrite !andb_false_r. reflexivity.
Qed.

Lemma sc_block : forall r nl rest, block_end r 0 = Some (nl, rest) ->
  sc (SLASH :: STAR :: r) = SP :: repeat NL nl ++ sc rest.
Proof. intros r nl rest H. rewrite sc_cons2. change ((SLASH =? SLASH) && (STAR =? STAR)) with true. now rewrite H. Qed.

Lemma sc_line : forall r nl rest, line_end r 0 = Some (nl, rest) ->
  sc (SLASH :: SLASH :: r) = SP :: repeat NL nl ++ sc rest.
Proof.
  intros r nl rest H. rewrite sc_cons2.
  change ((SLASH =? SLASH) && (SLASH =? STAR)) with false.
  change ((SLASH =? SLASH) && (SLASH =? SLASH)) with true. cbv iota. now rewrite H.
Qed.

Lemma block_end_app : forall r n nl rest, block_end r n = Some (nl, rest) ->
  forall x, block_end (r ++ x) n = Some (nl, rest ++ x).
Proof.
  induction r as [|c r IH]; intros n nl rest H x; [discriminate|].
  destruct r as [|d r']; [discriminate|].
  rewrite block_end_cons2 in H.
  change ((c :: d :: r') ++ x) with (c :: d :: (r' ++ x)). rewrite block_end_cons2.
  destruct ((c =? STAR) && (d =? SLASH)).
  - now inversion H.
  - change (d :: r' ++ x) with ((d :: r') ++ x). now apply IH.
Qed.

Lemma line_end_app : forall r n nl rest, line_end r n = Some (nl, NL :: rest) ->
  forall x, line_end (r ++ x) n = Some (nl, NL :: rest ++ x).
Proof.
  induction r as [|c|c d r IHr IHdr] using list_ind2; intros n nl rest H x; [discriminate| |];
    simpl app; rewrite line_end_cons in H |- *.
  - destruct (c =? NL); [inversion H; subst; reflexivity|]. destruct (c =? BSL); discriminate.
  - destruct (c =? NL); [inversion H; subst; reflexivity|].
    destruct (c =? BSL); [apply IHr | apply (IHdr _ _ _ H)]; assumption.
Qed.

Theorem sc_app : forall s1, closed s1 -> forall s2, sc (s1 ++ s2) = sc s1 ++ sc s2.
Proof.
  induction 1 as [|c r Hc Hr IH|d r H1 H2 Hr IH|r nl rest Hb Hr IH|r nl rest Hl Hr IH]; intros s2.
  - reflexivity.
  - change ((c :: r) ++ s2) with (c :: (r ++ s2)). rewrite !sc_plain by assumption.
    now rewrite IH.
  - change ((SLASH :: d :: r) ++ s2) with (SLASH :: d :: (r ++ s2)).
    rewrite !sc_slash by assumption. change (d :: r ++ s2) with ((d :: r) ++ s2). now rewrite IH.
  - change ((SLASH :: STAR :: r) ++ s2) with (SLASH :: STAR :: (r ++ s2)).
    rewrite (sc_block _ _ _ (block_end_app _ _ _ _ Hb s2)), (sc_block _ _ _ Hb), IH.
    now rewrite app_comm_cons, app_assoc.
  - change ((SLASH :: SLASH :: r) ++ s2) with (SLASH :: SLASH :: (r ++ s2)).
    rewrite (sc_line _ _ _ (line_end_app _ _ _ _ Hl s2)), (sc_line _ _ _ Hl).
    change (NL :: rest ++ s2) with ((NL :: rest) ++ s2). rewrite IH.
    now rewrite app_comm_cons, app_assoc.
Qed.

Lemma closed_app : forall a, closed a -> forall b, closed b -> closed (a ++ b).
Proof.
  induction 1 as [|c r Hc Hr IH|d r H1 H2 Hr IH|r nl rest Hb Hr IH|r nl rest Hl Hr IH]; intros b Hcl.
  - assumption.
  - simpl. apply cl_plain; auto.
  - change ((SLASH :: d :: r) ++ b) with (SLASH :: d :: (r ++ b)). apply cl_slash; auto.
    change (d :: r ++ b) with ((d :: r) ++ b). auto.
  - change ((SLASH :: STAR :: r) ++ b) with (SLASH :: STAR :: (r ++ b)).
    eapply cl_block; [apply block_end_app; eassumption|auto].
  - change ((SLASH :: SLASH :: r) ++ b) with (SLASH :: SLASH :: (r ++ b)).
    eapply cl_line; [apply line_end_app; eassumption|].
    change (NL :: rest ++ b) with ((NL :: rest) ++ b). auto.
Qed.

Lemma count_nl_repeat : forall n, count_nl (repeat NL n) = n.
Proof. induction n; [reflexivity|]. simpl repeat. rewrite count_nl_cons, IHn. reflexivity. Qed.

Section WordsFacts.
  Variable sp : N -> bool.
  Hypothesis sp_not_word : forall c, sp c = true -> is_word c = false.

  Definition sep (c : N) : list text := if sp c then [] else [[c]].

  Lemma gwords_aux_nonword : forall x cur c y, is_word c = false ->
    gwords_aux sp cur (x ++ c :: y) = gwords_aux sp cur x ++ sep c ++ gwords_aux sp [] y.
  Proof.
    induction x as [|a x IH]; intros cur c y Hc.
    - simpl. rewrite Hc. reflexivity.
    - simpl. destruct (is_word a).
      + apply IH; assumption.
      + rewrite (IH [] c y Hc). unfold sep. now rewrite <- !app_assoc.
  Qed.

  Lemma gwords_nonword : forall x c y, is_word c = false ->
    gwords sp (x ++ c :: y) = gwords sp x ++ sep c ++ gwords sp y.
  Proof. intros. apply gwords_aux_nonword; assumption. Qed.

  Lemma gwords_spaces : forall ws y, forallb sp ws = true -> gwords sp (ws ++ y) = gwords sp y.
  Proof.
    induction ws as [|c ws IH]; intros y H; [reflexivity|].
    simpl in H. apply andb_true_iff in H. destruct H as [Hc Hw].
    unfold gwords. simpl. rewrite (sp_not_word _ Hc), Hc. simpl. now apply IH.
  Qed.

  Lemma gwords_space_sep : forall x ws y, ws <> [] -> forallb sp ws = true ->
    gwords sp (x ++ ws ++ y) = gwords sp x ++ gwords sp y.
  Proof.
    intros x ws y Hne H. destruct ws as [|c ws]; [congruence|].
    simpl in H. apply andb_true_iff in H. destruct H as [Hc Hw].
    change ((c :: ws) ++ y) with (c :: (ws ++ y)).
    rewrite gwords_nonword by auto. unfold sep. rewrite Hc. simpl.
    now rewrite gwords_spaces.
  Qed.

  Lemma last_is_word_snoc : forall x a, last_is_word (x ++ [a]) = is_word a.
  Proof. intros. unfold last_is_word. now rewrite rev_unit. Qed.

  Lemma gwords_boundary : forall x y, last_is_word x && first_is_word y = false ->
    gwords sp (x ++ y) = gwords sp x ++ gwords sp y.
  Proof.
    intros x y H. destruct y as [|c y].
    - now rewrite !app_nil_r.
    - destruct (is_word c) eqn:Ec.
      + (* then x does not end with a word character *)
        destruct x as [|x0 xs] using rev_ind; [reflexivity|].
        rewrite last_is_word_snoc in H. simpl in H. rewrite Ec, andb_true_r in H.
        rewrite <- app_assoc. change ([x0] ++ c :: y) with (x0 :: c :: y).
        rewrite gwords_nonword by assumption.
        rewrite (gwords_nonword xs x0 []) by assumption.
        change (gwords sp []) with (@nil text). now rewrite app_nil_r, <- app_assoc.
      + rewrite gwords_nonword by assumption.
        f_equal. unfold gwords. simpl. rewrite Ec. reflexivity.
  Qed.

  (* the central composition: a filler that is outside comments on both sides and that the comment
     scanner turns into separators only *)
  Lemma insertion_generic : forall s1 f s2,
    closed s1 -> closed f -> forallb sp (sc f) = true ->
    last_is_word (sc s1) && first_is_word (sc s2) = false ->
    gwords sp (sc (s1 ++ f ++ s2)) = gwords sp (sc (s1 ++ s2)).
  Proof.
    intros s1 f s2 H1 Hf Hsp Hb.
    rewrite (sc_app s1 H1), (sc_app f Hf), (sc_app s1 H1).
    rewrite (gwords_boundary _ _ Hb).
    destruct (sc f) as [|c ws] eqn:E.
    - simpl. now apply gwords_boundary.
    - apply gwords_space_sep; [discriminate|assumption].
  Qed.
End WordsFacts.
