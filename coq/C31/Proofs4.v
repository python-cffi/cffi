(* C31 — what the composed statements of C31/Props.v rest on beside Proofs3.v: the stages of the regenerated statement
   lists (Gen.v / Order.v), the hypothesis no_other_ws, and the example texts. *)
From Coq Require Import List NArith ZArith Bool Arith Lia ZifyBool.
Import ListNotations.
From Cffi Require Import Base.ListFacts C31.Model C31.Proofs C31.Proofs2 C31.Proofs3 C31.Order.
From Cffi Require C31.Gen.
Open Scope N_scope.

Lemma preprocess_stages_computed :
  map stage_of Gen.preprocess_stmts =
  [S_other_ws; S_remove_dirs; S_def_replace; S_comment; S_macros_init; S_define_loop; S_define_sub;
   S_later; S_later; S_later; S_later; S_later; S_later; S_later; S_later; S_later; S_later; S_later; S_later;
   S_put_back; S_return].
Proof. vm_compute. reflexivity. Qed.

Lemma parse_stages_computed :
  map pstage_of Gen.parse_front_stmts = [P_preprocess; P_ctn; P_typenames_init; P_typenames_loop; P_typenames_add].
Proof. vm_compute. reflexivity. Qed.

(* none of \r \f \v in s: normalize_ws is the identity on it (hypothesis of C31_preprocess_hashfree) *)
Definition no_other_ws (s : text) : Prop := forallb (fun c => negb (other_ws c)) s = true.

Lemma drop_middle : forall s1 f s2, nohash (s1 ++ f ++ s2) -> no_other_ws (s1 ++ f ++ s2) ->
  nohash (s1 ++ s2) /\ no_other_ws (s1 ++ s2).
Proof.
  unfold nohash, no_other_ws. intros s1 f s2 Hh Hn.
  apply Forall_app in Hh. destruct Hh as [H1 Hh]. apply Forall_app in Hh. destruct Hh as [_ H2].
  rewrite !forallb_app in *. apply andb_true_iff in Hn. destruct Hn as [N1 Hn]. apply andb_true_iff in Hn.
  destruct Hn as [_ N2]. split; [apply Forall_app; split; assumption | now rewrite N1, N2].
Qed.

(* why the order matters: applied to the RAW text (what the code would do if _common_type_names were called before
   _preprocess), the scanner is NOT invariant.   "uint8_t x;"  vs  "// typedef int uint8_t;\nuint8_t x;" *)
Definition ex_common : list text := [[115;105;122;101;95;116]; [117;105;110;116;56;95;116]].     (* size_t uint8_t *)
Definition ex_decl : text := [117;105;110;116;56;95;116;32;120;59].
Definition ex_comment : text :=
  [47;47;32;116;121;112;101;100;101;102;32;105;110;116;32;117;105;110;116;56;95;116;59;10].

