(* C31 — fillers, #define values, line splitting and line directives (C31/Model.v).  The put-back of the directives
   undoes their stash on every text (put_back_of_remove); turning \r \f \v into blanks keeps the words
   (gwords_aux_normalize); the chain replace_raw_errors .. preprocess_errors says that the modelled stages of
   _preprocess fail with CDefError only (C30/Props.v states it for cffi). *)
From Coq Require Import List NArith ZArith Bool Arith Lia ZifyBool DecimalN.
Import ListNotations.
From Cffi Require Import Base.ListFacts C31.Model C31.Proofs.
Open Scope N_scope.

Lemma space_not_word : forall c, is_space c = true -> is_word c = false.
Proof. intros c. unfold is_space, is_word, is_alpha_, is_digit, in_range. lia. Qed.

Lemma space_not_slash : forall c, is_space c = true -> c <> SLASH.
Proof. intros c. unfold is_space, in_range, SLASH. lia. Qed.

Lemma inline_space_is_space : forall c, is_inline_space c = true -> is_space c = true.
Proof. intros c. unfold is_inline_space. lia. Qed.

Lemma inline_space_not_word : forall c, is_inline_space c = true -> is_word c = false.
Proof. intros c H. apply space_not_word, inline_space_is_space, H. Qed.

Lemma sc_noslash : forall s, Forall (fun c => c <> SLASH) s -> sc s = s.
Proof. induction 1; [reflexivity|]. rewrite sc_plain by assumption. now f_equal. Qed.

Lemma closed_noslash : forall s, Forall (fun c => c <> SLASH) s -> closed s.
Proof. induction 1; constructor; assumption. Qed.

Lemma spaces_noslash : forall ws, forallb is_space ws = true -> Forall (fun c => c <> SLASH) ws.
Proof.
  intros ws H. apply Forall_forall. intros c Hc.
  apply space_not_slash. rewrite forallb_forall in H. auto.
Qed.

Lemma forallb_repeat_nl : forall n, forallb is_space (repeat NL n) = true.
Proof. induction n; [reflexivity|]. simpl. assumption. Qed.

Lemma line_end_plain : forall c s n, forallb plain_char c = true ->
  line_end (c ++ NL :: s) n = Some (n, NL :: s).
Proof.
  induction c as [|a c IH]; intros s n H.
  - reflexivity.
  - simpl in H. apply andb_true_iff in H. destruct H as [Ha Hc].
    change ((a :: c) ++ NL :: s) with (a :: (c ++ NL :: s)). rewrite line_end_cons.
    unfold plain_char in Ha. apply andb_true_iff in Ha. destruct Ha as [H1 H2].
    apply negb_true_iff in H1, H2. rewrite H1, H2. now apply IH.
Qed.

Lemma filler_ok : forall f, filler f -> closed f /\ forallb is_space (sc f) = true.
Proof.
  induction 1 as [ws H|c nl H|c H|a b Ha [IHa1 IHa2] Hb [IHb1 IHb2]].
  - pose proof (spaces_noslash _ H). split; [now apply closed_noslash|]. now rewrite sc_noslash.
  - split.
    + eapply cl_block; [eassumption|constructor].
    + rewrite (sc_block _ _ _ H). simpl. rewrite forallb_app, forallb_repeat_nl. reflexivity.
  - pose proof (line_end_plain c [] 0%nat H) as L. split.
    + eapply cl_line; [exact L|]. apply cl_plain; [discriminate|constructor].
    + rewrite (sc_line _ _ _ L). reflexivity.
  - split; [now apply closed_app|]. rewrite (sc_app a IHa1), forallb_app, IHa2, IHb2. reflexivity.
Qed.

Lemma inline_filler_ok : forall f, inline_filler f -> closed f /\ forallb is_inline_space (sc f) = true.
Proof.
  induction 1 as [ws H|c H|a b Ha [IHa1 IHa2] Hb [IHb1 IHb2]].
  - pose proof (spaces_noslash _ (forallb_impl _ _ _ inline_space_is_space H)).
    split; [now apply closed_noslash|]. now rewrite sc_noslash.
  - split.
    + eapply cl_block; [eassumption|constructor].
    + rewrite (sc_block _ _ _ H). reflexivity.
  - split; [now apply closed_app|]. rewrite (sc_app a IHa1), forallb_app, IHa2, IHb2. reflexivity.
Qed.

Lemma value_end_plain : forall a s, forallb plain_char a = true ->
  value_end (a ++ s) = match value_end s with Some (v, rest) => Some (a ++ v, rest) | None => None end.
Proof.
  induction a as [|c a IH]; intros s H.
  - simpl. destruct (value_end s) as [[v rest]|]; reflexivity.
  - simpl in H. apply andb_true_iff in H. destruct H as [Hc Ha].
    unfold plain_char in Hc. apply andb_true_iff in Hc. destruct Hc as [H1 H2].
    apply negb_true_iff in H1, H2. simpl. rewrite H1, H2, (IH s Ha).
    destruct (value_end s) as [[v rest]|]; reflexivity.
Qed.

Lemma remove_bsnl_cons : forall c r, c <> BSL -> remove_bsnl (c :: r) = c :: remove_bsnl r.
Proof.
  intros c r H. apply N.eqb_neq in H. destruct r as [|d r]; [reflexivity|].
  simpl. rewrite H. reflexivity.
Qed.

Lemma remove_bsnl_nobsl : forall a s, forallb (fun x => negb (x =? BSL)) a = true ->
  remove_bsnl (a ++ s) = a ++ remove_bsnl s.
Proof.
  induction a as [|c a IH]; intros s H; [reflexivity|].
  simpl in H. apply andb_true_iff in H. destruct H as [Hc Ha].
  apply negb_true_iff, N.eqb_neq in Hc.
  change ((c :: a) ++ s) with (c :: (a ++ s)). rewrite remove_bsnl_cons by assumption.
  now rewrite IH.
Qed.

Lemma plain_nobsl : forall a, forallb plain_char a = true -> forallb (fun x => negb (x =? BSL)) a = true.
Proof. intros a. apply forallb_impl. intros c. unfold plain_char. lia. Qed.

Lemma lstrip_app : forall v w,
  lstrip (v ++ w) = if forallb is_space v then lstrip w else lstrip v ++ w.
Proof.
  induction v as [|c v IH]; intros w; [reflexivity|].
  unfold lstrip in *. simpl. destruct (is_space c); [apply IH|reflexivity].
Qed.

Lemma lstrip_spaces : forall x, forallb is_space x = true -> lstrip x = [].
Proof. intros x H. rewrite <- (app_nil_r x), lstrip_app, H. reflexivity. Qed.

Lemma strip_ws_blanks : forall ws1 v ws2, forallb is_space ws1 = true -> forallb is_space ws2 = true ->
  strip_ws (ws1 ++ v ++ ws2) = strip_ws v.
Proof.
  intros ws1 v ws2 H1 H2. unfold strip_ws.
  rewrite (lstrip_app ws1), H1, (lstrip_app v).
  destruct (forallb is_space v) eqn:Ev.
  - rewrite (lstrip_spaces _ H2), (lstrip_spaces _ Ev). reflexivity.
  - rewrite rev_app_distr, (lstrip_app (rev ws2)).
    assert (forallb is_space (rev ws2) = true) as ->; [|reflexivity].
    rewrite forallb_forall in *. intros x Hx. apply H2. now apply in_rev.
Qed.

Lemma remove_bsnl_id : forall v, forallb (fun x => negb (x =? BSL)) v = true -> remove_bsnl v = v.
Proof. intros v H. pose proof (remove_bsnl_nobsl v [] H) as E. simpl in E. now rewrite !app_nil_r in E. Qed.

Lemma spaces_nobsl : forall ws, forallb is_space ws = true -> forallb (fun x => negb (x =? BSL)) ws = true.
Proof. intros ws. apply forallb_impl. intros c. unfold is_space, in_range, BSL. lia. Qed.

Lemma flat_split : forall s cur,
  flat_map (fun x => NL :: x) (split_lines_aux cur s) = NL :: cur ++ s.
Proof.
  induction s as [|c s IH]; intros cur.
  - simpl. now rewrite app_nil_r.
  - simpl. destruct (c =? NL) eqn:E.
    + apply N.eqb_eq in E. subst. simpl. rewrite IH. reflexivity.
    + rewrite IH, <- app_assoc. reflexivity.
Qed.

Lemma split_lines_aux_cons : forall s cur, exists l ls, split_lines_aux cur s = l :: ls.
Proof.
  induction s as [|c s IH]; intros cur; simpl; eauto.
  destruct (c =? NL); eauto.
Qed.

Lemma join_split : forall s, join_lines (split_lines s) = s.
Proof.
  intros s. unfold split_lines. pose proof (flat_split s []) as F.
  destruct (split_lines_aux_cons s []) as (l & ls & E). rewrite E in *.
  simpl in F. injection F as F. exact F.
Qed.

(* no newline in l: l is one line (hypothesis of C31_directive_insertion_plain) *)
Definition nlfree (l : text) : Prop := Forall (fun c => c <> NL) l.

Lemma split_aux_nlfree_prefix : forall l cur rest, nlfree l ->
  split_lines_aux cur (l ++ rest) = split_lines_aux (cur ++ l) rest.
Proof.
  intros l cur rest H. revert cur. induction H as [|c l Hc Hl IH]; intros cur.
  - now rewrite app_nil_r.
  - simpl. apply N.eqb_neq in Hc. rewrite Hc, IH, <- app_assoc. reflexivity.
Qed.

Lemma split_flat : forall ls cur, Forall nlfree ls ->
  split_lines_aux cur (flat_map (fun x => NL :: x) ls) = cur :: ls.
Proof.
  induction ls as [|l ls IH]; intros cur H; [reflexivity|].
  inversion H as [|? ? Hl Hls]; subst.
  simpl. rewrite split_aux_nlfree_prefix by assumption. now rewrite IH.
Qed.

Lemma split_join : forall ls, ls <> [] -> Forall nlfree ls -> split_lines (join_lines ls) = ls.
Proof.
  intros ls Hne H. destruct ls as [|l ls]; [congruence|].
  inversion H as [|? ? Hl Hls]; subst. unfold split_lines, join_lines.
  rewrite split_aux_nlfree_prefix by assumption. now apply split_flat.
Qed.

Lemma split_aux_nlfree : forall s cur, nlfree cur -> Forall nlfree (split_lines_aux cur s).
Proof.
  induction s as [|c s IH]; intros cur H; simpl.
  - constructor; [assumption|constructor].
  - destruct (c =? NL) eqn:E.
    + constructor; [assumption|]. apply IH. constructor.
    + apply IH. apply Forall_app. split; [assumption|]. constructor; [|constructor].
      now apply N.eqb_neq.
Qed.

Lemma chars_uint_chars : forall u, chars_uint (uint_chars u) = Some u.
Proof. induction u; simpl; try rewrite IHu; reflexivity. Qed.

Lemma uint_chars_not : forall c u, is_digit c = false -> Forall (fun d => d <> c) (uint_chars u).
Proof. intros c u H. induction u; simpl; constructor; try assumption; intros <-; discriminate H. Qed.

Lemma placeholder_without c i : is_digit c = false -> Forall (fun d => d <> c) s_lineat ->
  Forall (fun d => d <> c) (s_lineat ++ dec i).
Proof. intros Hc Hs. apply Forall_app. split; [exact Hs | now apply uint_chars_not]. Qed.

Lemma placeholder_nlfree i : nlfree (s_lineat ++ dec i).
Proof. apply placeholder_without; [reflexivity | repeat constructor; discriminate]. Qed.

Lemma sc_placeholder i s : sc ((s_lineat ++ dec i) ++ s) = (s_lineat ++ dec i) ++ sc s.
Proof.
  assert (F : Forall (fun c => c <> SLASH) (s_lineat ++ dec i))
    by (apply placeholder_without; [reflexivity | repeat constructor; discriminate]).
  now rewrite (sc_app _ (closed_noslash _ F)), (sc_noslash _ F).
Qed.

Lemma undec_dec : forall n, undec (dec n) = Some n.
Proof.
  intros n. unfold undec, dec. rewrite chars_uint_chars, DecimalN.Unsigned.of_to.
  destruct (uint_chars (N.to_uint n)) eqn:E; [|reflexivity].
  (* the rendering is never empty *)
  exfalso. destruct (N.to_uint n) eqn:U; try discriminate.
  pose proof (DecimalN.Unsigned.of_to n) as R. rewrite U in R. simpl in R. subst n. discriminate.
Qed.

Lemma is_dirline_placeholder : forall i, is_dirline (s_lineat ++ dec i) = true.
Proof. intros i. reflexivity. Qed.

Lemma starts_placeholder : forall i, starts_with s_lineat (s_lineat ++ dec i) = Some (dec i).
Proof. intros i. reflexivity. Qed.

Lemma restore_cons : forall l ls st,
  restore_lines (l :: ls) st =
  if is_dirline l then
    match replace l st with
    | Err e => Err e
    | Ok d => match restore_lines ls st with Ok out => Ok (d :: out) | Err e => Err e end
    end
  else match restore_lines ls st with Ok out => Ok (l :: out) | Err e => Err e end.
Proof. reflexivity. Qed.

Lemma replace_placeholder : forall i pre l st, length pre = N.to_nat i ->
  replace (s_lineat ++ dec i) (pre ++ l :: st) = Ok l.
Proof.
  intros i pre l st Hp. unfold replace, replace_raw. rewrite starts_placeholder.
  unfold py_int10. rewrite undec_dec. unfold py_index.
  assert ((0 <=? Z.of_N i)%Z = true) as -> by (apply Z.leb_le; apply N2Z.is_nonneg).
  assert (Z.to_nat (Z.of_N i) = N.to_nat i) as -> by lia.
  rewrite nth_error_app2 by lia. rewrite <- Hp, Nat.sub_diag. reflexivity.
Qed.

Lemma stash_cons : forall l ls i,
  stash_lines (l :: ls) i =
  if is_dirline l then
    let (out, st) := stash_lines ls (i + 1) in ((s_lineat ++ dec i) :: out, l :: st)
  else
    let (out, st) := stash_lines ls i in (l :: out, st).
Proof. reflexivity. Qed.

Lemma restore_stash : forall ls i pre out st,
  stash_lines ls i = (out, st) -> length pre = N.to_nat i ->
  restore_lines out (pre ++ st) = Ok ls.
Proof.
  induction ls as [|l ls IH]; intros i pre out st H Hp.
  - inversion H; subst. reflexivity.
  - rewrite stash_cons in H. destruct (is_dirline l) eqn:D.
    + destruct (stash_lines ls (i + 1)) as [out' st'] eqn:E. inversion H; subst. clear H.
      change (35 :: 108 :: 105 :: 110 :: 101 :: 64 :: dec i) with (s_lineat ++ dec i).
      rewrite restore_cons, is_dirline_placeholder, (replace_placeholder i pre l st' Hp).
      specialize (IH (i + 1) (pre ++ [l]) out' st' E).
      rewrite <- app_assoc in IH. simpl in IH. rewrite IH; [reflexivity|].
      rewrite app_length. simpl. lia.
    + destruct (stash_lines ls i) as [out' st'] eqn:E. injection H as <- <-.
      rewrite restore_cons, D. now rewrite (IH i pre out' st' E Hp).
Qed.

Lemma stash_nlfree : forall ls i out st, Forall nlfree ls -> stash_lines ls i = (out, st) ->
  Forall nlfree out /\ length out = length ls.
Proof.
  induction ls as [|l ls IH]; intros i out st Hn H.
  - inversion H; subst. split; [constructor|reflexivity].
  - inversion Hn as [|? ? Hl Hls]; subst. rewrite stash_cons in H. destruct (is_dirline l).
    + destruct (stash_lines ls (i + 1)) as [out' st'] eqn:E. inversion H; subst.
      destruct (IH _ _ _ Hls E) as [A B]. split; [|simpl; now rewrite B].
      constructor; [apply placeholder_nlfree | assumption].
    + destruct (stash_lines ls i) as [out' st'] eqn:E. inversion H; subst.
      destruct (IH _ _ _ Hls E) as [A B]. split; [|simpl; now rewrite B].
      constructor; assumption.
Qed.

(* the put-back stage needs no analysis of its own: it undoes the stash on whatever text stashes to (u, st) *)
Lemma put_back_of_remove t u st : remove_line_directives t = (u, st) -> put_back_line_directives u st = Ok t.
Proof.
  unfold remove_line_directives, put_back_line_directives.
  destruct (stash_lines (split_lines t) 0) as [out st'] eqn:E. intros [= <- <-].
  destruct (stash_nlfree _ _ _ _ (split_aux_nlfree t [] (Forall_nil _)) E) as [A B].
  assert (Hne : out <> []).
  { destruct (split_lines_aux_cons t []) as (l & ls & F). unfold split_lines in B. rewrite F in B.
    destruct out; [discriminate|congruence]. }
  rewrite (split_join out Hne A). change st' with ([] ++ st').
  now rewrite (restore_stash _ 0 [] out st' E eq_refl), join_split.
Qed.

Lemma other_ws_space : forall c, other_ws c = true -> is_space c = true /\ is_word c = false.
Proof. intros c. unfold other_ws, is_space, is_word, is_alpha_, is_digit, in_range. lia. Qed.

Lemma gwords_aux_normalize : forall s cur,
  gwords_aux is_space cur (normalize_ws s) = gwords_aux is_space cur s.
Proof.
  induction s as [|c s IH]; intros cur; [reflexivity|].
  unfold normalize_ws in *. simpl. destruct (other_ws c) eqn:O.
  - destruct (other_ws_space c O) as [Hs Hw]. rewrite Hw, Hs.
    change (is_word SP) with false. change (is_space SP) with true. cbv iota. now rewrite IH.
  - destruct (is_word c); now rewrite IH.
Qed.

(* the three ways replace() fails by itself *)
Lemma replace_raw_errors : forall l st x, replace_raw l st = Err x -> x = ValueError \/ x = IndexError.
Proof.
  intros l st x. unfold replace_raw. destruct (starts_with s_lineat l); [|intros H; inversion H; auto].
  destruct (py_int10 t); [|intros H; inversion H; auto].
  destruct (py_index st z); [discriminate|]. intros H; inversion H; auto.
Qed.

Lemma replace_errors : forall l st x, replace l st = Err x -> x = CDefError.
Proof.
  intros l st x. unfold replace. destruct (replace_raw l st) as [d|e] eqn:R; [discriminate|].
  destruct (replace_raw_errors _ _ _ R) as [-> | ->]; intros H; now inversion H.
Qed.

Lemma restore_errors : forall ls st x, restore_lines ls st = Err x -> x = CDefError.
Proof.
  induction ls as [|l ls IH]; intros st x H; [discriminate|].
  rewrite restore_cons in H. destruct (is_dirline l).
  - destruct (replace l st) as [d|e] eqn:R.
    + destruct (restore_lines ls st) eqn:E; [discriminate|]. inversion H; subst. eauto.
    + inversion H; subst. eapply replace_errors; eauto.
  - destruct (restore_lines ls st) eqn:E; [discriminate|]. inversion H; subst. eauto.
Qed.

Theorem preprocess_errors : forall s x, preprocess s = Err x -> x = CDefError.
Proof.
  intros s x. unfold preprocess. destruct (remove_line_directives (normalize_ws s)) as [s1 st].
  destruct (process_defines (sc s1)) as [s3 ms]. unfold put_back_line_directives.
  destruct (restore_lines (split_lines s3) st) as [ls|e] eqn:R; [discriminate|].
  intros H. inversion H; subst. eapply restore_errors; eauto.
Qed.
