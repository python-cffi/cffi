(* UTF-8 codec on lists of code points / bytes, as CPython's str.encode('utf-8') and
   bytes.decode('utf-8') (strict error handler): shortest form only, no surrogates, <= U+10FFFF.
   Definitions and the round-trip proof.  Run against CPython on generated inputs by the
   micro-suites of C24 and C32 (tools/props/c24.py, c32.py). *)
From Coq Require Import List NArith ZArith Bool Lia ZifyBool.
Import ListNotations.
Open Scope N_scope.

Definition is_surrogate (c : N) : bool := (55296 <=? c) && (c <=? 57343).   (* D800..DFFF *)
Definition is_scalar (c : N) : bool := negb (is_surrogate c) && (c <=? 1114111).

(* encoding of one code point; None: not encodable (UnicodeEncodeError) *)
Definition enc1 (c : N) : option (list N) :=
  if c <? 128 then Some [c]
  else if c <? 2048 then Some [192 + c / 64; 128 + c mod 64]
  else if c <? 65536 then
    if is_surrogate c then None
    else Some [224 + c / 4096; 128 + (c / 64) mod 64; 128 + c mod 64]
  else if c <=? 1114111 then
    Some [240 + c / 262144; 128 + (c / 4096) mod 64; 128 + (c / 64) mod 64; 128 + c mod 64]
  else None.

Fixpoint utf8_encode (s : list N) : option (list N) :=
  match s with
  | [] => Some []
  | c :: s' => match enc1 c, utf8_encode s' with
               | Some a, Some b => Some (a ++ b)
               | _, _ => None
               end
  end.

Definition is_cont (b : N) : bool := (128 <=? b) && (b <=? 191).

Definition ocons (c : N) (r : option (list N)) : option (list N) :=
  match r with Some l => Some (c :: l) | None => None end.

(* strict decoder; None: UnicodeDecodeError *)
Fixpoint utf8_decode (b : list N) : option (list N) :=
  match b with
  | [] => Some []
  | b0 :: r =>
    if b0 <? 128 then ocons b0 (utf8_decode r)
    else if b0 <? 194 then None                       (* continuation byte or overlong C0/C1 *)
    else if b0 <? 224 then
      match r with
      | b1 :: r1 => if is_cont b1 then ocons ((b0 - 192) * 64 + (b1 - 128)) (utf8_decode r1) else None
      | _ => None
      end
    else if b0 <? 240 then
      match r with
      | b1 :: b2 :: r2 =>
          if is_cont b1 && is_cont b2 then
            let c := (b0 - 224) * 4096 + (b1 - 128) * 64 + (b2 - 128) in
            if (c <? 2048) || is_surrogate c then None else ocons c (utf8_decode r2)
          else None
      | _ => None
      end
    else if b0 <? 245 then
      match r with
      | b1 :: b2 :: b3 :: r3 =>
          if is_cont b1 && is_cont b2 && is_cont b3 then
            let c := (b0 - 240) * 262144 + (b1 - 128) * 4096 + (b2 - 128) * 64 + (b3 - 128) in
            if (c <? 65536) || (1114111 <? c) then None else ocons c (utf8_decode r3)
          else None
      | _ => None
      end
    else None
  end.

Lemma cont_digit m : m < 64 -> is_cont (128 + m) = true.
Proof. unfold is_cont. lia. Qed.

Lemma add_sub_l k x : k + x - k = x.
Proof. rewrite N.add_comm. apply N.add_sub. Qed.

(* The decoder on a well-formed sequence, with the payload of the lead byte and the 6-bit
   digits of the continuation bytes as variables: only linear arithmetic is left.
   In each proof the tail is hidden behind a variable while the call on the head is unfolded and the guards on
   the lead byte are rewritten: with the tail in sight the nested calls would unfold as well. *)
Lemma dec1 c r : c < 128 -> utf8_decode (c :: r) = ocons c (utf8_decode r).
Proof. intros H. apply N.ltb_lt in H. cbn [utf8_decode]. rewrite H. reflexivity. Qed.

Lemma dec2 q m r : 2 <= q < 32 -> m < 64 ->
  utf8_decode (192 + q :: 128 + m :: r) = ocons (q * 64 + m) (utf8_decode r).
Proof.
  intros Hq Hm.
  assert ((192 + q <? 128) = false /\ (192 + q <? 194) = false /\ (192 + q <? 224) = true)
    as (G1 & G2 & G3) by lia.
  remember (128 + m :: r) as tl. cbn [utf8_decode]. rewrite G1, G2, G3. subst tl.
  rewrite cont_digit, !add_sub_l by assumption. reflexivity.
Qed.

Lemma dec3 c q m1 m0 r :
  c = q * 4096 + m1 * 64 + m0 -> q < 16 -> m1 < 64 -> m0 < 64 ->
  2048 <= c -> is_surrogate c = false ->
  utf8_decode (224 + q :: 128 + m1 :: 128 + m0 :: r) = ocons c (utf8_decode r).
Proof.
  intros Hc Hq H1 H0 Hlo Hs. apply N.ltb_ge in Hlo.
  assert ((224 + q <? 128) = false /\ (224 + q <? 194) = false /\ (224 + q <? 224) = false /\
          (224 + q <? 240) = true) as (G1 & G2 & G3 & G4) by (clear - Hq; lia).
  remember (128 + m1 :: 128 + m0 :: r) as tl. cbn [utf8_decode]. rewrite G1, G2, G3, G4. subst tl.
  rewrite !cont_digit by assumption. cbv zeta. rewrite !add_sub_l, <- Hc, Hs, Hlo. reflexivity.
Qed.

Lemma dec4 c q m2 m1 m0 r :
  c = q * 262144 + m2 * 4096 + m1 * 64 + m0 -> m2 < 64 -> m1 < 64 -> m0 < 64 ->
  65536 <= c <= 1114111 ->
  utf8_decode (240 + q :: 128 + m2 :: 128 + m1 :: 128 + m0 :: r) = ocons c (utf8_decode r).
Proof.
  intros Hc H2 H1 H0 Hr.
  assert ((240 + q <? 128) = false /\ (240 + q <? 194) = false /\ (240 + q <? 224) = false /\
          (240 + q <? 240) = false /\ (240 + q <? 245) = true /\
          (c <? 65536) = false /\ (1114111 <? c) = false) as (G1 & G2 & G3 & G4 & G5 & G6 & G7) by lia.
  remember (128 + m2 :: 128 + m1 :: 128 + m0 :: r) as tl. cbn [utf8_decode]. rewrite G1, G2, G3, G4, G5. subst tl.
  rewrite !cont_digit by assumption. cbv zeta. rewrite !add_sub_l, <- Hc, G6, G7. reflexivity.
Qed.

Lemma digits64 c : exists q m, c / 64 = q /\ c mod 64 = m /\ c = 64 * q + m /\ m < 64.
Proof.
  exists (c / 64), (c mod 64). repeat split; [apply N.div_mod | apply N.mod_lt]; discriminate.
Qed.

Lemma dec_enc1 c rest :
  match enc1 c with Some a => utf8_decode (a ++ rest) = ocons c (utf8_decode rest) | None => True end.
Proof.
  unfold enc1.
  assert (c / 4096 = c / 64 / 64) as -> by (rewrite N.div_div; [reflexivity | discriminate ..]).
  assert (c / 262144 = c / 64 / 64 / 64) as -> by (rewrite !N.div_div; [reflexivity | discriminate ..]).
  destruct (digits64 c) as (q1 & m0 & -> & -> & H0 & L0).
  destruct (digits64 q1) as (q2 & m1 & -> & -> & H1 & L1).
  destruct (digits64 q2) as (q3 & m2 & -> & -> & H2 & L2).
  destruct (c <? 128) eqn:E1.
  { apply dec1, N.ltb_lt, E1. }
  destruct (c <? 2048) eqn:E2.
  { cbn [app]. rewrite dec2 by (assumption || lia). f_equal. lia. }
  destruct (c <? 65536) eqn:E3.
  { destruct (is_surrogate c) eqn:Es; [exact I|]. apply dec3; [lia | lia | assumption | assumption | lia | exact Es]. }
  destruct (c <=? 1114111) eqn:E4; [|exact I].
  apply dec4; [lia | assumption .. | lia].
Qed.

Theorem utf8_roundtrip : forall s b, utf8_encode s = Some b -> utf8_decode b = Some s.
Proof.
  induction s as [|c s IH]; intros b H; cbn in H.
  - inversion H. reflexivity.
  - pose proof (dec_enc1 c) as D.
    destruct (enc1 c) as [a|]; [|discriminate].
    destruct (utf8_encode s) as [b'|] eqn:E'; [|discriminate].
    inversion H; subst. rewrite D, (IH _ eq_refl). reflexivity.
Qed.

Lemma enc1_scalar c : (exists a, enc1 c = Some a) <-> is_scalar c = true.
Proof.
  unfold enc1, is_scalar, is_surrogate. split.
  - intros [a H]. destruct (c <? 128) eqn:E1; [lia|]. destruct (c <? 2048) eqn:E2; [lia|].
    destruct (c <? 65536) eqn:E3.
    + destruct ((55296 <=? c) && (c <=? 57343)) eqn:E; [discriminate|]. lia.
    + destruct (c <=? 1114111) eqn:E4; [lia|discriminate].
  - intros H. destruct (c <? 128); [eauto|]. destruct (c <? 2048); [eauto|].
    destruct (c <? 65536) eqn:E3.
    + destruct ((55296 <=? c) && (c <=? 57343)) eqn:E; [lia|eauto].
    + assert (c <=? 1114111 = true) as -> by lia. eauto.
Qed.

Corollary utf8_encode_injective : forall s1 s2 b,
  utf8_encode s1 = Some b -> utf8_encode s2 = Some b -> s1 = s2.
Proof.
  intros s1 s2 b H1 H2. apply utf8_roundtrip in H1, H2. congruence.
Qed.
