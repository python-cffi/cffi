(* C29 — the info tuple of a callback stays alive while it is needed: a reference-count layer on top of the
   allocator model, with invocations that are IN FLIGHT while other operations happen.

   The tuple built by b_callback is owned by closure->user_data alone (count 1).  An invocation of the closure
   runs general_invoke_callback on that tuple; its events (INCREF / DECREF of the tuple, reads of the tuple or
   through pointers borrowed from it, call-outs during which arbitrary Python code runs) come from the
   regenerated C29/GenInvoke.v.  An invocation is suspended at every call-out ([RInvokeEnter] runs it up to its
   first call-out, [RInvokeExit] resumes the innermost one up to its next call-out or its return); while it is
   suspended ANY operation may happen — in particular [Drop h] of the very callback that is running
   (cdataowninggc_dealloc: Py_XDECREF(closure->user_data); cffi_closure_free), creations that take over the
   freed closure address, and nested invocations (also of the same callback).
   Tuples therefore have their own identity (a closure address can be given to a new callback while an
   invocation of its previous owner is still in flight).  Reading a tuple whose count has reached 0 sets
   [uaf]: the next 4-tuple (e.g. the next callback's info tuple) may occupy its memory and the running
   invocation would then use that callback's function, error value and onerror handler.
   After the model: the invariant [RInv] (the counts cover the references of closures and of invocations in
   flight), kept by every step for any event list that is held at its uses (rstep_inv), and the theorems
   that C29/Props.v instantiates with the regenerated events. *)
From Coq Require Import ZArith NArith List Bool Lia.
Import ListNotations.
From Cffi Require Import C29.Model C29.Proofs C29.Invoke C29.GenInvoke.
Open Scope Z_scope.

Record frame := { f_tup : N;               (* the tuple (cb_args) this invocation works on *)
                  f_own : Z;               (* ghost: references it holds itself (INCREFs - DECREFs so far) *)
                  f_rest : list gev }.     (* the events still to come on its path *)

Record rstate := {
  base : state;
  tupof : list (addr * N);       (* closure->user_data: closure address -> tuple *)
  trefs : list (N * Z);          (* allocated tuples and their reference counts (absent = freed) *)
  ntup : N;                      (* next tuple identity *)
  frames : list frame;           (* invocations in flight, innermost first *)
  uaf : bool }.                  (* some invocation touched a freed tuple *)
Definition rinit : rstate :=
  {| base := init; tupof := []; trefs := []; ntup := 0; frames := []; uaf := false |}.

Fixpoint tremove (t : N) (l : list (N * Z)) : list (N * Z) :=
  match l with
  | [] => []
  | (t', r) :: l' => if N.eqb t t' then tremove t l' else (t', r) :: tremove t l'
  end.
Definition tset (t : N) (r : Z) (l : list (N * Z)) : list (N * Z) :=
  if r <=? 0 then tremove t l else (t, r) :: tremove t l.            (* count 0: tuple_dealloc *)
Definition tdec (t : N) (l : list (N * Z)) : list (N * Z) :=
  match lookup N.eqb t l with Some r => tset t (r - 1) l | None => l end.
Fixpoint aremove (a : addr) (l : list (addr * N)) : list (addr * N) :=
  match l with
  | [] => []
  | (a', t) :: l' => if addr_eqb a a' then aremove a l' else (a', t) :: aremove a l'
  end.

(* run the events of one invocation on tuple t up to (and including) the next call-out, or to the end.
   Result: the counts, the invocation's own references, Some rest (suspended) / None (returned), and
   whether every touch of the tuple found it allocated *)
Fixpoint advance (t : N) (p : list gev) (tr : list (N * Z)) (own : Z)
  : list (N * Z) * Z * option (list gev) * bool :=
  match p with
  | [] => (tr, own, None, true)
  | e :: p' =>
      match e with
      | GInc => match lookup N.eqb t tr with
                | Some r => advance t p' (tset t (r + 1) tr) (own + 1)
                | None => (tr, own, None, false) end
      | GDec => match lookup N.eqb t tr with
                | Some r => advance t p' (tset t (r - 1) tr) (own - 1)
                | None => (tr, own, None, false) end
      | GUse => match lookup N.eqb t tr with
                | Some _ => advance t p' tr own
                | None => (tr, own, None, false) end
      | GCall => match lookup N.eqb t tr with
                 | Some _ => (tr, own, Some p', true)
                 | None => (tr, own, None, false) end
      | _ => advance t p' tr own
      end
  end.

Inductive rop :=
| RBase (o : op)                  (* Create / CreateFail / Drop / Call (Call: which function is bound, no counts) *)
| RInvokeEnter (h : N) (k : nat)  (* the closure of h is entered; general_invoke_callback takes path k and runs
                                     up to its first call-out *)
| RInvokeExit.                    (* the Python code run by the innermost invocation in flight returns: that
                                     invocation continues to its next call-out, or returns to its C caller *)

Definition finish (rs : rstate) (t : N) (fs : list frame)
                  (res : list (N * Z) * Z * option (list gev) * bool) : rstate :=
  let '(tr, own, rest, ok) := res in
  {| base := base rs; tupof := tupof rs; trefs := tr; ntup := ntup rs;
     frames := match rest with
               | Some q => {| f_tup := t; f_own := own; f_rest := q |} :: fs
               | None => fs end;
     uaf := uaf rs || negb ok |}.

Section Layer.
Variable ev : list gev.           (* the events of general_invoke_callback (instantiated with GenInvoke.invoke_events) *)

Definition enter (rs : rstate) (h : N) (k : nat) : rstate * out :=
  match lookup N.eqb h (live (base rs)) with
  | None => (rs, OBad)
  | Some a =>
      match lookup addr_eqb a (tupof rs), lookup addr_eqb a (udata (base rs)) with
      | Some t, Some f =>
          (* (there are nfails `goto error` exits; larger k mean the last one) *)
          (finish rs t (frames rs) (advance t (path ev (Nat.min k (nfails ev))) (trefs rs) 0), OFn f)
      | _, _ => (rs, OBad)
      end
  end.

Definition resume (rs : rstate) : rstate * out :=
  match frames rs with
  | [] => (rs, OBad)
  | fr :: fs => (finish rs (f_tup fr) fs (advance (f_tup fr) (f_rest fr) (trefs rs) (f_own fr)), ONone)
  end.

Definition rstep (c : config) (rs : rstate) (o : rop) : rstate * out :=
  match o with
  | RInvokeEnter h k => enter rs h k
  | RInvokeExit => resume rs
  | RBase (Drop h) =>
      match lookup N.eqb h (live (base rs)) with
      | Some a =>
          let '(s', r) := step c (base rs) (Drop h) in
          ({| base := s'; tupof := aremove a (tupof rs);                  (* cffi_closure_free(closure)   *)
              trefs := match lookup addr_eqb a (tupof rs) with            (* Py_XDECREF(closure->user_data) *)
                       | Some t => tdec t (trefs rs) | None => trefs rs end;
              ntup := ntup rs; frames := frames rs; uaf := uaf rs |}, r)
      | None => (rs, OBad)
      end
  | RBase o' =>
      let '(s', r) := step c (base rs) o' in
      match r with
      | OAddr a =>                                                        (* new tuple, count 1 *)
          ({| base := s'; tupof := (a, ntup rs) :: aremove a (tupof rs);
              trefs := (ntup rs, 1) :: trefs rs; ntup := N.succ (ntup rs);
              frames := frames rs; uaf := uaf rs |}, r)
      | _ => ({| base := s'; tupof := tupof rs; trefs := trefs rs; ntup := ntup rs;
                 frames := frames rs; uaf := uaf rs |}, r)
      end
  end.

Fixpoint rrun (c : config) (rs : rstate) (h : list rop) : rstate :=
  match h with [] => rs | o :: h' => rrun c (fst (rstep c rs o)) h' end.

Definition rreachable (c : config) (rs : rstate) : Prop := exists h, rs = rrun c rinit h.
End Layer.

Fixpoint osum (t : N) (l : list (addr * N)) : Z :=            (* closures whose user_data is t *)
  match l with [] => 0 | (_, t') :: l' => (if N.eqb t' t then 1 else 0) + osum t l' end.
Fixpoint fsum (t : N) (fs : list frame) : Z :=                (* references held by invocations in flight *)
  match fs with [] => 0 | fr :: fs' => (if N.eqb (f_tup fr) t then f_own fr else 0) + fsum t fs' end.

Lemma osum_nonneg t l : 0 <= osum t l.
Proof. induction l as [|[a t'] l IH]; cbn; [lia|]. destruct (N.eqb t' t); lia. Qed.

Lemma osum_lookup a t l : lookup addr_eqb a l = Some t -> 1 <= osum t l.
Proof.
  induction l as [|[a' t'] l IH]; cbn; [discriminate|].
  destruct (addr_eqb a a').
  - intros H; inversion H; subst. rewrite N.eqb_refl. pose proof (osum_nonneg t l). lia.
  - intros H. specialize (IH H). destruct (N.eqb t' t); lia.
Qed.

Lemma osum_aremove_le a t l : osum t (aremove a l) <= osum t l.
Proof.
  induction l as [|[a' t'] l IH]; cbn; [lia|].
  destruct (addr_eqb a a'); cbn; destruct (N.eqb t' t); lia.
Qed.

Lemma osum_aremove_lt a t l : lookup addr_eqb a l = Some t -> osum t (aremove a l) <= osum t l - 1.
Proof.
  induction l as [|[a' t'] l IH]; cbn; [discriminate|].
  destruct (addr_eqb a a').
  - intros H; inversion H; subst. rewrite N.eqb_refl. pose proof (osum_aremove_le a t l). lia.
  - intros H. specialize (IH H). cbn. destruct (N.eqb t' t); lia.
Qed.

Lemma osum_fresh n l : (forall a t, In (a, t) l -> (t < n)%N) -> osum n l = 0.
Proof.
  induction l as [|[a t'] l IH]; cbn; auto. intros H.
  destruct (N.eqb_spec t' n) as [->|_].
  - specialize (H a n (or_introl eq_refl)). lia.
  - rewrite IH; [reflexivity|]. intros a0 t0 Hin. apply (H a0 t0). right; auto.
Qed.

Lemma fsum_fresh n fs : (forall fr, In fr fs -> (f_tup fr < n)%N) -> fsum n fs = 0.
Proof.
  induction fs as [|fr fs IH]; cbn; auto. intros H.
  destruct (N.eqb_spec (f_tup fr) n) as [E|_].
  - specialize (H fr (or_introl eq_refl)). lia.
  - rewrite IH; [reflexivity|]. intros fr0 Hin. apply H. right; auto.
Qed.

Lemma fsum_nonneg t fs : (forall fr, In fr fs -> 1 <= f_own fr) -> 0 <= fsum t fs.
Proof.
  induction fs as [|fr fs IH]; cbn; [lia|]. intros H.
  pose proof (H fr (or_introl eq_refl)). assert (0 <= fsum t fs) by (apply IH; auto).
  destruct (N.eqb (f_tup fr) t); lia.
Qed.

Lemma fsum_member fr fs : (forall fr, In fr fs -> 1 <= f_own fr) -> In fr fs -> f_own fr <= fsum (f_tup fr) fs.
Proof.
  induction fs as [|fr' fs IH]; cbn; [tauto|]. intros H [->|Hin].
  - rewrite N.eqb_refl. assert (0 <= fsum (f_tup fr) fs) by (apply fsum_nonneg; auto). lia.
  - assert (f_own fr <= fsum (f_tup fr) fs) by (apply IH; auto).
    pose proof (H fr' (or_introl eq_refl)). destruct (N.eqb (f_tup fr') (f_tup fr)); lia.
Qed.

Lemma alookup_In a t (l : list (addr * N)) : lookup addr_eqb a l = Some t -> In (a, t) l.
Proof. apply (lookup_In addr_eqb addr_eqb_spec). Qed.

Lemma alookup_aremove_other a b (l : list (addr * N)) :
  a <> b -> lookup addr_eqb b (aremove a l) = lookup addr_eqb b l.
Proof.
  intros Hne. induction l as [|[a' t] l IH]; cbn; auto.
  destruct (addr_eqb_spec a a').
  - subst. destruct (addr_eqb_spec b a'); [congruence|auto].
  - cbn. destruct (addr_eqb_spec b a'); auto.
Qed.

Lemma In_aremove a x (l : list (addr * N)) : In x (aremove a l) -> In x l.
Proof.
  induction l as [|[a' t] l IH]; cbn; auto.
  destruct (addr_eqb a a'); cbn; intros H; [auto|]. destruct H; auto.
Qed.

Lemma tremove_remove_key t l : tremove t l = remove_key t l.
Proof. induction l as [|[t' r] l IH]; cbn; [reflexivity|]. now rewrite IH. Qed.

Lemma tlookup_remove_same t l : lookup N.eqb t (tremove t l) = None.
Proof.
  induction l as [|[t' r] l IH]; cbn; auto.
  destruct (N.eqb_spec t t'); auto. cbn. destruct (N.eqb_spec t t'); [congruence|auto].
Qed.

Lemma tlookup_remove_other t t' l : t' <> t -> lookup N.eqb t' (tremove t l) = lookup N.eqb t' l.
Proof. intros Hne. rewrite tremove_remove_key. now apply lookup_remove_key_other. Qed.

Lemma tlookup_set_same t r l : 1 <= r -> lookup N.eqb t (tset t r l) = Some r.
Proof. intros H. unfold tset. destruct (Z.leb_spec r 0); [lia|]. cbn. rewrite N.eqb_refl. reflexivity. Qed.

Lemma tlookup_set_other t t' r l : t' <> t -> lookup N.eqb t' (tset t r l) = lookup N.eqb t' l.
Proof.
  intros Hne. unfold tset. destruct (r <=? 0); [apply tlookup_remove_other; auto|].
  cbn. destruct (N.eqb_spec t' t); [congruence|apply tlookup_remove_other; auto].
Qed.

Lemma tlookup_dec_other t t' l : t' <> t -> lookup N.eqb t' (tdec t l) = lookup N.eqb t' l.
Proof. intros Hne. unfold tdec. destruct (lookup N.eqb t l); auto. apply tlookup_set_other; auto. Qed.

Lemma advance_other_counts t t' : t' <> t -> forall p tr own,
  lookup N.eqb t' (fst (fst (fst (advance t p tr own)))) = lookup N.eqb t' tr.
Proof.
  intros Hne. induction p as [|e p IH]; intros tr own; cbn [advance]; [reflexivity|].
  destruct e; auto; destruct (lookup N.eqb t tr) as [r|]; auto; rewrite IH; now apply tlookup_set_other.
Qed.

(* the count of tuple t covers n references: as soon as there is one, t is allocated with a count of at least n *)
Definition covers (tr : list (N * Z)) (t : N) (n : Z) : Prop :=
  1 <= n -> exists r, lookup N.eqb t tr = Some r /\ n <= r.

Lemma covers_le tr t n m : covers tr t n -> m <= n -> covers tr t m.
Proof. intros H L P. destruct H as (r & Hr & Hge); [lia|]. exists r. split; [exact Hr|lia]. Qed.

Lemma covers_ext tr tr' t n : lookup N.eqb t tr' = lookup N.eqb t tr -> covers tr t n -> covers tr' t n.
Proof. unfold covers. intros ->. auto. Qed.

(* E = the references to t held by everybody else (closures owning it, other invocations in flight): the
   stretch finds the tuple allocated at every touch and leaves it with at least E + its own references *)
Lemma advance_ok t : forall p tr own dropped E,
  safe p own dropped = true -> 0 <= E -> (dropped = false -> 1 <= E) -> 0 <= own -> covers tr t (E + own) ->
  exists tr' own' rest, advance t p tr own = (tr', own', rest, true) /\ covers tr' t (E + own') /\
    match rest with Some q => 1 <= own' /\ safe q own' true = true | None => own' = 0 end.
Proof.
  induction p as [|e p IH]; intros tr own dropped E Hs HE Hd Ho Hc.
  - cbn in Hs. apply Z.eqb_eq in Hs. subst. exists tr, 0, None. cbn. auto.
  - destruct e; cbn [safe advance] in *.
    (* the events that do not touch the tuple *)
    3-7: exact (IH tr own dropped E Hs HE Hd Ho Hc).
    (* the others need it held: by the caller before the first call-out, by the invocation itself after *)
    all: apply andb_true_iff in Hs as [H1 H2].
    all: assert (Hpos : 1 <= E + own)
           by (destruct dropped; cbn [negb orb] in H1; [apply Z.leb_le in H1|specialize (Hd eq_refl)]; lia).
    all: destruct (Hc Hpos) as (r & Hr & Hge); rewrite Hr.
    + apply (IH _ _ dropped E H2 HE Hd); [lia|]. intros _. exists (r + 1). split; [apply tlookup_set_same|]; lia.
    + apply Z.leb_le in H1. apply (IH _ _ dropped E H2 HE Hd); [lia|].
      intros Hpos'. exists (r - 1). split; [apply tlookup_set_same|]; lia.
    + apply Z.leb_le in H1. exists tr, own, (Some p). auto.
    + exact (IH tr own dropped E H2 HE Hd Ho Hc).
Qed.

(* R1: the allocator invariant of the base state; R2: the closure of every live callback has a tuple; R3: a tuple
   somebody refers to (closures owning it, invocations in flight) is allocated with at least that many
   references; R4: an invocation in flight holds a reference of its own and the rest of its path is safe;
   R5, R6: tuple identities in use are below ntup; R7: no freed tuple was touched *)
Record RInv (rs : rstate) : Prop := {
  R1 : Inv (base rs);
  R2 : forall h a, In (h, a) (live (base rs)) -> exists t, lookup addr_eqb a (tupof rs) = Some t;
  R3 : forall t, covers (trefs rs) t (osum t (tupof rs) + fsum t (frames rs));
  R4 : forall fr, In fr (frames rs) -> 1 <= f_own fr /\ safe (f_rest fr) (f_own fr) true = true;
  R5 : forall a t, In (a, t) (tupof rs) -> (t < ntup rs)%N;
  R6 : forall fr, In fr (frames rs) -> (f_tup fr < ntup rs)%N;
  R7 : uaf rs = false }.

(* an invocation on tuple t runs the stretch p with [own] references of its own, the other invocations in flight
   being fs: the invariant holds again when the counts cover the references held with this invocation counted
   among the others (the hypothesis on t'), the stretch is safe, and t is still owned by a closure when no
   call-out has happened yet *)
Lemma finish_inv rs t fs p own dropped :
  RInv rs -> (forall fr, In fr fs -> In fr (frames rs)) -> (t < ntup rs)%N ->
  (forall t', covers (trefs rs) t' (osum t' (tupof rs) + fsum t' ({| f_tup := t; f_own := own; f_rest := p |} :: fs))) ->
  safe p own dropped = true -> 0 <= own -> (dropped = false -> 1 <= osum t (tupof rs)) ->
  RInv (finish rs t fs (advance t p (trefs rs) own)).
Proof.
  intros [H1 H2 _ H4 H5 H6 H7] Hfs Ht H3 Hs Ho Hd. cbn [fsum f_tup f_own] in H3.
  assert (F0 : 0 <= fsum t fs) by (apply fsum_nonneg; intros fr Hin; apply H4; auto).
  pose proof (osum_nonneg t (tupof rs)) as O0.
  destruct (advance_ok t p (trefs rs) own dropped (osum t (tupof rs) + fsum t fs) Hs ltac:(lia)
              ltac:(intros Hx; specialize (Hd Hx); lia) Ho)
    as (tr' & own' & rest & A1 & A3 & A4).
  { apply (covers_le _ _ _ _ (H3 t)). rewrite N.eqb_refl. lia. }
  pose proof (fun t' Hne => advance_other_counts t t' Hne p (trefs rs) own) as A2. rewrite A1 in A2 |- *. cbn [fst] in A2.
  unfold finish. rewrite H7. cbn [negb orb].
  set (fs' := match rest with Some q => {| f_tup := t; f_own := own'; f_rest := q |} :: fs | None => fs end).
  (* a returned invocation holds nothing, so in both cases the new frames count like this *)
  assert (Hsum : forall t', fsum t' fs' = (if N.eqb t t' then own' else 0) + fsum t' fs).
  { intros t'. unfold fs'. destruct rest; [reflexivity|]. subst own'. now destruct (N.eqb t t'). }
  assert (Hin : forall fr, In fr fs' -> In fr fs \/ exists q, rest = Some q /\ fr = {| f_tup := t; f_own := own'; f_rest := q |}).
  { intros fr. unfold fs'. destruct rest as [q|]; [intros [<-|H]|]; eauto. }
  constructor; cbn [base tupof trefs ntup frames uaf]; auto.
  - intros t'. rewrite Hsum. specialize (H3 t'). destruct (N.eqb_spec t t') as [E|Hne]; [subst t'|].
    + apply (covers_le _ _ _ _ A3). lia.
    + exact (covers_ext _ _ _ _ (A2 t' (not_eq_sym Hne)) H3).
  - intros fr Hfr. destruct (Hin fr Hfr) as [H|(q & -> & ->)]; [auto|exact A4].
  - intros fr Hfr. destruct (Hin fr Hfr) as [H|(q & -> & ->)]; [auto|exact Ht].
Qed.

Lemma rinv_base rs s' : RInv rs -> Inv s' -> live s' = live (base rs) ->
  RInv {| base := s'; tupof := tupof rs; trefs := trefs rs; ntup := ntup rs; frames := frames rs; uaf := uaf rs |}.
Proof. intros [H1 H2 H3 H4 H5 H6 H7] HI Hl. constructor; cbn; auto. now rewrite Hl. Qed.

(* b_callback: the closure gets a new tuple of count 1 *)
Lemma rinv_create rs s' h a : RInv rs -> Inv s' -> live s' = (h, a) :: live (base rs) ->
  RInv {| base := s'; tupof := (a, ntup rs) :: aremove a (tupof rs); trefs := (ntup rs, 1) :: trefs rs;
          ntup := N.succ (ntup rs); frames := frames rs; uaf := uaf rs |}.
Proof.
  intros [H1 H2 H3 H4 H5 H6 H7] HI Hl. constructor; cbn [base tupof trefs ntup frames uaf]; auto.
  - rewrite Hl. intros h' a' Hin. cbn. destruct (addr_eqb_spec a' a) as [->|Hne]; [eauto|].
    destruct Hin as [E|Hin]; [congruence|]. rewrite alookup_aremove_other by congruence. eauto.
  - intros t Hpos. cbn [osum lookup] in *.
    pose proof (osum_aremove_le a t (tupof rs)) as Hle.
    destruct (N.eqb_spec (ntup rs) t) as [E|Hne].
    + subst t. rewrite N.eqb_refl. exists 1. split; auto.
      rewrite (osum_fresh (ntup rs) (tupof rs)) in Hle by auto.
      rewrite (fsum_fresh (ntup rs) (frames rs)) by auto.
      pose proof (osum_nonneg (ntup rs) (aremove a (tupof rs))). lia.
    + destruct (N.eqb_spec t (ntup rs)); [congruence|].
      apply (covers_le _ _ _ _ (H3 t)); lia.
  - intros a' t [E|Hin]; [inversion E; lia|]. apply In_aremove in Hin. specialize (H5 _ _ Hin). lia.
  - intros fr Hin. specialize (H6 _ Hin). lia.
Qed.

(* cdataowninggc_dealloc: the tuple of the closure loses one reference and the closure is freed *)
Lemma rinv_drop rs s' h a : RInv rs -> Inv s' ->
  In (h, a) (live (base rs)) -> live s' = remove_key h (live (base rs)) ->
  RInv {| base := s'; tupof := aremove a (tupof rs);
          trefs := match lookup addr_eqb a (tupof rs) with Some t => tdec t (trefs rs) | None => trefs rs end;
          ntup := ntup rs; frames := frames rs; uaf := uaf rs |}.
Proof.
  intros [H1 H2 H3 H4 H5 H6 H7] HI Hin0 Hl. destruct (H2 _ _ Hin0) as (t0 & Ht0). rewrite Ht0.
  constructor; cbn [base tupof trefs ntup frames uaf]; auto.
  - rewrite Hl. intros h' a' Hin. apply In_remove_key in Hin as [Hin Hne].
    assert (a' <> a) by (intros ->; apply Hne; eapply snd_inj_of_NoDup; eauto; apply H1).
    rewrite alookup_aremove_other by congruence. eauto.
  - intros t Hpos. destruct (N.eqb_spec t t0) as [->|Hne].
    + pose proof (osum_aremove_lt a t0 (tupof rs) Ht0) as Hlt.
      destruct (H3 t0) as (r & Hr & Hge); [lia|].
      unfold tdec. rewrite Hr. exists (r - 1). split; [apply tlookup_set_same; lia|lia].
    + pose proof (osum_aremove_le a t (tupof rs)) as Hle.
      rewrite tlookup_dec_other by auto.
      apply (covers_le _ _ _ _ (H3 t)); lia.
  - intros a' t Hin. apply In_aremove in Hin. eauto.
Qed.

Lemma step_create_live c s h f s' a :
  Inv s -> step c s (Create h f) = (s', OAddr a) ->
  live s' = (h, a) :: live s /\ ~ In a (live_addrs s).
Proof.
  intros HI H. destruct (step_tables _ _ _ _ _ H) as [(h' & f' & a' & [= <- <-] & [= <-] & _ & L & _)|(Hr & _)];
    [|now elim (Hr a)]. split; [exact L|].
  (* the addresses of the live callbacks are distinct after the step too *)
  pose proof (inv_live_nodup _ (step_inv c s (Create h f) HI)) as N. rewrite H in N. unfold live_addrs in *.
  cbn [fst] in N. rewrite L in N. now inversion N.
Qed.

Section LayerProofs.
Variable ev : list gev.
Hypothesis Hheld : held_at_uses ev = true.

Lemma path_safe k : safe (path ev (Nat.min k (nfails ev))) 0 false = true.
Proof.
  unfold held_at_uses in Hheld. rewrite forallb_forall in Hheld. apply Hheld. apply in_seq. lia.
Qed.

Lemma rstep_inv c rs o : RInv rs -> RInv (fst (rstep ev c rs o)).
Proof.
  intros HR. pose proof HR as [H1 H2 H3 H4 H5 H6 H7].
  destruct o as [o|h k|]; cbn [rstep].
  - (* an operation of the allocator: Drop is the third; the others by their answer, an address (a new tuple) or
       not (the table of live callbacks is unchanged) *)
    pose proof (step_inv c (base rs) o H1) as HI'. destruct o as [h f| |h|h].
    3: { destruct (lookup N.eqb h (live (base rs))) as [a|] eqn:Hh; [|auto].
         destruct (step c (base rs) (Drop h)) as [s' r] eqn:Hs. apply rinv_drop with h; auto.
         - now apply (lookup_In _ N.eqb_spec).
         - cbn [step] in Hs. rewrite Hh in Hs. now inversion Hs. }
    all: destruct (step c (base rs) _) as [s' r] eqn:Hs; cbn [fst] in *.
    all: destruct r as [a| | | |];
         [destruct (step_addr_live _ _ _ _ _ Hs) as (h0 & Hl); exact (rinv_create rs s' h0 a HR HI' Hl)|..].
    all: apply (rinv_base rs s' HR HI'); eapply step_nonaddr_live; [| |exact Hs]; discriminate.
  - unfold enter.
    destruct (lookup N.eqb h (live (base rs))) as [a|] eqn:Hh; [|auto].
    destruct (lookup addr_eqb a (tupof rs)) as [t|] eqn:Ht; [|auto].
    destruct (lookup addr_eqb a (udata (base rs))) as [f|]; [|auto].
    apply finish_inv with (dropped := false); auto.
    + exact (H5 _ _ (alookup_In _ _ _ Ht)).
    + intros t'. cbn [fsum f_tup f_own]. apply (covers_le _ _ _ _ (H3 t')). destruct (N.eqb t t'); lia.
    + apply path_safe.
    + lia.
    + intros _. eapply osum_lookup; eauto.
  - unfold resume. destruct (frames rs) as [|fr fs] eqn:Hf; [auto|].
    destruct (H4 fr (or_introl eq_refl)) as [Hown Hsafe].
    apply finish_inv with (dropped := true); auto.
    + rewrite Hf. intros fr' Hin. now right.
    + apply H6. now left.
    + lia.
    + discriminate.
Qed.

Lemma rinv_init : RInv rinit.
Proof. constructor; cbn; try tauto; try lia; auto; [apply inv_init | intros t P; lia]. Qed.

Lemma rrun_inv c h : forall rs, RInv rs -> RInv (rrun ev c rs h).
Proof. induction h as [|o h IH]; cbn; intros; auto. apply IH. apply rstep_inv; auto. Qed.

Lemma rreachable_inv c rs : rreachable ev c rs -> RInv rs.
Proof. intros [hh ->]. apply rrun_inv. apply rinv_init. Qed.

(* the callback that drops itself while running: whatever happens while an invocation is suspended in a
   call-out — its own callback dropped, its closure address given to a new callback, nested invocations —
   the tuple it works on is allocated, with a strictly positive count *)
Theorem tuple_alive_during_call c rs fr :
  rreachable ev c rs -> In fr (frames rs) ->
  exists r, lookup N.eqb (f_tup fr) (trefs rs) = Some r /\ 1 <= r.
Proof.
  intros HR Hin. destruct (rreachable_inv c rs HR) as [H1 H2 H3 H4 H5 H6 H7].
  assert (Hm : f_own fr <= fsum (f_tup fr) (frames rs)) by (apply fsum_member; auto; intros x Hx; apply H4; auto).
  destruct (H4 _ Hin) as [Ho _]. pose proof (osum_nonneg (f_tup fr) (tupof rs)).
  apply (covers_le _ _ _ 1 (H3 (f_tup fr))); lia.
Qed.

(* and no invocation ever touches a freed tuple, over all histories *)
Theorem no_use_after_free c rs : rreachable ev c rs -> uaf rs = false.
Proof. intros HR. destruct (rreachable_inv c rs HR); auto. Qed.

(* the info tuple of every live callback is alive, after any history of creations, failed creations,
   drops and (possibly still unfinished) invocations along any path of general_invoke_callback *)
Theorem tuple_alive_while_live c rs h a :
  rreachable ev c rs -> In (h, a) (live (base rs)) ->
  exists t r, lookup addr_eqb a (tupof rs) = Some t /\ lookup N.eqb t (trefs rs) = Some r /\ 1 <= r.
Proof.
  intros HR Hin. destruct (rreachable_inv c rs HR) as [H1 H2 H3 H4 H5 H6 H7].
  destruct (H2 _ _ Hin) as (t & Ht). pose proof (osum_lookup _ _ _ Ht).
  assert (0 <= fsum t (frames rs)) by (apply fsum_nonneg; intros x Hx; apply H4; auto).
  destruct (H3 t) as (r & Hr & Hge); [lia|]. exists t, r. repeat split; auto. lia.
Qed.

(* entering the closure of a live callback — whatever the previous invocations did — finds a tuple for it and
   answers the function of closure->user_data, which is the one the callback was created with (Inv) *)
Theorem invoke_runs_own c rs h a k :
  rreachable ev c rs -> In (h, a) (live (base rs)) ->
  exists f, lookup N.eqb h (made (base rs)) = Some f /\ snd (rstep ev c rs (RInvokeEnter h k)) = OFn f.
Proof.
  intros HR Hin. destruct (rreachable_inv c rs HR) as [H1 H2 H3 H4 H5 H6 H7].
  destruct (H2 _ _ Hin) as (t & Ht).
  destruct (inv_bound _ H1 _ _ Hin) as (f & F1 & F2).
  exists f. split; auto. cbn [rstep]. unfold enter.
  rewrite (In_lookup _ _ _ (inv_handles _ H1) Hin), Ht, F2. reflexivity.
Qed.
End LayerProofs.

