(* C29 — the REGENERATED text of more_core() (C29/Gen.v) executed: exec_gen says what it computes, in the terms of the
   hand model (C29.Model: grow), by computation on the current text.  C29/Props.v gets the two obligations on the
   text from it: every item threaded onto the free list lies inside the block just mapped
   (C29_gen_threaded_inside_mapping), and the text computes what the hand model says (C29_gen_matches_model). *)
From Coq Require Import ZArith NArith List Bool Lia.
Import ListNotations.
From Cffi Require Import C29.Prog C29.Gen C29.Model.
Open Scope Z_scope.

Lemma exec_gen ps bs n :
  exec ps bs more_core_prog n =
  {| m_pages := grow n; m_count := (grow n * ps) / bs; m_mapped := grow n * ps; m_threaded := (grow n * ps) / bs |}.
Proof. unfold exec, more_core_prog, grow. cbn. reflexivity. Qed.

Lemma grow_nonneg n : 0 <= n -> 0 <= grow n.
Proof. intros Hn. unfold grow. assert (0 <= n * 13 / 10) by (apply Z.div_pos; lia). lia. Qed.

