(* C29 — Callback closures stay distinct and bound to their own function.
   [reachable c s]: s is the allocator + callback state after ANY history of
   Create / CreateFail / Drop / Call from the initial state (any number alive, any page growth);
   [rreachable ev c rs] the same for the reference-count layer of C29/Refs.v, with invocations of
   general_invoke_callback (events ev) entered and resumed in between.  more_core_prog (C29/Gen.v) and
   invoke_events (C29/GenInvoke.v) are regenerated from the source on every run. *)
From Coq Require Import ZArith NArith List Bool.
From Coq Require Import Lia.
Import ListNotations.
From Cffi Require Import C29.Model C29.Proofs C29.Prog C29.Gen C29.GenProofs C29.Invoke C29.GenInvoke C29.Refs.
Open Scope Z_scope.

(* the invariant: free list duplicate-free, live closure addresses duplicate-free, the two disjoint,
   everything in a block that has been mapped (block number below nblocks), user_data of every live
   closure = the function its callback was created with *)
Theorem C29_invariant : forall c s, reachable c s ->
  NoDup (free_list s) /\ NoDup (live_addrs s) /\
  (forall a, In a (free_list s) -> ~ In a (live_addrs s)) /\
  (forall a, In a (free_list s) \/ In a (live_addrs s) -> (fst a < nblocks s)%N) /\
  (forall h a, In (h, a) (live s) ->
     exists f, lookup N.eqb h (made s) = Some f /\ lookup addr_eqb a (udata s) = Some f).
Proof. intros c s HR. destruct (reachable_inv c s HR). repeat split; auto. Qed.
Print Assumptions C29_invariant.

(* every successful ffi.callback() gets an address no live callback has, and the table of live callbacks
   gains the entry (h, a) and nothing else *)
Theorem C29_create_fresh : forall c s h f a,
  reachable c s -> snd (step c s (Create h f)) = OAddr a ->
  ~ In a (live_addrs s) /\ live s = remove_key h (live (fst (step c s (Create h f)))) /\
  In (h, a) (live (fst (step c s (Create h f)))).
Proof.
  intros c s h f a HR H. apply reachable_inv in HR.
  destruct (step c s (Create h f)) as [s' r] eqn:E. cbn [fst snd] in *. subst r.
  destruct (step_create_live _ _ _ _ _ _ HR E) as (L & Hn).
  destruct (step_tables _ _ _ _ _ E) as [(h' & f' & a' & [= <- <-] & _ & Hh & _)|(Hr & _)]; [|now elim (Hr a)]. rewrite L.
  repeat split; cbn; auto. rewrite N.eqb_refl. symmetry. now apply remove_key_absent, lookup_None.
Qed.
Print Assumptions C29_create_fresh.

(* live callbacks have pairwise distinct addresses *)
Theorem C29_live_distinct : forall c s h1 h2 a,
  reachable c s -> In (h1, a) (live s) -> In (h2, a) (live s) -> h1 = h2.
Proof.
  intros c s h1 h2 a HR H1 H2. apply reachable_inv in HR. exact (snd_inj_of_NoDup _ _ _ _ (inv_live_nodup s HR) H1 H2).
Qed.
Print Assumptions C29_live_distinct.

(* from its creation until it is dropped, calling a callback (the closure at its address) runs
   exactly the function it was created with, whatever happens to other callbacks in between.
   Reading of "its own Python function with its own signature": b_callback binds ONE object to the
   closure, the infotuple (signature ctype, Python function, error value, onerror); [f] stands for
   that tuple, so function and signature are bound together.  "From C or through the cdata": both
   routes jump to the same closure address and differ only inside libffi / cdata_call, which are
   not modelled — [Call h] is "control reaches the closure of h"; that the two real routes (and a
   cast function pointer) behave alike is decided by the correspondence run only. *)
Theorem C29_call_runs_creator : forall c h1 hh f a h2,
  let s1 := fst (run c init h1) in
  snd (step c s1 (Create hh f)) = OAddr a ->
  (forall o, In o h2 -> o <> Drop hh /\ forall f', o <> Create hh f') ->
  let s := fst (run c (fst (step c s1 (Create hh f))) h2) in
  step c s (Call hh) = (s, OFn f).
Proof.
  intros c h1 hh f a h2 s1 Hc.
  assert (HR1 : reachable c s1) by (exists h1; reflexivity).
  destruct (C29_create_fresh _ _ _ _ _ HR1 Hc) as (_ & _ & Hin).
  pose proof (made_after_create _ _ _ _ _ Hc) as Hm.
  pose proof (reachable_step c s1 (Create hh f) HR1) as HR2.
  revert Hin Hm HR2. generalize (fst (step c s1 (Create hh f))). clear Hc HR1.
  induction h2 as [|o h2 IH]; intros s0 Hin Hm HR Hall.
  - destruct (call_own _ _ _ _ HR Hin) as (f' & F1 & F2). cbn [run fst]. rewrite F2. congruence.
  - destruct (Hall o (or_introl eq_refl)) as [Hd Hcr]. rewrite run_cons. apply IH.
    + now apply live_stable.
    + now rewrite made_stable.
    + now apply reachable_step.
    + intros o' Ho'. apply Hall. now right.
Qed.
Print Assumptions C29_call_runs_creator.

(* reuse is LIFO: the closure freed last is handed out next *)
Theorem C29_lifo_reuse : forall c s h a h' f,
  reachable c s -> In (h, a) (live s) ->
  lookup N.eqb h' (live (fst (step c s (Drop h)))) = None ->
  snd (step c (fst (step c s (Drop h))) (Create h' f)) = OAddr a.
Proof.
  intros c s h a h' f HR Hin Hh'. apply reachable_inv in HR.
  cbn [step] in *. rewrite (In_lookup _ _ _ (inv_handles s HR) Hin) in *. cbn [fst closure_free live] in *.
  rewrite Hh'. unfold closure_alloc. cbn. reflexivity.
Qed.
Print Assumptions C29_lifo_reuse.

(* the error path of ffi.callback() gives the closure back *)
Theorem C29_create_fail_no_leak : forall c s,
  reachable c s ->
  live (fst (step c s CreateFail)) = live s /\
  (forall a s1, closure_alloc c s = Some (a, s1) -> free_list (fst (step c s CreateFail)) = a :: free_list s1).
Proof.
  intros c s _. cbn [step]. destruct (closure_alloc c s) as [[a s1]|] eqn:Ha.
  - destruct (closure_alloc_frame _ _ _ _ Ha) as (L & _).
    cbn. split; auto. intros a' s1' E. inversion E; subst. reflexivity.
  - split; auto. intros; discriminate.
Qed.
Print Assumptions C29_create_fail_no_leak.

(* the pages grow only on an empty free list ... *)
Theorem C29_grows_only_when_empty : forall c s a s1,
  closure_alloc c s = Some (a, s1) -> free_list s <> [] -> nblocks s1 = nblocks s /\ npages s1 = npages s.
Proof.
  intros c s a s1.
  unfold closure_alloc. destruct (free_list s) eqn:Hf; [congruence|]. cbn. rewrite Hf.
  intros H _. inversion H; subst. auto.
Qed.
Print Assumptions C29_grows_only_when_empty.

(* ... to 1 + floor(1.3 n) pages, which give pages*pagesize/blocksize items *)
Theorem C29_growth_amount : forall c s,
  free_list s = [] ->
  length (free_list (more_core c s)) = N.to_nat (count_of c (grow (npages s))) /\
  npages (more_core c s) = 1 + (npages s * 13) / 10.
Proof. intros c s Hf. cbn. rewrite push_items_length, Hf. cbn. split; [lia|reflexivity]. Qed.
Print Assumptions C29_growth_amount.

(* ---- obligations on the source TEXT of more_core(), regenerated into C29/Gen.v on every run
   (assignments to allocate_num_pages and count, the mmap() size, the threading-loop bound): *)

(* every item threaded onto the free list lies inside the block just mapped — for every call,
   whatever allocate_num_pages is on entry (this is what the slot numbers of the
   (block, slot) addresses of the hand model rest on: Inv itself bounds block numbers only) *)
Theorem C29_gen_threaded_inside_mapping : forall ps bs n,
  0 < ps -> 0 < bs -> 0 <= n ->
  let r := exec ps bs more_core_prog n in
  0 <= m_threaded r /\ m_threaded r * bs <= m_mapped r.
Proof.
  intros ps bs n.
  intros Hps Hbs Hn. rewrite exec_gen. cbn [m_threaded m_mapped].
  pose proof (grow_nonneg n Hn) as G.
  generalize dependent (grow n). intros g G.
  split.
  - apply Z.div_pos; [apply Z.mul_nonneg_nonneg; lia|lia].
  - rewrite Z.mul_comm. apply Z.mul_div_le. lia.
Qed.
Print Assumptions C29_gen_threaded_inside_mapping.

(* the text computes exactly the hand model's growth: new page count and number of items *)
Theorem C29_gen_matches_model : forall c n,
  0 < pagesize c -> 0 < blocksize c -> 0 <= n ->
  let r := exec (pagesize c) (blocksize c) more_core_prog n in
  m_pages r = grow n /\ Z.to_N (m_threaded r) = count_of c (grow n).
Proof. intros c n Hp Hb Hn. rewrite exec_gen. cbn. split; reflexivity. Qed.
Print Assumptions C29_gen_matches_model.

Theorem C29_gen_no_overflow : forall ps bs, 0 < ps -> 0 < bs ->
  forall fuel step n total, 0 <= n -> first_overflow ps bs more_core_prog fuel step n total = None.
Proof.
  intros ps bs Hps Hbs. induction fuel as [|f IH]; intros step n total Hn; cbn [first_overflow]; auto.
  pose proof (C29_gen_threaded_inside_mapping ps bs n Hps Hbs Hn) as H. cbv zeta in H. destruct H as [_ H].
  apply Z.ltb_ge in H. rewrite H.
  apply IH. rewrite exec_gen. now apply grow_nonneg.
Qed.
Print Assumptions C29_gen_no_overflow.

(* ---- the info tuple (signature ctype, Python function, error value, onerror) bound to a closure is
   owned by closure->user_data alone; general_invoke_callback() borrows it.  Its Py_INCREF / Py_DECREF, its
   reads of the tuple (and through pointers borrowed from it), its call-outs (during which Python code runs)
   and its `goto error` exits are regenerated into C29/GenInvoke.v on every run, in source order. *)

(* every path through general_invoke_callback — normal, or leaving through any of its `goto error`s
   (PyTuple_New failing, an ARGUMENT COMING FROM C that convert_to_object rejects, the Python function
   raising, the result not convertible) — leaves the tuple's reference count as it found it and never
   goes below it *)
Theorem C29_gen_invoke_paths_balanced : all_paths_balanced invoke_events = true.
Proof. vm_compute. reflexivity. Qed.
Print Assumptions C29_gen_invoke_paths_balanced.

(* on every path, the function itself HOLDS a reference (own INCREFs - own DECREFs >= 1) at every call-out and,
   from its first call-out on, at every read of the tuple / through a pointer borrowed from it, and it holds
   none when it returns.  (An event list without INCREF/DECREF is balanced but not held: see
   C29_example_no_incref_is_caught.) *)
Theorem C29_gen_invoke_held_at_uses : held_at_uses invoke_events = true.
Proof. vm_compute. reflexivity. Qed.
Print Assumptions C29_gen_invoke_held_at_uses.

(* The callback that drops itself while running.  [rreachable invoke_events c rs]: rs is reached by ANY history
   of Create / CreateFail / Drop / Call / RInvokeEnter h k (enter the closure of h, path k, run to the first
   call-out) / RInvokeExit (the innermost invocation in flight continues to its next call-out or returns) —
   so between Enter and Exit anything may happen: Drop of the callback that is running (its
   cdataowninggc_dealloc decrements the tuple), creations re-using its closure address, nested and recursive
   invocations.  For every invocation in flight, the tuple it works on is allocated with a count >= 1. *)
Theorem C29_tuple_alive_during_call : forall c rs fr,
  rreachable invoke_events c rs -> In fr (frames rs) ->
  exists r, lookup N.eqb (f_tup fr) (trefs rs) = Some r /\ 1 <= r.
Proof. exact (tuple_alive_during_call invoke_events C29_gen_invoke_held_at_uses). Qed.
Print Assumptions C29_tuple_alive_during_call.

(* and no invocation, on any path, ever reads / INCREFs / DECREFs / calls out on a tuple that has been freed *)
Theorem C29_no_use_after_free : forall c rs, rreachable invoke_events c rs -> uaf rs = false.
Proof. exact (no_use_after_free invoke_events C29_gen_invoke_held_at_uses). Qed.
Print Assumptions C29_no_use_after_free.

(* the two theorems above rest on nothing but [held_at_uses] of the event list *)
Theorem C29_held_at_uses_suffices : forall ev, held_at_uses ev = true ->
  forall c rs, rreachable ev c rs ->
  uaf rs = false /\
  forall fr, In fr (frames rs) -> exists r, lookup N.eqb (f_tup fr) (trefs rs) = Some r /\ 1 <= r.
Proof.
  intros ev H c rs HR. split; [exact (no_use_after_free ev H c rs HR)|].
  intros fr. exact (tuple_alive_during_call ev H c rs fr HR).
Qed.
Print Assumptions C29_held_at_uses_suffices.

(* user_data's tuple is alive as long as the closure is live: after ANY such history (so no later
   ffi.callback() can have its tuple placed in the memory of a live callback's tuple) *)
Theorem C29_tuple_alive_while_live : forall c rs h a,
  rreachable invoke_events c rs -> In (h, a) (live (base rs)) ->
  exists t r, lookup addr_eqb a (tupof rs) = Some t /\ lookup N.eqb t (trefs rs) = Some r /\ 1 <= r.
Proof. exact (tuple_alive_while_live invoke_events C29_gen_invoke_held_at_uses). Qed.
Print Assumptions C29_tuple_alive_while_live.

Theorem C29_invoke_runs_own : forall c rs h a k,
  rreachable invoke_events c rs -> In (h, a) (live (base rs)) ->
  exists f, lookup N.eqb h (made (base rs)) = Some f /\
            snd (rstep invoke_events c rs (RInvokeEnter h k)) = OFn f.
Proof. exact (invoke_runs_own invoke_events C29_gen_invoke_held_at_uses). Qed.
Print Assumptions C29_invoke_runs_own.

(* non-vacuity, on the regenerated events: callback 1 is entered (normal path; suspended in PyObject_Call), its
   Python function drops callback 1 and creates callback 2, which gets the SAME closure address; the
   invocation of 1 is still in flight on tuple 0, count 1 (its own INCREF); callback 2 owns tuple 1; after the
   remaining call-outs the invocation returns and tuple 0 is freed *)
Example C29_example_self_drop :
  let c := {| pagesize := 16; blocksize := 4 |} in
  let rs := rrun invoke_events c rinit
              [RBase (Create 1 10); RInvokeEnter 1 0; RBase (Drop 1); RBase (Create 2 20)]%N in
  map f_tup (frames rs) = [0%N] /\ map f_own (frames rs) = [1] /\ trefs rs = [(1%N, 1); (0%N, 1)] /\
  map snd (live (base rs)) = map fst (tupof rs) /\ tupof rs = [((0, 3), 1)]%N /\ uaf rs = false /\
  let rs' := rrun invoke_events c rs [RInvokeExit; RInvokeExit; RInvokeExit; RInvokeExit] in
  frames rs' = [] /\ trefs rs' = [(1%N, 1)] /\ uaf rs' = false.
Proof. vm_compute. repeat split; reflexivity. Qed.

(* non-vacuity of held_at_uses: general_invoke_callback WITHOUT its Py_INCREF / Py_DECREF pair is
   accepted by all_paths_balanced, rejected by held_at_uses, and in the model the self-dropping callback then
   reads a freed tuple as soon as its Python function returns *)
Example C29_example_no_incref_is_caught :
  let ev := filter (fun e => negb (gev_eqb e GInc || gev_eqb e GDec)) invoke_events in
  all_paths_balanced ev = true /\ held_at_uses ev = false /\
  let c := {| pagesize := 16; blocksize := 4 |} in
  uaf (rrun ev c rinit [RBase (Create 1 10); RInvokeEnter 1 0; RBase (Drop 1)]%N) = false /\
  uaf (rrun ev c rinit [RBase (Create 1 10); RInvokeEnter 1 0; RBase (Drop 1); RInvokeExit]%N) = true /\
  (* the same when the Python function raises (path 3: the `goto error` after PyObject_Call) *)
  uaf (rrun ev c rinit [RBase (Create 1 10); RInvokeEnter 1 3; RBase (Drop 1); RInvokeExit]%N) = true /\
  (* a DECREF moved above the Py_XDECREF(py_res) of the done: part is rejected too *)
  held_at_uses [GUse; GInc; GCall; GUse; GDoneLabel; GDec; GCall; GReturn; GErrorLabel; GGotoDone] = false.
Proof. vm_compute. repeat split; reflexivity. Qed.

(* non-vacuity: with the INCREF moved below the argument conversion, the path through the second
   `goto error` (an argument that cannot be converted) drops a reference it never took *)
Example C29_example_unbalanced_path :
  let ev := [GFail; GFail; GInc; GFail; GFail; GDoneLabel; GDec; GReturn; GErrorLabel; GGotoDone] in
  all_paths_balanced ev = false /\ delta (path ev 2) = -1 /\ delta (path ev 0) = 0 /\ delta (path ev 3) = 0.
Proof. vm_compute. repeat split; reflexivity. Qed.

(* non-vacuity of the search: a program that caps the page count AFTER computing count (and before
   mmap) overflows at its 14th growth step, after 17694 closures: 4681 items fit, 5924 are threaded *)
Example C29_example_overflow_found :
  first_overflow 4096 56
    [ SAssign VPages (EAdd (EInt 1) (ETruncMulRat (EV VPages) 13 10));
      SAssign VCount (EDiv (EMul (EV VPages) EPagesize) ESizeofBlock);
      SIf CGt (EV VPages) (EInt 64) VPages (EInt 64);
      SMmap (EMul (EV VPages) EPagesize);
      SThread (EV VCount) ] 40 0 0 0 = Some (14%N, 17694, 4681, 5924).
Proof. vm_compute. reflexivity. Qed.

(* non-vacuity: 4-item pages; fill the first block, spill into the second, drop two, fail once,
   re-create (LIFO), call *)
Example C29_example :
  run_case ({| pagesize := 16; blocksize := 4 |},
            [Create 1 10; Create 2 20; Create 3 30; Create 4 40; Create 5 50; Call 5; Call 1;
             Drop 2; Drop 4; CreateFail; Create 6 60; Create 7 70; Create 8 80; Call 6; Call 7; Call 3; Drop 1;
             Create 2 21; Call 2]%N)
  = ([CAddr 0; CAddr 1; CAddr 2; CAddr 3; CAddr 4; CFn 50; CFn 10; CNone; CNone; CErr;
      CAddr 3; CAddr 1; CAddr 5; CFn 60; CFn 70; CFn 30; CNone; CAddr 0; CFn 21]%N, 2%N).
Proof. vm_compute. reflexivity. Qed.
