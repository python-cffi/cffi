(* C29 — proofs: the allocator invariant [Inv] over all histories (free list and live closures duplicate-free and
   disjoint, every live closure bound to the function of its Create).  List lemmas on lookup / remove_key; the steps
   of the model taken apart as the source has them (closure_alloc, closure_free, bind, unbind) and put together in
   step_inv; then call_own, and what a step does to the tables of live callbacks and of their functions
   (step_tables), from which come the stability lemmas that C29/Props.v and C29/Refs.v build on. *)
From Coq Require Import ZArith NArith List Bool Lia.
Import ListNotations.
From Cffi Require Import C29.Model.
Open Scope Z_scope.

Lemma lookup_In {A B} (eqb : A -> A -> bool) (eqb_spec : forall x y, reflect (x = y) (eqb x y))
  h (l : list (A * B)) a : lookup eqb h l = Some a -> In (h, a) l.
Proof.
  induction l as [|[k v] l IH]; cbn; [discriminate|].
  destruct (eqb_spec h k); intros H; [inversion H; subst; auto|auto].
Qed.

Lemma lookup_None {B} h (l : list (N * B)) : lookup N.eqb h l = None -> ~ In h (map fst l).
Proof.
  induction l as [|[k v] l IH]; cbn; auto.
  destruct (N.eqb_spec h k); [discriminate|]. intros H [E|E]; [congruence|]. apply IH; auto.
Qed.

Lemma In_lookup {B} h a (l : list (N * B)) : NoDup (map fst l) -> In (h, a) l -> lookup N.eqb h l = Some a.
Proof.
  induction l as [|[k v] l IH]; cbn; [tauto|]. intros Hnd [E|E].
  - inversion E; subst. rewrite N.eqb_refl. reflexivity.
  - inversion Hnd; subst. destruct (N.eqb_spec h k).
    + subst. exfalso. apply H1. apply (in_map fst) in E. exact E.
    + auto.
Qed.

Lemma In_remove_key {B} h (l : list (N * B)) k v : In (k, v) (remove_key h l) <-> In (k, v) l /\ k <> h.
Proof.
  induction l as [|[k' v'] l IH]; cbn [remove_key In]; [now split; [|intros []]|].
  destruct (N.eqb_spec h k') as [->|Hne]; cbn [In]; split.
  - intros H. apply IH in H as [H Hn]. auto.
  - intros [[E|H] Hn]; [injection E as <- _; now elim Hn|]. apply IH; auto.
  - intros [E|H]; [injection E as <- <-; auto|]. apply IH in H as [H Hn]. auto.
  - intros [[E|H] Hn]; [now left|]. right. apply IH; auto.
Qed.

Lemma lookup_remove_key_other {B} h k (l : list (N * B)) : k <> h -> lookup N.eqb k (remove_key h l) = lookup N.eqb k l.
Proof.
  intros Hne. induction l as [|[k' v'] l IH]; cbn; auto.
  destruct (N.eqb_spec h k').
  - subst. destruct (N.eqb_spec k k'); [congruence|auto].
  - cbn. destruct (N.eqb_spec k k'); auto.
Qed.

Lemma remove_key_absent {B} h (l : list (N * B)) : ~ In h (map fst l) -> remove_key h l = l.
Proof.
  induction l as [|[k v] l IH]; cbn; intros Hn; [reflexivity|].
  destruct (N.eqb_spec h k) as [->|_]; [elim Hn; now left|]. f_equal. apply IH. intros H. apply Hn. now right.
Qed.

Lemma remove_key_fst_incl {B} h (l : list (N * B)) x : In x (map fst (remove_key h l)) -> In x (map fst l) /\ x <> h.
Proof.
  intros H. apply in_map_iff in H as [[k v] [E H]]. cbn in E; subst.
  apply In_remove_key in H as [H Hn]. split; auto. apply (in_map fst) in H. exact H.
Qed.

Lemma NoDup_remove_key_fst {B} h (l : list (N * B)) : NoDup (map fst l) -> NoDup (map fst (remove_key h l)).
Proof.
  induction l as [|[k v] l IH]; cbn; auto. intros Hnd. inversion Hnd; subst.
  destruct (N.eqb_spec h k); auto. cbn. constructor; auto.
  intros Hin. apply remove_key_fst_incl in Hin. tauto.
Qed.

Lemma NoDup_remove_key_snd {B} h (l : list (N * B)) : NoDup (map snd l) -> NoDup (map snd (remove_key h l)).
Proof.
  induction l as [|[k v] l IH]; cbn; auto. intros Hnd. inversion Hnd; subst.
  destruct (N.eqb_spec h k); auto. cbn. constructor; auto.
  intros Hin. apply H1. apply in_map_iff in Hin as [[k' v'] [E H]]. cbn in E; subst.
  apply In_remove_key in H as [H _]. apply (in_map snd) in H. exact H.
Qed.

Lemma snd_inj_of_NoDup {B} (l : list (N * B)) h k a :
  NoDup (map snd l) -> In (h, a) l -> In (k, a) l -> h = k.
Proof.
  induction l as [|[k' v'] l IH]; cbn; [tauto|]. intros Hnd H1 H2. inversion Hnd; subst.
  destruct H1 as [E1|H1], H2 as [E2|H2].
  - congruence.
  - inversion E1; subst. exfalso. apply H3. apply (in_map snd) in H2. exact H2.
  - inversion E2; subst. exfalso. apply H3. apply (in_map snd) in H1. exact H1.
  - eauto.
Qed.

Lemma addr_eqb_spec a b : reflect (a = b) (addr_eqb a b).
Proof.
  destruct a as [a1 a2], b as [b1 b2]. unfold addr_eqb; cbn.
  destruct (N.eqb_spec a1 b1), (N.eqb_spec a2 b2); cbn; constructor; congruence.
Qed.

Lemma In_push_items b n : forall i fl a,
  In a (push_items b i n fl) <-> In a fl \/ (fst a = b /\ (i <= snd a < i + N.of_nat n)%N).
Proof.
  induction n as [|n IH]; intros i fl a; cbn [push_items].
  - split; [auto|]. intros [H|[_ H]]; [auto|lia].
  - rewrite IH. cbn [In]. split.
    + intros [[E|H]|[E H]]; [subst; cbn; right; split; [auto|lia]|auto|right; split; [auto|lia]].
    + intros [H|[E H]]; [auto|].
      destruct (N.eq_dec (snd a) i) as [Ei|Ni].
      * left; left. destruct a; cbn in *; congruence.
      * right. split; [auto|lia].
Qed.

Lemma NoDup_push_items b n : forall i fl,
  NoDup fl -> (forall a, In a fl -> fst a <> b \/ (snd a < i)%N) -> NoDup (push_items b i n fl).
Proof.
  induction n as [|n IH]; intros i fl Hnd Hfl; cbn [push_items]; auto.
  apply IH.
  - constructor; auto. intros Hin. destruct (Hfl _ Hin) as [H|H]; cbn in H; [congruence|lia].
  - intros a [E|Hin]; [subst; cbn; right; lia|]. destruct (Hfl _ Hin); [auto|right; lia].
Qed.

Lemma push_items_length b n : forall i fl, length (push_items b i n fl) = (n + length fl)%nat.
Proof. induction n; intros; cbn; auto. rewrite IHn. cbn. lia. Qed.

Definition live_addrs (s : state) : list addr := map snd (live s).

Record Inv (s : state) : Prop := {
  inv_free_nodup : NoDup (free_list s);
  inv_live_nodup : NoDup (live_addrs s);
  inv_disjoint : forall a, In a (free_list s) -> ~ In a (live_addrs s);
  inv_blocks : forall a, In a (free_list s) \/ In a (live_addrs s) -> (fst a < nblocks s)%N;
  inv_handles : NoDup (map fst (live s));
  inv_bound : forall h a, In (h, a) (live s) ->
              exists f, lookup N.eqb h (made s) = Some f /\ lookup addr_eqb a (udata s) = Some f
}.

Lemma inv_init : Inv init.
Proof. constructor; cbn; try constructor; try tauto. Qed.

Lemma more_core_inv c s : Inv s -> Inv (more_core c s).
Proof.
  intros [I1 I2 I3 I4 I5 I6]. constructor; cbn [more_core free_list live_addrs live nblocks udata made]; auto.
  - apply NoDup_push_items; auto. intros a Ha. left. specialize (I4 a (or_introl Ha)). lia.
  - intros a Ha Hl. apply In_push_items in Ha as [Ha|[Eb _]].
    + eapply I3; eauto.
    + specialize (I4 a (or_intror Hl)). lia.
  - intros a [Ha|Hl].
    + apply In_push_items in Ha as [Ha|[Eb _]]; [specialize (I4 a (or_introl Ha))|]; lia.
    + specialize (I4 a (or_intror Hl)). lia.
Qed.

Lemma closure_alloc_frame c s a s1 :
  closure_alloc c s = Some (a, s1) -> live s1 = live s /\ udata s1 = udata s /\ made s1 = made s.
Proof.
  unfold closure_alloc. set (s0 := match free_list s with [] => more_core c s | _ :: _ => s end).
  assert (H0 : live s0 = live s /\ udata s0 = udata s /\ made s0 = made s)
    by (subst s0; destruct (free_list s); cbn; auto).
  destruct (free_list s0); [discriminate|]. intros H; inversion H; subst. exact H0.
Qed.

Lemma alloc_live c s a s1 : closure_alloc c s = Some (a, s1) -> live s1 = live s.
Proof. intros H. apply (closure_alloc_frame c s a s1 H). Qed.

Lemma alloc_made c s a s1 : closure_alloc c s = Some (a, s1) -> made s1 = made s.
Proof. intros H. apply (closure_alloc_frame c s a s1 H). Qed.

Lemma closure_alloc_inv c s a s1 :
  Inv s -> closure_alloc c s = Some (a, s1) ->
  Inv s1 /\ ~ In a (free_list s1) /\ ~ In a (live_addrs s1) /\ (fst a < nblocks s1)%N.
Proof.
  intros HI H. unfold closure_alloc in H.
  set (s0 := match free_list s with [] => more_core c s | _ :: _ => s end) in *.
  assert (HI0 : Inv s0) by (subst s0; destruct (free_list s); [apply more_core_inv|]; auto).
  destruct (free_list s0) as [|x rest] eqn:Hf; [discriminate|]. inversion H; subst; clear H.
  destruct HI0 as [I1 I2 I3 I4 I5 I6]. rewrite Hf in *. inversion I1; subst.
  repeat split; cbn; auto.
  - intros y Hy. apply I3. now right.
  - intros y [Hy|Hy]; apply I4; [left; right|right]; auto.
  - apply I3. now left.
  - apply I4. left; now left.
Qed.

Lemma closure_free_inv s a :
  Inv s -> ~ In a (free_list s) -> ~ In a (live_addrs s) -> (fst a < nblocks s)%N -> Inv (closure_free s a).
Proof.
  intros [I1 I2 I3 I4 I5 I6] Hf Hl Hb. constructor; cbn; auto.
  - now constructor.
  - intros x [<-|Hx]; auto.
  - intros x [[<-|Hx]|Hx]; auto.
Qed.

(* b_callback: a new handle is bound to such a closure, and the closure to its function *)
Lemma bind_inv s h f a :
  Inv s -> ~ In a (free_list s) -> ~ In a (live_addrs s) -> (fst a < nblocks s)%N ->
  lookup N.eqb h (live s) = None ->
  Inv {| free_list := free_list s; npages := npages s; nblocks := nblocks s;
         udata := (a, f) :: udata s; live := (h, a) :: live s; made := (h, f) :: remove_key h (made s) |}.
Proof.
  intros [I1 I2 I3 I4 I5 I6] Hf Hl Hb Hh. apply lookup_None in Hh.
  constructor; unfold live_addrs in *; cbn; auto.
  - now constructor.
  - intros x Hx [<-|Hx']; [auto|]. eapply I3; eauto.
  - intros x [Hx|[<-|Hx]]; auto.
  - now constructor.
  - intros h' a' [E|Hin].
    + inversion E; subst. exists f. rewrite N.eqb_refl. now destruct (addr_eqb_spec a' a').
    + destruct (I6 _ _ Hin) as (f' & F1 & F2). exists f'.
      destruct (N.eqb_spec h' h) as [->|Hne]; [elim Hh; exact (in_map fst _ _ Hin)|].
      rewrite lookup_remove_key_other by auto.
      destruct (addr_eqb_spec a' a) as [->|]; [elim Hl; exact (in_map snd _ _ Hin)|auto].
Qed.

(* cdataowninggc_dealloc, first half: the handle goes, its closure is then nobody's *)
Lemma unbind_inv s h a :
  Inv s -> In (h, a) (live s) ->
  let s' := {| free_list := free_list s; npages := npages s; nblocks := nblocks s;
               udata := udata s; live := remove_key h (live s); made := made s |} in
  Inv s' /\ ~ In a (live_addrs s').
Proof.
  intros [I1 I2 I3 I4 I5 I6] Hh.
  assert (Hsub : forall x, In x (map snd (remove_key h (live s))) -> In x (live_addrs s)).
  { intros x Hx. apply in_map_iff in Hx as [[k v] [<- Hin]].
    apply In_remove_key in Hin as [Hin _]. exact (in_map snd _ _ Hin). }
  split; [constructor|]; unfold live_addrs in *; cbn; auto.
  - now apply NoDup_remove_key_snd.
  - intros x Hx Hl. apply (I3 x); auto.
  - intros x [Hx|Hx]; auto.
  - now apply NoDup_remove_key_fst.
  - intros h' a' Hin. apply In_remove_key in Hin as [Hin _]. auto.
  - intros Hin. apply in_map_iff in Hin as [[k v] [E Hin]]. cbn in E; subst.
    apply In_remove_key in Hin as [Hin Hne]. apply Hne. eapply snd_inj_of_NoDup; eauto.
Qed.

Lemma step_inv c s o : Inv s -> Inv (fst (step c s o)).
Proof.
  intros HI. destruct o as [h f| |h|h]; cbn [step].
  - destruct (lookup N.eqb h (live s)) eqn:Hh; [auto|].
    destruct (closure_alloc c s) as [[a s1]|] eqn:Ha; [|auto].
    destruct (closure_alloc_inv _ _ _ _ HI Ha) as (HI1 & A1 & A2 & A3).
    destruct (closure_alloc_frame _ _ _ _ Ha) as (L & _). apply bind_inv; auto. now rewrite L.
  - destruct (closure_alloc c s) as [[a s1]|] eqn:Ha; [|auto].
    destruct (closure_alloc_inv _ _ _ _ HI Ha) as (HI1 & A1 & A2 & A3). now apply closure_free_inv.
  - destruct (lookup N.eqb h (live s)) as [a|] eqn:Hh; [|auto]. apply (lookup_In _ N.eqb_spec) in Hh.
    destruct (unbind_inv s h a HI Hh) as [HI' Hn]. pose proof (in_map snd _ _ Hh) as Hl.
    apply closure_free_inv; auto; [|apply (inv_blocks s HI); auto].
    intros Hin. exact (inv_disjoint s HI a Hin Hl).
  - destruct (lookup N.eqb h (live s)); [|auto]. destruct (lookup addr_eqb a (udata s)); auto.
Qed.

Lemma run_cons c s o h : fst (run c s (o :: h)) = fst (run c (fst (step c s o)) h).
Proof. cbn [run]. destruct (step c s o) as [s1 r]. cbn [fst]. now destruct (run c s1 h). Qed.

Lemma run_inv c h : forall s, Inv s -> Inv (fst (run c s h)).
Proof. induction h as [|o h IH]; intros s HI; [auto|]. rewrite run_cons. now apply IH, step_inv. Qed.

Definition reachable (c : config) (s : state) : Prop := exists h, s = fst (run c init h).

Lemma reachable_inv c s : reachable c s -> Inv s.
Proof. intros [h ->]. apply run_inv. apply inv_init. Qed.

(* calling a live callback runs the function it was created with *)
Theorem call_own c s h a :
  reachable c s -> In (h, a) (live s) ->
  exists f, lookup N.eqb h (made s) = Some f /\ step c s (Call h) = (s, OFn f).
Proof.
  intros HR Hin. apply reachable_inv in HR.
  destruct (inv_bound s HR _ _ Hin) as (f & F1 & F2). exists f. split; auto.
  cbn [step]. rewrite (In_lookup _ _ _ (inv_handles s HR) Hin), F2. reflexivity.
Qed.

(* What a step does to the table of live callbacks and to the record of their functions: a Create of a handle
   that was not live answers an address and puts its entry in front of both; every other step answers no
   address and leaves [made] alone, and [live] too unless it is a Drop, which removes its handle. *)
Lemma step_tables c s o s' r : step c s o = (s', r) ->
  (exists h f a, o = Create h f /\ r = OAddr a /\ lookup N.eqb h (live s) = None /\
                 live s' = (h, a) :: live s /\ made s' = (h, f) :: remove_key h (made s)) \/
  (forall a, r <> OAddr a) /\ made s' = made s /\
  (live s' = live s \/ exists h, o = Drop h /\ live s' = remove_key h (live s)).
Proof.
  destruct o as [h f| |h|h]; cbn [step].
  - destruct (lookup N.eqb h (live s)) eqn:Hh; [intros [= <- <-]; right; repeat split; auto; discriminate|].
    destruct (closure_alloc c s) as [[a s1]|] eqn:Ha; intros [= <- <-]; [|right; repeat split; auto; discriminate].
    cbn [live made]. destruct (closure_alloc_frame _ _ _ _ Ha) as (-> & _ & ->). left. exists h, f, a. auto.
  - destruct (closure_alloc c s) as [[a s1]|] eqn:Ha; intros [= <- <-]; right; [|repeat split; auto; discriminate].
    cbn [live made closure_free]. destruct (closure_alloc_frame _ _ _ _ Ha) as (-> & _ & ->).
    repeat split; auto; discriminate.
  - destruct (lookup N.eqb h (live s)); intros [= <- <-]; right; repeat split; eauto; discriminate.
  - destruct (lookup N.eqb h (live s)) as [a|]; [destruct (lookup addr_eqb a (udata s))|]; intros [= <- <-]; right;
      repeat split; auto; discriminate.
Qed.

(* ... and that function is the one given to the Create that made the handle, as long as the
   handle has not been re-created *)
Lemma made_after_create c s h f a :
  snd (step c s (Create h f)) = OAddr a -> lookup N.eqb h (made (fst (step c s (Create h f)))) = Some f.
Proof.
  destruct (step c s (Create h f)) as [s' r] eqn:E. cbn [fst snd]. intros ->.
  destruct (step_tables _ _ _ _ _ E) as [(h' & f' & a' & [= <- <-] & _ & _ & _ & ->)|(Hr & _)]; [|now elim (Hr a)].
  cbn. now rewrite N.eqb_refl.
Qed.

Lemma made_stable c s o h :
  (forall f, o <> Create h f) -> lookup N.eqb h (made (fst (step c s o))) = lookup N.eqb h (made s).
Proof.
  intros Hn. destruct (step c s o) as [s' r] eqn:E. cbn [fst].
  destruct (step_tables _ _ _ _ _ E) as [(h' & f' & a' & -> & _ & _ & _ & ->)|(_ & -> & _)]; [|reflexivity]. cbn.
  destruct (N.eqb_spec h h') as [->|Hne]; [now elim (Hn f')|]. now apply lookup_remove_key_other.
Qed.

Lemma live_stable c s o h a :
  o <> Drop h -> In (h, a) (live s) -> In (h, a) (live (fst (step c s o))).
Proof.
  intros Hn Hin. destruct (step c s o) as [s' r] eqn:E. cbn [fst].
  destruct (step_tables _ _ _ _ _ E) as [(h' & f' & a' & _ & _ & _ & -> & _)|(_ & _ & [->|(h' & -> & ->)])].
  - now right.
  - exact Hin.
  - apply In_remove_key. split; congruence.
Qed.

Lemma step_addr_live c s o s' a : step c s o = (s', OAddr a) -> exists h, live s' = (h, a) :: live s.
Proof.
  intros E. destruct (step_tables _ _ _ _ _ E) as [(h & f & a' & _ & [= <-] & _ & L & _)|(Hr & _)]; [eauto|now elim (Hr a)].
Qed.

Lemma step_nonaddr_live c s o s' r :
  (forall h, o <> Drop h) -> (forall a, r <> OAddr a) -> step c s o = (s', r) -> live s' = live s.
Proof.
  intros Hd Hr E. destruct (step_tables _ _ _ _ _ E) as [(h & f & a & _ & -> & _)|(_ & _ & [L|(h & -> & _)])].
  - now elim (Hr a).
  - exact L.
  - now elim (Hd h).
Qed.

Lemma reachable_step c s o : reachable c s -> reachable c (fst (step c s o)).
Proof.
  intros [h ->]. exists (h ++ [o]). generalize init.
  induction h as [|o' h IH]; intros s0; [cbn; now destruct (step c s0 o)|].
  cbn [app]. now rewrite !run_cons.
Qed.

