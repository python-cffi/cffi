(* C21 — proofs: the invariant [Inv] of every reachable state, by induction over the history.  First the regenerated
   tables of Gen.v spelled out (refs_of_edges .. dealloc_effect); then [Inv] in two parts, [Core] (object by object,
   live references, distinct addresses) and [Links] (views against exporter lists).  Relations "o' may stand where o
   stood" carry the steps: [similar] / [local_ok] for an update in place (set_local); the state-free, transitive
   [decay] / [frame] for freeing and a buffer release (free_inv); and, after run_inv, [mono] / [ext]: what a later
   state remembers of an earlier one.  At the end the theorems that C21/Props.v takes as they are. *)
From Coq Require Import Arith List Bool Lia.
Import ListNotations.
From Cffi Require Import C21.Gen C21.Model.

(* What the regenerated tables say, spelled out.  Every proof here is a computation on the tables of Gen.v: an edited Py_VISIT
   list, a reordered cdatagcp_finalize, a changed case of explicit_release_case / cdata_exit makes
   it fail.  The proofs below use [refs_of], [run_dtor], [cancel] and [release] only through these. *)

(* in direct_from_buffer every failure taken after PyObject_GetBuffer succeeded goes through the
   label that calls PyBuffer_Release *)
Lemma frombuf_paths_release :
  forallb (fun p => implb (snd (fst p)) (snd p)) gen_frombuf_paths = true.
Proof. vm_compute. reflexivity. Qed.

Lemma no_leak tag : path_leaks tag = false.
Proof.
  unfold path_leaks. pose proof frombuf_paths_release as H.
  destruct (find _ gen_frombuf_paths) as [[[t0 a] r] |] eqn:F; [|reflexivity].
  apply find_some in F. destruct F as (I & _). rewrite forallb_forall in H. specialize (H _ I).
  cbn in H. destruct a, r; cbn in *; try reflexivity; discriminate.
Qed.

Lemma refs_of_edges o :
  refs_of o =
  if alive o then
    match k o with
    | KOwn | KRaw => []
    | KStructPtr s => [s]
    | KGcp orig dtor => opt_list orig ++ match dtor with Some y => opt_list y | None => [] end
    | KFromBuf src view => if view then [src] else []
    | KHandle x => [x]
    | KPy refs _ => refs
    end
  else [].
Proof. reflexivity. Qed.

Lemma run_dtor_effect o :
  run_dtor o =
  match k o with
  | KGcp _ (Some _) =>
      mkobj (KGcp None None) (alive o) (roots o) (addr o) (S (calls o)) (had o) (cancelled o)
            (released o) (horig o)
  | KGcp _ None => with_k o (KGcp None None)
  | _ => o
  end.
Proof. reflexivity. Qed.

Lemma cancel_effect o :
  cancel o =
  match k o with
  | KGcp orig (Some _) =>
      mkobj (KGcp orig None) (alive o) (roots o) (addr o) (calls o) (had o) true (released o) (horig o)
  | _ => o
  end.
Proof. reflexivity. Qed.

Lemma release_cases s i :
  release s i = match k (get s i) with
                | KStructPtr st => if is_gcp (get s st) then finalize_at s st else s
                | KFromBuf _ _ => let s1 := release_view s i in set_obj s1 i (mark_released (get s1 i))
                | KGcp _ _ => finalize_at s i
                | _ => s
                end.
Proof.
  unfold release, release_case, guard_holds, do_exit. destruct (k (get s i)); cbn; try reflexivity.
  destruct (own_is_struct s i); reflexivity.
Qed.

Lemma dealloc_effect s i :
  dealloc s i = let s1 := release_view s i in set_obj s1 i (kill (run_dtor (get s1 i))).
Proof. reflexivity. Qed.

Lemma refs_of_live o r : In r (refs_of o) -> alive o = true.
Proof. unfold refs_of. destruct (alive o); [reflexivity | intros []]. Qed.

Lemma refs_of_ext o o' : alive o' = alive o -> k o' = k o -> refs_of o' = refs_of o.
Proof. unfold refs_of. intros -> ->. reflexivity. Qed.

Lemma refs_run_dtor o r : In r (refs_of (run_dtor o)) -> In r (refs_of o).
Proof.
  rewrite run_dtor_effect, !refs_of_edges.
  destruct (k o) as [| | orig [y|] | | | |] eqn:K; cbn; rewrite ?K; auto; destruct (alive o); intros [].
Qed.

(* the view / exporter link of an object: the source whose buffer it holds, the views it has handed out *)
Definition view_of (o : obj) : option nat :=
  match k o with KFromBuf src true => Some src | _ => None end.
Definition exports (o : obj) : list nat :=
  match k o with KPy _ ex => ex | _ => [] end.

Lemma view_of_spec o src : view_of o = Some src <-> k o = KFromBuf src true.
Proof.
  unfold view_of. destruct (k o) as [| | | | ? [|] | |]; split; intros E; inversion E; reflexivity.
Qed.

Lemma exports_spec o f : In f (exports o) <-> exists refs ex, k o = KPy refs ex /\ In f ex.
Proof.
  unfold exports. split.
  - destruct (k o) as [| | | | | | refs ex]; try (intros []). intros I. exists refs, ex. auto.
  - intros (refs & ex & -> & I). exact I.
Qed.

(* the ghost bookkeeping of one object, by kind: a wrapper still has its destructor exactly while nothing
   has been called, cancelled or released and it is alive; without one, it never had any, or it was
   cancelled uncalled, or it was called once and is released or dead; a held view is unreleased; every
   other object has no destructor history *)
Definition gcp_good (o : obj) : Prop :=
  match k o with
  | KGcp orig (Some _) =>
      had o = true /\ calls o = 0 /\ cancelled o = false /\ released o = false /\ alive o = true
      /\ orig <> None
  | KGcp orig None =>
      ((had o = false /\ calls o = 0 /\ cancelled o = false) \/
       (had o = true /\ cancelled o = true /\ calls o = 0) \/
       (had o = true /\ cancelled o = false /\ calls o = 1 /\ (released o = true \/ alive o = false)))
      /\ (released o = true \/ alive o = false \/ orig <> None)
  | KFromBuf _ true =>
      calls o = 0 /\ had o = false /\ cancelled o = false /\ released o = false
  | _ => calls o = 0 /\ had o = false /\ cancelled o = false
  end.

(* indices not yet used hold the default object; every object is well-formed; what a variable holds
   is alive; references of live objects are alive; live objects have distinct addresses; a handle
   remembers its object; a held view is alive and listed by its source, and every listed view exists *)
Record Inv (s : state) : Prop := {
  i_fresh : forall i, next s <= i -> get s i = dead_obj;
  i_gcp : forall i, gcp_good (get s i);
  i_roots : forall i, 0 < roots (get s i) -> alive (get s i) = true;
  i_refs : forall i r, In r (refs_of (get s i)) -> alive (get s r) = true;
  i_addr : forall i j, alive (get s i) = true -> alive (get s j) = true ->
                       addr (get s i) = addr (get s j) -> i = j;
  i_handle : forall h x, k (get s h) = KHandle x -> horig (get s h) = Some x;
  i_view : forall f src, k (get s f) = KFromBuf src true ->
             alive (get s f) = true /\ exists refs ex, k (get s src) = KPy refs ex /\ In f ex;
  i_exp : forall src refs ex f, k (get s src) = KPy refs ex -> In f ex ->
             k (get s f) = KFromBuf src true }.

(* The same in the two parts the proofs work with, bridged by Inv_WInv / WInv_Inv (init_inv, refs_alive_self
   and compact_inv open [Inv] as well).  [Core]: what holds object by object, plus liveness of references and
   distinct addresses.  [Links]: views and exporter lists describe the same relation. *)
Record Core (s : state) : Prop := {
  c_fresh : forall i, next s <= i -> get s i = dead_obj;
  c_good : forall i, gcp_good (get s i);
  c_roots : forall i, 0 < roots (get s i) -> alive (get s i) = true;
  c_refs : forall i r, In r (refs_of (get s i)) -> alive (get s r) = true;
  c_addr : forall i j, alive (get s i) = true -> alive (get s j) = true ->
                       addr (get s i) = addr (get s j) -> i = j;
  c_handle : forall h x, k (get s h) = KHandle x -> horig (get s h) = Some x }.

Record Links (s : state) : Prop := {
  k_view : forall f src, view_of (get s f) = Some src ->
             alive (get s f) = true /\ In f (exports (get s src));
  k_exp : forall src f, In f (exports (get s src)) -> view_of (get s f) = Some src }.

Definition WInv (s : state) : Prop := Core s /\ Links s.

Lemma Inv_WInv s : Inv s -> WInv s.
Proof.
  intros []. split; constructor; auto.
  - intros f src V. apply view_of_spec in V. destruct (i_view0 f src V) as (A & refs & ex & K & I).
    split; [exact A | apply exports_spec; eauto].
  - intros src f I. apply exports_spec in I. destruct I as (refs & ex & K & I).
    apply view_of_spec. eauto.
Qed.

Lemma WInv_Inv s : WInv s -> Inv s.
Proof.
  intros [[] []]. constructor; auto.
  - intros f src K. apply view_of_spec in K. destruct (k_view0 f src K) as (A & I).
    split; [exact A | apply exports_spec; exact I].
  - intros src refs ex f K I. apply view_of_spec, (k_exp0 src), exports_spec. eauto.
Qed.

Lemma inv_core s : Inv s -> Core s.
Proof. intros H. apply (Inv_WInv s H). Qed.
Lemma inv_links s : Inv s -> Links s.
Proof. intros H. apply (Inv_WInv s H). Qed.

Lemma get_set s i o j : get (set_obj s i o) j = if Nat.eqb j i then o else get s j.
Proof. reflexivity. Qed.
Lemma get_alloc s o j : get (alloc s o) j = if Nat.eqb j (next s) then o else get s j.
Proof. reflexivity. Qed.
Lemma next_set s i o : next (set_obj s i o) = next s.
Proof. reflexivity. Qed.
Lemma next_alloc s o : next (alloc s o) = S (next s).
Proof. reflexivity. Qed.

Lemma get_set_same s i o : get (set_obj s i o) i = o.
Proof. rewrite get_set, Nat.eqb_refl. reflexivity. Qed.
Lemma get_set_other s i o j : j <> i -> get (set_obj s i o) j = get s j.
Proof. intros N. rewrite get_set. destruct (Nat.eqb_spec j i); [contradiction | reflexivity]. Qed.
Lemma get_alloc_new s o : get (alloc s o) (next s) = o.
Proof. rewrite get_alloc, Nat.eqb_refl. reflexivity. Qed.
Lemma get_alloc_old s o j : j < next s -> get (alloc s o) j = get s j.
Proof. intros L. rewrite get_alloc. destruct (Nat.eqb_spec j (next s)); [lia | reflexivity]. Qed.

Lemma created_lt s i : Core s -> get s i <> dead_obj -> i < next s.
Proof.
  intros C N. destruct (Nat.lt_ge_cases i (next s)) as [L | L]; [exact L|].
  destruct N. apply (c_fresh s C i L).
Qed.

Lemma alive_lt s i : Core s -> alive (get s i) = true -> i < next s.
Proof. intros C A. apply (created_lt s i C). intros E. rewrite E in A. discriminate. Qed.

Lemma usable_spec s i : usable s i = true ->
  i < next s /\ alive (get s i) = true /\ 0 < roots (get s i).
Proof.
  unfold usable. rewrite !andb_true_iff, Nat.ltb_lt, Nat.ltb_lt. tauto.
Qed.

Lemma mem_In i l : mem i l = true <-> In i l.
Proof.
  unfold mem. rewrite existsb_exists. split.
  - intros (x & Hx & E). apply Nat.eqb_eq in E. subst. exact Hx.
  - intros H. exists i. split; [exact H | apply Nat.eqb_refl].
Qed.

Lemma addr_free_spec s a : Core s -> addr_free s a = true ->
  forall i, alive (get s i) = true -> addr (get s i) <> a.
Proof.
  intros C F i A E. unfold addr_free in F. rewrite forallb_forall in F.
  specialize (F i). rewrite A, E, Nat.eqb_refl in F. discriminate F.
  apply in_seq. pose proof (alive_lt s i C A). lia.
Qed.

Lemma In_remove_id f i l : In f (remove_id i l) <-> In f l /\ f <> i.
Proof.
  induction l as [| j l IH]; cbn; [tauto|].
  destruct (Nat.eqb_spec j i); cbn; rewrite IH; intuition congruence.
Qed.

Lemma In_remove_id_conv f i l : In f l -> f <> i -> In f (remove_id i l).
Proof. intros H N. apply In_remove_id. auto. Qed.

Lemma init_inv : Inv init.
Proof.
  constructor; cbn; intros; try reflexivity; try discriminate; try tauto; try (cbn in *; lia);
    try (unfold gcp_good; cbn; auto).
Qed.

Lemma refs_alive_self s i : Inv s -> forall r, In r (refs_of (get s i)) -> alive (get s r) = true.
Proof. intros H. apply (i_refs s H). Qed.

Lemma target_alive s i x : Inv s -> alive (get s i) = true ->
  k (get s i) = KStructPtr x \/ k (get s i) = KHandle x \/ k (get s i) = KFromBuf x true \/
  (exists d, k (get s i) = KGcp (Some x) d) ->
  alive (get s x) = true.
Proof.
  intros H A K. apply (refs_alive_self s i H). rewrite refs_of_edges, A.
  destruct K as [-> | [-> | [-> | (d & ->)]]]; left; reflexivity.
Qed.

(* "o' may stand where o stood", for an update in place: what [Core] needs of it (it depends on the state:
   new references must be alive).  [local_ok] below: the same with the links left alone, what [set_local] takes. *)
Record similar (s : state) (o o' : obj) : Prop := {
  m_alive : alive o' = alive o;
  m_roots : 0 < roots o' -> alive o' = true;
  m_addr : addr o' = addr o;
  m_refs : forall r, In r (refs_of o') -> In r (refs_of o) \/ alive (get s r) = true;
  m_good : gcp_good o';
  m_handle : forall x, k o' = KHandle x -> horig o' = Some x }.

Lemma similar_refl s i : Core s -> similar s (get s i) (get s i).
Proof.
  intros C. constructor; auto.
  - apply (c_roots s C).
  - apply (c_good s C).
  - apply (c_handle s C).
Qed.

Lemma core_pointwise s s' : Core s -> next s' = next s ->
  (forall j, next s <= j -> get s' j = dead_obj) ->
  (forall j, similar s (get s j) (get s' j)) -> Core s'.
Proof.
  intros C N F S. constructor.
  - intros i L. apply F. lia.
  - intros i. apply (m_good _ _ _ (S i)).
  - intros i. apply (m_roots _ _ _ (S i)).
  - intros i r I. rewrite (m_alive _ _ _ (S r)).
    destruct (m_refs _ _ _ (S i) r I) as [I0 | A]; [apply (c_refs s C i r I0) | exact A].
  - intros i j. rewrite !(m_alive _ _ _ (S _)), !(m_addr _ _ _ (S _)). apply (c_addr s C).
  - intros h. apply (m_handle _ _ _ (S h)).
Qed.

Lemma core_set s i o' : Core s -> i < next s -> similar s (get s i) o' -> Core (set_obj s i o').
Proof.
  intros C L S. apply (core_pointwise s); [exact C | reflexivity | |]; intros j.
  - intros Lj. rewrite get_set_other by lia. apply (c_fresh s C j Lj).
  - rewrite get_set. destruct (Nat.eqb_spec j i); [subst; exact S | apply (similar_refl s j C)].
Qed.

Lemma links_pointwise s s' : Links s ->
  (forall j, view_of (get s' j) = view_of (get s j)) ->
  (forall j, exports (get s' j) = exports (get s j)) ->
  (forall j, view_of (get s j) <> None -> alive (get s j) = true -> alive (get s' j) = true) ->
  Links s'.
Proof.
  intros [V E] Hv He Ha. constructor.
  - intros f src X. rewrite Hv in X. destruct (V f src X) as (A & I).
    split; [apply Ha; [congruence | exact A] | rewrite He; exact I].
  - intros src f I. rewrite He in I. rewrite Hv. exact (E src f I).
Qed.

Definition local_ok (s : state) (o o' : obj) : Prop :=
  similar s o o' /\ view_of o' = view_of o /\ exports o' = exports o.

Lemma set_local s i o' : Inv s -> i < next s -> local_ok s (get s i) o' -> Inv (set_obj s i o').
Proof.
  intros H L (S & Lv & Le). destruct (Inv_WInv s H) as [C K]. apply WInv_Inv. split.
  - apply core_set; assumption.
  - apply (links_pointwise s _ K); intros j; rewrite get_set; destruct (Nat.eqb_spec j i); subst; auto.
    intros _ A. rewrite (m_alive _ _ _ S). exact A.
Qed.

Lemma local_same s i o' : Inv s -> k o' = k (get s i) -> alive o' = alive (get s i) ->
  (0 < roots o' -> alive o' = true) -> addr o' = addr (get s i) -> horig o' = horig (get s i) ->
  gcp_good o' -> local_ok s (get s i) o'.
Proof.
  intros H K A R Ad Ho G. unfold local_ok, view_of, exports. rewrite K.
  split; [constructor; auto | auto].
  - intros r. rewrite (refs_of_ext (get s i) o' A K). auto.
  - rewrite K, Ho. apply (c_handle _ (inv_core s H)).
Qed.

Lemma local_gcp s i o' : is_gcp (get s i) = true -> is_gcp o' = true -> alive o' = alive (get s i) ->
  (0 < roots o' -> alive o' = true) -> addr o' = addr (get s i) ->
  (forall r, In r (refs_of o') -> In r (refs_of (get s i))) -> gcp_good o' ->
  local_ok s (get s i) o'.
Proof.
  unfold is_gcp, local_ok, view_of, exports. intros K K' A R Ad Rf G.
  destruct (k (get s i)); try discriminate. destruct (k o') eqn:E; try discriminate.
  split; [constructor; auto | auto]. rewrite E. discriminate.
Qed.

Lemma local_roots s i n : Inv s -> (0 < n -> alive (get s i) = true) ->
  local_ok s (get s i) (with_roots (get s i) n).
Proof. intros H A. apply local_same; auto. exact (c_good _ (inv_core s H) i). Qed.

Lemma good_finalize o : gcp_good o -> is_gcp o = true -> gcp_good (mark_released (run_dtor o)).
Proof.
  (* the object is written out so that every projection of [run_dtor o] computes: with only [k o] split and [o] a
     variable, cbn leaves the whole match of run_dtor under each projection in the goal *)
  rewrite run_dtor_effect. destruct o as [[| | orig [y|] | | | |] al r a c h cn rl ho]; try discriminate; cbn; intros G _.
  - destruct G as (-> & -> & -> & _). split; [right; right|]; auto.
  - destruct G as (G & _). split; [|auto]. destruct G as [G | [G | (H & Cn & C & _)]]; [left | right; left | right; right]; auto.
Qed.

Lemma run_dtor_frame o :
  alive (run_dtor o) = alive o /\ roots (run_dtor o) = roots o /\ addr (run_dtor o) = addr o /\
  is_gcp (run_dtor o) = is_gcp o /\ had (run_dtor o) = had o /\ cancelled (run_dtor o) = cancelled o.
Proof.
  unfold is_gcp. rewrite run_dtor_effect.
  destruct (k o) as [| | ? [?|] | | | |] eqn:K; cbn; rewrite ?K; auto 7.
Qed.

Lemma fin_facts o : alive (mark_released (run_dtor o)) = alive o /\
  roots (mark_released (run_dtor o)) = roots o.
Proof. destruct (run_dtor_frame o) as (A & R & _). split; assumption. Qed.

Lemma local_finalize s i : Inv s -> alive (get s i) = true -> is_gcp (get s i) = true ->
  local_ok s (get s i) (mark_released (run_dtor (get s i))).
Proof.
  intros H A Ig. destruct (run_dtor_frame (get s i)) as (Fa & Fr & Fd & Fg & _).
  apply local_gcp; cbn; try congruence.
  - change (is_gcp (run_dtor (get s i)) = true). congruence.
  - intros r. rewrite (refs_of_ext (run_dtor (get s i))) by reflexivity. apply refs_run_dtor.
  - apply good_finalize; [apply (c_good _ (inv_core s H)) | exact Ig].
Qed.

Lemma local_refl s i : Inv s -> local_ok s (get s i) (get s i).
Proof.
  intros H. apply local_same; auto; [apply (c_roots _ (inv_core s H)) | apply (c_good _ (inv_core s H))].
Qed.

Lemma local_cancel s i : Inv s -> local_ok s (get s i) (cancel (get s i)).
Proof.
  intros H. pose proof (c_good _ (inv_core s H) i) as G. pose proof (c_roots _ (inv_core s H) i) as R. rewrite cancel_effect.
  destruct (k (get s i)) as [| | orig [y|] | | | |] eqn:K; try apply local_refl, H.
  unfold gcp_good in G. rewrite K in G. destruct G as (Hh & Hc & _ & _ & _ & Ho).
  apply local_gcp; unfold is_gcp, gcp_good; rewrite ?K; cbn; auto.
  - intros r. rewrite !refs_of_edges, K. cbn. destruct (alive (get s i)); [|intros []].
    rewrite app_nil_r. intros I. apply in_or_app. auto.
  - auto 6.
Qed.

Lemma local_released s i : Inv s -> is_gcp (get s i) = false -> view_of (get s i) = None ->
  local_ok s (get s i) (mark_released (get s i)).
Proof.
  intros H Ng Nv. apply local_same; auto; [apply (c_roots _ (inv_core s H))|].
  pose proof (c_good _ (inv_core s H) i) as G. unfold gcp_good, is_gcp, view_of in *. cbn.
  destruct (k (get s i)) as [| | | | ? [|] | |]; try discriminate; exact G.
Qed.

Lemma similar_py s x refs ex refs' ex' : Core s -> k (get s x) = KPy refs ex ->
  (forall r, In r refs' -> In r refs \/ alive (get s r) = true) ->
  similar s (get s x) (with_k (get s x) (KPy refs' ex')).
Proof.
  intros C K Rf. pose proof (c_good s C x) as G. unfold gcp_good in *. rewrite K in G.
  constructor; cbn; auto.
  - apply (c_roots s C).
  - intros r. rewrite !refs_of_edges, K. cbn. destruct (alive (get s x)); [apply Rf | intros []].
  - discriminate.
Qed.

Lemma local_setref s x y refs ex : Inv s -> k (get s x) = KPy refs ex -> alive (get s y) = true ->
  local_ok s (get s x) (with_k (get s x) (KPy (y :: refs) ex)).
Proof.
  intros H K A. unfold local_ok, view_of, exports. cbn. rewrite K. split; [|auto].
  apply (similar_py s x refs ex _ _ (inv_core s H) K). intros r [<- | I]; auto.
Qed.

Lemma alive_alloc s o r : Core s -> alive (get s r) = true -> alive (get (alloc s o) r) = true.
Proof. intros C A. rewrite get_alloc_old; [exact A | apply (alive_lt s r C A)]. Qed.

Lemma core_alloc s o : Core s ->
  (forall i, alive (get s i) = true -> addr (get s i) <> addr o) ->
  (0 < roots o -> alive o = true) ->
  (forall r, In r (refs_of o) -> alive (get s r) = true) ->
  gcp_good o -> (forall x, k o = KHandle x -> horig o = Some x) ->
  Core (alloc s o).
Proof.
  intros C F R Rf G Hh. constructor; intros i; rewrite ?next_alloc, ?get_alloc.
  - intros L. destruct (Nat.eqb_spec i (next s)); [lia | apply (c_fresh s C); lia].
  - destruct (Nat.eqb_spec i (next s)); [exact G | apply (c_good s C)].
  - destruct (Nat.eqb_spec i (next s)); [exact R | apply (c_roots s C)].
  - intros r I. apply (alive_alloc s o r C).
    destruct (Nat.eqb_spec i (next s)); [auto | apply (c_refs s C i r I)].
  - intros j. rewrite get_alloc. intros Ai Aj E.
    destruct (Nat.eqb_spec i (next s)), (Nat.eqb_spec j (next s)); subst; auto.
    + destruct (F j Aj). symmetry. exact E.
    + destruct (F i Ai E).
    + apply (c_addr s C); assumption.
  - destruct (Nat.eqb_spec i (next s)); [exact Hh | apply (c_handle s C)].
Qed.

Lemma alloc_inv s o : Inv s -> addr_free s (addr o) = true ->
  (0 < roots o -> alive o = true) ->
  (forall r, In r (refs_of o) -> alive (get s r) = true) ->
  gcp_good o -> (forall x, k o = KHandle x -> horig o = Some x) ->
  view_of o = None -> exports o = [] ->
  Inv (alloc s o).
Proof.
  intros H F R Rf G Hh V E. destruct (Inv_WInv s H) as [C K]. apply WInv_Inv. split.
  - apply core_alloc; try assumption. apply (addr_free_spec s _ C F).
  - apply (links_pointwise s _ K); intros j; rewrite get_alloc.
    1-2: destruct (Nat.eqb_spec j (next s)); [subst; rewrite (c_fresh _ C); auto | reflexivity].
    intros _ A. rewrite <- get_alloc. apply (alive_alloc s o j C A).
Qed.

Lemma release_view_next s f : next (release_view s f) = next s.
Proof.
  unfold release_view. destruct (k (get s f)); try reflexivity. destruct view; try reflexivity.
  cbn. match goal with |- context [match ?x with _ => _ end] => destruct x end; reflexivity.
Qed.

Definition unview (o : obj) : obj :=
  match k o with KFromBuf src true => with_k o (KFromBuf src false) | _ => o end.
Definition unexport (f : nat) (o : obj) : obj :=
  match k o with KPy refs ex => with_k o (KPy refs (remove_id f ex)) | _ => o end.

Lemma release_view_get s f j :
  get (release_view s f) j =
    if Nat.eqb j f then unview (get s f)
    else match k (get s f) with
         | KFromBuf src true => if Nat.eqb j src then unexport f (get s src) else get s j
         | _ => get s j
         end.
Proof.
  unfold release_view, unview.
  destruct (k (get s f)) as [| | | | src [|] | |] eqn:K;
    try (destruct (Nat.eqb_spec j f); [subst|]; reflexivity).
  unfold unexport. rewrite get_set. destruct (Nat.eqb_spec src f) as [-> | Ne].
  - cbn [k with_k]. rewrite get_set. destruct (Nat.eqb_spec j f); reflexivity.
  - destruct (k (get s src)) eqn:K2; rewrite ?get_set;
      destruct (Nat.eqb_spec j f), (Nat.eqb_spec j src); subst; try contradiction; reflexivity.
Qed.

(* What a deallocation does to ANY object of the table, the one freed or another: the object may die;
   its address, its handle and its well-formedness are kept, and it gains no reference.  The relation
   mentions no state and is transitive, so freeing a whole set is decay object by object
   ([fold_decay]), and every clause of [Core] but one survives pointwise ([core_decay]).  The one that
   fails while the set is half freed, "references are alive", is proved once, at the end, from the
   closed form of [alive] after the fold ([fold_alive], [fold_kills]): that is [free_inv].
   [frame]: the object keeps its life and its variables as well, which is what both halves of a buffer
   release do. *)
Definition decay (o o' : obj) : Prop :=
  (o = dead_obj -> o' = dead_obj) /\ (alive o' = true -> alive o = true) /\
  ((0 < roots o -> alive o = true) -> 0 < roots o' -> alive o' = true) /\ addr o' = addr o /\
  (forall r, In r (refs_of o') -> In r (refs_of o)) /\ (gcp_good o -> gcp_good o') /\
  (forall x, k o' = KHandle x -> k o = KHandle x /\ horig o' = horig o).

Definition frame (o o' : obj) : Prop := alive o' = alive o /\ roots o' = roots o /\ decay o o'.

Lemma frame_refl o : frame o o.
Proof. unfold frame, decay. auto 10. Qed.

Lemma decay_trans a b c : decay a b -> decay b c -> decay a c.
Proof.
  intros (D1 & A1 & R1 & Ad1 & F1 & G1 & H1) (D2 & A2 & R2 & Ad2 & F2 & G2 & H2).
  unfold decay. repeat split; auto; try congruence; destruct (H2 x) as (K2 & E); auto.
  - apply (H1 x K2).
  - rewrite E. apply (H1 x K2).
Qed.

Lemma frame_unview o : frame o (unview o).
Proof.
  unfold unview. destruct (k o) as [| | | | src [|] | |] eqn:K; try apply frame_refl.
  unfold frame, decay, gcp_good. rewrite !refs_of_edges. cbn. rewrite K.
  repeat split; auto; try tauto; try discriminate.
  - intros E. rewrite E in K. discriminate K.
  - destruct (alive o); intros _ [].
Qed.

Lemma frame_unexport f o : frame o (unexport f o).
Proof.
  unfold unexport. destruct (k o) as [| | | | | | refs ex] eqn:K; try apply frame_refl.
  unfold frame, decay, gcp_good. rewrite !refs_of_edges. cbn. rewrite K.
  repeat split; auto; try tauto; try discriminate. intros E. rewrite E in K. discriminate K.
Qed.

Lemma release_view_cases s f j :
  get (release_view s f) j = get s j \/ get (release_view s f) j = unview (get s j) \/
  get (release_view s f) j = unexport f (get s j).
Proof.
  rewrite release_view_get. destruct (Nat.eqb_spec j f); [subst; auto|].
  destruct (k (get s f)) as [| | | | src [|] | |]; auto.
  destruct (Nat.eqb_spec j src); [subst|]; auto.
Qed.

Lemma release_view_frame s f j : frame (get s j) (get (release_view s f) j).
Proof.
  destruct (release_view_cases s f j) as [-> | [-> | ->]];
    [apply frame_refl | apply frame_unview | apply frame_unexport].
Qed.

Lemma core_decay s s' : Core s -> next s' = next s -> (forall j, decay (get s j) (get s' j)) ->
  (forall i r, In r (refs_of (get s' i)) -> alive (get s' r) = true) -> Core s'.
Proof.
  intros C N D Rf. constructor.
  - intros i L. apply (D i), (c_fresh s C). lia.
  - intros i. apply (D i), (c_good s C).
  - intros i. apply (D i), (c_roots s C).
  - exact Rf.
  - intros i j Ai Aj. destruct (D i) as (_ & Ai' & _ & -> & _), (D j) as (_ & Aj' & _ & -> & _).
    apply (c_addr s C); auto.
  - intros h x K. destruct (D h) as (_ & _ & _ & _ & _ & _ & Hh). destruct (Hh x K) as (K0 & ->).
    apply (c_handle s C _ _ K0).
Qed.

Lemma release_view_core s f : Core s -> Core (release_view s f).
Proof.
  intros C. apply (core_decay s); [exact C | apply release_view_next | intros j; apply release_view_frame|].
  intros i r I. destruct (release_view_frame s f r) as (-> & _).
  apply (c_refs s C i), (release_view_frame s f i), I.
Qed.

Lemma unview_links o : view_of (unview o) = None /\ exports (unview o) = exports o.
Proof.
  unfold view_of, exports, unview. destruct (k o) as [| | | | ? [|] | |] eqn:K; cbn; rewrite ?K; auto.
Qed.

Lemma unexport_links f o :
  view_of (unexport f o) = view_of o /\ exports (unexport f o) = remove_id f (exports o).
Proof.
  unfold view_of, exports, unexport. destruct (k o) eqn:K; cbn; rewrite ?K; auto.
Qed.

Lemma release_view_view_of s f j :
  view_of (get (release_view s f) j) = if Nat.eqb j f then None else view_of (get s j).
Proof.
  rewrite release_view_get. destruct (Nat.eqb_spec j f); [apply unview_links|].
  destruct (k (get s f)) as [| | | | src [|] | |]; try reflexivity.
  destruct (Nat.eqb_spec j src); [subst; apply unexport_links | reflexivity].
Qed.

Lemma release_view_exports s f j f0 :
  In f0 (exports (get (release_view s f) j)) <->
  In f0 (exports (get s j)) /\ ~ (f0 = f /\ view_of (get s f) = Some j).
Proof.
  rewrite release_view_get. destruct (Nat.eqb_spec j f) as [-> | Nf].
  - destruct (unview_links (get s f)) as (_ & ->). split; [|tauto]. intros I. split; [exact I|].
    intros (_ & V). unfold view_of, exports in *. destruct (k (get s f)); try discriminate. destruct I.
  - destruct (k (get s f)) as [| | | | src [|] | |] eqn:K;
      try (unfold view_of; rewrite K; split; [intros I; split; [exact I | intros (_ & E); discriminate] | tauto]).
    rewrite (proj2 (view_of_spec _ _) K). destruct (Nat.eqb_spec j src) as [-> | Ns].
    + destruct (unexport_links f (get s src)) as (_ & ->). rewrite In_remove_id. tauto.
    + split; [|tauto]. intros I. split; [exact I | intros (_ & E); congruence].
Qed.

Lemma release_view_links s f : Links s -> Links (release_view s f).
Proof.
  intros K. constructor.
  - intros f0 src0. rewrite release_view_view_of. destruct (Nat.eqb_spec f0 f); [discriminate|].
    intros V. destruct (k_view s K f0 src0 V) as (A & I). split.
    + destruct (release_view_frame s f f0) as (-> & _). exact A.
    + apply release_view_exports. tauto.
  - intros src0 f0 I. apply release_view_exports in I. destruct I as (I & N).
    rewrite release_view_view_of. pose proof (k_exp s K src0 f0 I) as V.
    destruct (Nat.eqb_spec f0 f); [subst; tauto | exact V].
Qed.

Lemma release_view_winv s f : WInv s -> WInv (release_view s f).
Proof. intros [C K]. split; [apply release_view_core, C | apply release_view_links, K]. Qed.

Lemma release_view_inv s f : Inv s -> Inv (release_view s f).
Proof. intros H. apply WInv_Inv, release_view_winv, Inv_WInv, H. Qed.

Lemma good_kill o : gcp_good o -> gcp_good (kill (run_dtor o)).
Proof.
  (* the object written out, as in good_finalize *)
  rewrite run_dtor_effect. destruct o as [[| | orig [y|] | | src [|] | |] al r a c h cn rl ho]; cbn; auto.
  - intros (-> & -> & -> & _). split; [right; right|]; auto.
  - intros (G & _). split; [|auto]. destruct G as [G | [G | (H & Cn & C & _)]]; [left | right; left | right; right]; auto.
Qed.

Lemma kill_kind o :
  view_of (kill (run_dtor o)) = view_of o /\ exports (kill (run_dtor o)) = exports o /\
  horig (kill (run_dtor o)) = horig o /\ forall x, k (kill (run_dtor o)) = KHandle x -> k o = KHandle x.
Proof.
  unfold view_of, exports. rewrite run_dtor_effect.
  destruct (k o) as [| | ? [?|] | | | |] eqn:K; cbn; rewrite ?K; repeat split; auto; discriminate.
Qed.

Lemma decay_kill o : decay o (kill (run_dtor o)).
Proof.
  destruct (kill_kind o) as (_ & _ & Kh & Kx), (run_dtor_frame o) as (_ & _ & Ad & _).
  unfold decay. repeat split; auto using good_kill; try discriminate.
  - intros ->. reflexivity.
  - cbn. lia.
  - intros r [].
Qed.

Lemma dealloc_get s g j :
  get (dealloc s g) j =
  if Nat.eqb j g then kill (run_dtor (get (release_view s g) g)) else get (release_view s g) j.
Proof. reflexivity. Qed.

Lemma next_dealloc s g : next (dealloc s g) = next s.
Proof. apply release_view_next. Qed.

Lemma dealloc_decay s g j : decay (get s j) (get (dealloc s g) j).
Proof.
  rewrite dealloc_get. destruct (Nat.eqb_spec j g) as [-> |]; [|apply release_view_frame].
  apply (decay_trans _ (get (release_view s g) g)); [apply release_view_frame | apply decay_kill].
Qed.

Lemma dealloc_alive s g j : j <> g -> alive (get (dealloc s g) j) = alive (get s j).
Proof.
  intros N. rewrite dealloc_get. destruct (Nat.eqb_spec j g); [contradiction | apply release_view_frame].
Qed.

Lemma dealloc_links s g : Links s -> Links (dealloc s g).
Proof.
  intros K. apply (links_pointwise (release_view s g)); [apply release_view_links, K | | |]; intros j;
    rewrite dealloc_get; destruct (Nat.eqb_spec j g) as [-> |]; auto; try apply kill_kind.
  rewrite release_view_view_of, Nat.eqb_refl. intros []. reflexivity.
Qed.

Lemma fold_dealloc_ind (I : state -> Prop) G :
  (forall s g, In g G -> I s -> I (dealloc s g)) -> forall s, I s -> I (fold_left dealloc G s).
Proof.
  induction G as [| g G IH]; intros St s H; cbn; [exact H|].
  apply IH; [intros s1 g1 I1; apply St; right; exact I1 | apply St; [left; reflexivity | exact H]].
Qed.

Lemma next_fold G s : next (fold_left dealloc G s) = next s.
Proof. apply (fold_dealloc_ind (fun s' => next s' = next s)); [intros s' g _ <-; apply next_dealloc | reflexivity]. Qed.

Lemma fold_decay G s j : decay (get s j) (get (fold_left dealloc G s) j).
Proof.
  apply (fold_dealloc_ind (fun s' => decay (get s j) (get s' j))); [|apply frame_refl].
  intros s' g _ D. apply (decay_trans _ _ _ D), dealloc_decay.
Qed.

Lemma fold_links G s : Links s -> Links (fold_left dealloc G s).
Proof. apply fold_dealloc_ind. intros s' g _. apply dealloc_links. Qed.

Lemma fold_alive G s j : ~ In j G -> alive (get (fold_left dealloc G s) j) = alive (get s j).
Proof.
  intros N. apply (fold_dealloc_ind (fun s' => alive (get s' j) = alive (get s j))); [|reflexivity].
  intros s' g I <-. apply dealloc_alive. intros ->. exact (N I).
Qed.

Lemma fold_dead G s i : alive (get s i) = false -> alive (get (fold_left dealloc G s) i) = false.
Proof.
  intros D. destruct (alive (get (fold_left dealloc G s) i)) eqn:A; [|reflexivity].
  rewrite <- D. symmetry. apply (fold_decay G s i), A.
Qed.

Lemma dealloc_kills s g : alive (get (dealloc s g) g) = false.
Proof. rewrite dealloc_get, Nat.eqb_refl. reflexivity. Qed.

Lemma fold_kills G : forall s i, In i G -> alive (get (fold_left dealloc G s) i) = false.
Proof.
  induction G as [| g G IH]; intros s i I; [destruct I|]. cbn [fold_left]. destruct I as [-> | I].
  - apply fold_dead, dealloc_kills.
  - apply IH, I.
Qed.

Lemma nodupb_spec l : nodupb l = true <-> NoDup l.
Proof.
  induction l as [| i l IH]; cbn; [split; [constructor | reflexivity]|].
  rewrite andb_true_iff, negb_true_iff, IH, NoDup_cons_iff, <- mem_In, not_true_iff_false. tauto.
Qed.

Lemma garbage_spec s G : garbage s G = true <->
  NoDup G /\ (forall i, In i G -> i < next s /\ alive (get s i) = true /\ roots (get s i) = 0) /\
  (forall j r, j < next s -> In r (refs_of (get s j)) -> In r G -> In j G).
Proof.
  unfold garbage. rewrite !andb_true_iff, nodupb_spec, !forallb_forall. split.
  - intros [[N M] C]. split; [exact N|]. split.
    + intros i I. specialize (M i I). rewrite !andb_true_iff, Nat.ltb_lt, Nat.eqb_eq in M. tauto.
    + intros j r L Ir IG. specialize (C j ltac:(apply in_seq; lia)). apply mem_In.
      destruct (mem j G); [reflexivity|]. rewrite (proj2 (existsb_exists _ _)) in C; [discriminate|].
      exists r. rewrite mem_In. auto.
  - intros (N & M & C). split; [split; [exact N|]|].
    + intros i I. destruct (M i I) as (L & A & R). rewrite !andb_true_iff, Nat.ltb_lt, Nat.eqb_eq. auto.
    + intros j Ij. apply in_seq in Ij. destruct (existsb _ _) eqn:E; [|reflexivity].
      apply existsb_exists in E. destruct E as (r & Ir & Mr). cbn. apply mem_In.
      apply (C j r); [lia | exact Ir | apply mem_In, Mr].
Qed.

(* Freeing any set that is closed under incoming references keeps the invariant: what is alive afterwards
   is outside [G], hence so is everything it refers to, and nothing outside [G] has died.  Of the
   [garbage] guard only the closure is needed here. *)
Lemma free_inv s G : Inv s -> (forall i r, In r (refs_of (get s i)) -> In r G -> In i G) ->
  Inv (fold_left dealloc G s).
Proof.
  intros H Cl. destruct (Inv_WInv s H) as [C K]. apply WInv_Inv. split; [|apply fold_links, K].
  apply (core_decay s); [exact C | apply next_fold | intros j; apply fold_decay|].
  intros i r I. pose proof (refs_of_live _ _ I) as A. apply (fold_decay G s i) in I.
  rewrite fold_alive; [apply (c_refs s C i r I)|]. intros Ir.
  rewrite fold_kills in A; [discriminate | apply (Cl i r I Ir)].
Qed.

Lemma collect_inv s G : Inv s -> Inv (collect s G).
Proof.
  intros H. unfold collect. destruct (garbage s G) eqn:Gb; [|exact H].
  apply garbage_spec in Gb. destruct Gb as (_ & _ & Cl). apply free_inv; [exact H|].
  intros i r I. apply Cl, I. apply (alive_lt s i (inv_core s H) (refs_of_live _ _ I)).
Qed.

(* from_buffer: the source gets a new exporter and the view is created; neither update alone keeps
   the links, so the two are taken in one step *)
Lemma frombuf_inv s src a refs ex : Inv s -> usable s src = true -> addr_free s a = true ->
  k (get s src) = KPy refs ex ->
  Inv (alloc (set_obj s src (with_k (get s src) (KPy refs (next s :: ex))))
             (fresh (KFromBuf src true) a 1 false None)).
Proof.
  intros H U F K. destruct (usable_spec s src U) as (L & A & R). destruct (Inv_WInv s H) as [C Lk].
  assert (D : get s (next s) = dead_obj) by (apply (c_fresh _ (inv_core s H)); lia).
  set (o1 := with_k (get s src) (KPy refs (next s :: ex))).
  set (s1 := set_obj s src o1). set (o2 := fresh (KFromBuf src true) a 1 false None).
  assert (G : forall j, get (alloc s1 o2) j =
                        if Nat.eqb j (next s) then o2 else if Nat.eqb j src then o1 else get s j).
  { intros j. rewrite get_alloc. reflexivity. }
  assert (Vw : forall j, view_of (get (alloc s1 o2) j) = if Nat.eqb j (next s) then Some src else view_of (get s j)).
  { intros j. rewrite G. destruct (Nat.eqb_spec j (next s)); [reflexivity|].
    destruct (Nat.eqb_spec j src); [subst; unfold view_of; cbn; rewrite K|]; reflexivity. }
  assert (Ex : forall j, exports (get (alloc s1 o2) j) =
                         if Nat.eqb j src then next s :: exports (get s j) else exports (get s j)).
  { intros j. rewrite G. destruct (Nat.eqb_spec j (next s)), (Nat.eqb_spec j src); subst; try lia.
    - rewrite D. reflexivity.
    - unfold exports. cbn. rewrite K. reflexivity.
    - reflexivity. }
  assert (C1 : Core s1).
  { apply core_set; [exact C | exact L | apply (similar_py s src refs ex _ _ C K); auto]. }
  apply WInv_Inv. split.
  - apply core_alloc; [exact C1 | | reflexivity | | unfold gcp_good; cbn; auto | discriminate].
    + intros i. unfold s1. rewrite get_set. destruct (Nat.eqb_spec i src); [subst|];
        apply (addr_free_spec s a C F).
    + intros r [<- | []]. unfold s1. rewrite get_set_same. exact A.
  - constructor.
    + intros f src0. rewrite Vw, Ex. destruct (Nat.eqb_spec f (next s)) as [-> | Nf].
      * intros E. inversion E. subst src0. rewrite G, Nat.eqb_refl, Nat.eqb_refl. cbn. auto.
      * intros V. destruct (k_view s Lk f src0 V) as (Af & I).
        split; [|destruct (Nat.eqb_spec src0 src); [right|]; exact I].
        rewrite G. destruct (Nat.eqb_spec f (next s)); [contradiction|].
        destruct (Nat.eqb_spec f src); [subst; exact A | exact Af].
    + intros src0 f. rewrite Vw, Ex. intros I.
      assert (I0 : f = next s /\ src0 = src \/ In f (exports (get s src0))).
      { destruct (Nat.eqb_spec src0 src); [destruct I; subst|]; auto. }
      destruct I0 as [(-> & ->) | I0]; [rewrite Nat.eqb_refl; reflexivity|].
      pose proof (k_exp s Lk src0 f I0) as V.
      destruct (Nat.eqb_spec f (next s)); [subst; rewrite D in V; discriminate | exact V].
Qed.

Lemma compact_get_lt s i : i < next s -> get (compact s) i = get s i.
Proof.
  intros L. unfold compact, get. cbn [objs].
  rewrite (nth_indep _ dead_obj (objs s 0)) by (rewrite map_length, seq_length; exact L).
  rewrite map_nth, seq_nth by exact L. reflexivity.
Qed.

Lemma compact_get s i : Inv s -> get (compact s) i = get s i.
Proof.
  intros H. destruct (Nat.lt_ge_cases i (next s)) as [L | L]; [apply compact_get_lt; exact L|].
  rewrite (c_fresh _ (inv_core s H) i L). unfold compact, get. cbn [objs].
  apply nth_overflow. rewrite map_length, seq_length. exact L.
Qed.

Lemma compact_inv s : Inv s -> Inv (compact s).
Proof.
  intros H. pose proof (fun i => compact_get s i H) as E.
  assert (N : next (compact s) = next s) by reflexivity.
  destruct H. constructor; intros; rewrite ?N, ?E in *; eauto.
Qed.

Lemma addr_free_alloc s a o : addr_free s a = true -> addr o <> a -> addr_free (alloc s o) a = true.
Proof.
  unfold addr_free, ids. intros F N. rewrite next_alloc, seq_S, forallb_app. cbn [forallb].
  rewrite get_alloc_new, (proj2 (Nat.eqb_neq _ _) N), andb_false_r, andb_true_r.
  rewrite forallb_forall in *. intros i I. rewrite get_alloc_old by (apply in_seq in I; lia).
  apply F, I.
Qed.

Lemma good_fresh_plain kd a r ho : match kd with KGcp _ _ => False | _ => True end ->
  gcp_good (fresh kd a r false ho).
Proof. unfold gcp_good. destruct kd as [| | | | ? [|] | |]; cbn; tauto. Qed.

Lemma good_fresh_gcp n hf a r : gcp_good (fresh (KGcp (Some n) (dtor_of hf)) a r hf None).
Proof.
  unfold gcp_good. destruct hf; cbn.
  - repeat split; auto; discriminate.
  - split; [left; auto | right; right; discriminate].
Qed.

Lemma new_inv s kd a r : Inv s -> addr_free s a = true ->
  kd = KOwn \/ kd = KRaw \/ kd = KPy [] [] -> Inv (alloc s (fresh kd a r false None)).
Proof.
  intros H F K. destruct K as [-> | [-> | ->]];
    (apply alloc_inv; auto; try discriminate; unfold gcp_good; cbn; auto).
Qed.

Lemma alloc_wrapper_inv s a1 a2 r hf : Inv s -> addr_free s a1 = true -> addr_free s a2 = true ->
  a1 <> a2 ->
  Inv (alloc (alloc s (fresh KRaw a1 0 false None))
             (fresh (KGcp (Some (next s)) (dtor_of hf)) a2 r hf None)).
Proof.
  intros H F1 F2 N. apply alloc_inv; try reflexivity; try discriminate.
  - apply new_inv; auto.
  - apply addr_free_alloc; assumption.
  - intros x. rewrite refs_of_edges. destruct hf; intros [<- | []]; rewrite get_alloc_new; reflexivity.
  - apply good_fresh_gcp.
Qed.

Lemma alloc_structptr_inv s o a : Inv (alloc s o) -> alive o = true -> addr_free (alloc s o) a = true ->
  Inv (alloc (alloc s o) (fresh (KStructPtr (next s)) a 1 false None)).
Proof.
  intros H A F. apply alloc_inv; try reflexivity; try discriminate; auto.
  - intros x [<- | []]. rewrite get_alloc_new. exact A.
  - apply good_fresh_plain. exact I.
Qed.

Lemma hold_inv s i : Inv s -> alive (get s i) = true -> Inv (hold s i).
Proof.
  intros H A. apply set_local; [exact H | apply (alive_lt s i (inv_core s H) A)|].
  apply local_roots; auto.
Qed.

Lemma finalize_at_inv s i : Inv s -> alive (get s i) = true -> is_gcp (get s i) = true ->
  Inv (finalize_at s i).
Proof.
  intros H A Ig. apply set_local; [exact H | apply (alive_lt s i (inv_core s H) A)|].
  apply local_finalize; assumption.
Qed.

Lemma release_inv s i : Inv s -> alive (get s i) = true -> Inv (release s i).
Proof.
  intros H A. rewrite release_cases. destruct (k (get s i)) as [| st | | | src view | |] eqn:K; try exact H.
  - destruct (is_gcp (get s st)) eqn:G; [|exact H]. apply finalize_at_inv; [exact H | | exact G].
    apply (target_alive s i st H A). auto.
  - apply finalize_at_inv; try assumption. unfold is_gcp. rewrite K. reflexivity.
  - pose proof (release_view_inv s i H) as H1. assert (V : view_of (get (release_view s i) i) = None) by (rewrite release_view_view_of, Nat.eqb_refl; reflexivity).
    apply set_local; [exact H1 | rewrite release_view_next; apply (alive_lt s i (inv_core s H) A)|].
    apply local_released; [exact H1 | | exact V].
    rewrite release_view_get, Nat.eqb_refl. unfold is_gcp, unview. rewrite K.
    destruct view; [reflexivity | rewrite K; reflexivity].
Qed.

Lemma guarded_inv (b : bool) s s' : Inv s -> (b = true -> Inv s') -> Inv (if b then s' else s).
Proof. destruct b; auto. Qed.

Lemma step_inv s o : Inv s -> Inv (step s o).
Proof.
  (* collect_inv and compact_inv only on the two rows they are for: tried on a row that is no collection, the
     unifier unfolds [collect] and compares its body with the guarded state of that row before it fails *)
  intros H. destruct o; cbn [step];
    [.. | apply collect_inv, H | apply compact_inv, collect_inv, H]; try exact H;
    (apply guarded_inv; [exact H|]; intros Guard; rewrite ?andb_true_iff in Guard).
  - (* ONew *) apply new_inv; auto.
  - (* ONewStruct *)
    destruct Guard as [[F1 F2] N]. apply negb_true_iff, Nat.eqb_neq in N.
    apply alloc_structptr_inv; [apply new_inv; auto | reflexivity | apply addr_free_alloc; assumption].
  - (* OAllocNew *)
    destruct Guard as [[F1 F2] N]. apply negb_true_iff, Nat.eqb_neq in N. apply alloc_wrapper_inv; assumption.
  - (* OAllocNewStruct *)
    destruct Guard as [[[[[F1 F2] F3] N12] N13] N23]. apply negb_true_iff, Nat.eqb_neq in N12, N13, N23.
    apply alloc_structptr_inv; [apply alloc_wrapper_inv; assumption | reflexivity|].
    apply addr_free_alloc; [apply addr_free_alloc|]; assumption.
  - (* OAllocNewFail *)
    destruct Guard as [[F1 F2] N]. apply negb_true_iff, Nat.eqb_neq in N. change gen_newp_fail_decref with true. cbv iota.
    apply collect_inv, alloc_wrapper_inv; assumption.
  - (* OAlias *)
    destruct (usable_spec s p Guard) as (_ & A & _). destruct (k (get s p)) eqn:K; try exact H.
    apply hold_inv; [exact H|]. apply (target_alive s p s0 H A). auto.
  - (* OGc *)
    destruct Guard as [[U F] Y]. destruct (usable_spec s p U) as (_ & A & _).
    apply alloc_inv; try reflexivity; try discriminate; auto.
    + intros x. rewrite refs_of_edges. cbn. intros [<- | I]; [exact A|].
      destruct y as [yy|]; [|destruct I]. destruct I as [<- | []]. rewrite andb_true_iff in Y.
      apply (usable_spec s yy), Y.
    + unfold gcp_good. cbn. repeat split; auto; discriminate.
  - (* OGcNone *)
    apply set_local; [exact H | apply (usable_spec s w Guard) | apply local_cancel; exact H].
  - (* ORelease *) apply release_inv; [exact H | apply (usable_spec s o Guard)].
  - (* OHold *) apply hold_inv; [exact H | apply (usable_spec s o Guard)].
  - (* ODrop *)
    apply set_local; [exact H | apply (usable_spec s o Guard) | apply local_roots; auto].
    intros _. apply (usable_spec s o Guard).
  - (* ONewPy *) apply new_inv; auto.
  - (* OSetRef *)
    destruct Guard as [Ux Uy]. destruct (k (get s x)) eqn:K; try exact H.
    apply set_local; [exact H | apply (usable_spec s x Ux) | apply local_setref; auto].
    apply (usable_spec s y Uy).
  - (* OFromBuffer *)
    destruct Guard as [U F]. destruct (k (get s src)) eqn:K; try exact H. apply frombuf_inv; assumption.
  - (* OFromBufferFail *) rewrite no_leak in Guard. destruct Guard. discriminate.
  - (* ONewHandle *)
    destruct Guard as [U F]. apply alloc_inv; try reflexivity; try discriminate; auto.
    + intros z [<- | []]. apply (usable_spec s x U).
    + apply good_fresh_plain. exact I.
    + intros z E. inversion E. reflexivity.
  - (* OFromHandle *)
    destruct (usable_spec s h Guard) as (_ & A & _). destruct (k (get s h)) eqn:K; try exact H.
    apply hold_inv; [exact H|]. apply (target_alive s h x H A). auto.
Qed.

Lemma run_inv_from ops : forall s, Inv s -> Inv (fold_left step ops s).
Proof. induction ops as [| o ops IH]; intros s H; cbn; [exact H | apply IH, step_inv, H]. Qed.

Theorem run_inv ops : Inv (run ops).
Proof. apply run_inv_from, init_inv. Qed.

Definition mono (o o' : obj) : Prop :=
  (cancelled o = true -> cancelled o' = true) /\ calls o <= calls o' /\
  (released o = true -> released o' = true) /\ (alive o' = true -> alive o = true).

Lemma mono_refl o : mono o o.
Proof. unfold mono. auto. Qed.
Lemma mono_trans a b c : mono a b -> mono b c -> mono a c.
Proof. unfold mono. intros (A1 & A2 & A3 & A4) (B1 & B2 & B3 & B4). repeat split; auto. lia. Qed.

Lemma mono_with_roots o n : mono o (with_roots o n).
Proof. unfold mono. cbn. auto. Qed.
Lemma mono_with_k o kd : mono o (with_k o kd).
Proof. unfold mono. cbn. auto. Qed.
Lemma mono_run_dtor o : mono o (run_dtor o).
Proof. rewrite run_dtor_effect. unfold mono. destruct (k o) as [| | ? [?|] | | | |]; cbn; auto. Qed.
Lemma mono_mark_released o : mono o (mark_released o).
Proof. unfold mono. cbn. auto. Qed.
Lemma mono_cancel o : mono o (cancel o).
Proof. rewrite cancel_effect. unfold mono. destruct (k o) as [| | ? [?|] | | | |]; cbn; auto. Qed.
Lemma mono_kill o : mono o (kill o).
Proof. unfold mono. cbn. repeat split; auto; discriminate. Qed.
Lemma mono_unview o : mono o (unview o).
Proof. unfold unview. destruct (k o) as [| | | | ? [|] | |]; auto using mono_refl, mono_with_k. Qed.
Lemma mono_unexport f o : mono o (unexport f o).
Proof. unfold unexport. destruct (k o); auto using mono_refl, mono_with_k. Qed.

Definition ext (s s' : state) : Prop :=
  next s <= next s' /\ forall i, i < next s -> mono (get s i) (get s' i).

Lemma ext_refl s : ext s s.
Proof. split; auto using mono_refl. Qed.

Lemma ext_trans s1 s2 s3 : ext s1 s2 -> ext s2 s3 -> ext s1 s3.
Proof.
  intros (N1 & M1) (N2 & M2). split; [lia|]. intros i L.
  apply (mono_trans _ (get s2 i)); [apply M1 | apply M2]; lia.
Qed.

Lemma ext_set s s' j o' : ext s s' -> mono (get s' j) o' -> ext s (set_obj s' j o').
Proof.
  intros (N & M) Mj. split; [exact N|]. intros i L. rewrite get_set.
  destruct (Nat.eqb_spec i j); [subst; apply (mono_trans _ (get s' j))|]; auto.
Qed.

Lemma ext_alloc s s' o : ext s s' -> ext s (alloc s' o).
Proof.
  intros (N & M). split; [rewrite next_alloc; lia|]. intros i L. rewrite get_alloc_old by lia. auto.
Qed.

Lemma mono_alloc s o' i : i < next s -> mono (get s i) (get (alloc s o') i).
Proof. apply (ext_alloc s s o' (ext_refl s)). Qed.

Lemma ext_release_view s s' f : ext s s' -> ext s (release_view s' f).
Proof.
  intros (N & M). split; [rewrite release_view_next; exact N|]. intros i L.
  apply (mono_trans _ (get s' i)); [auto|].
  destruct (release_view_cases s' f i) as [-> | [-> | ->]]; auto using mono_refl, mono_unview, mono_unexport.
Qed.

Lemma ext_dealloc s s' g : ext s s' -> ext s (dealloc s' g).
Proof.
  intros E. rewrite dealloc_effect. apply ext_set; [apply ext_release_view, E|].
  apply (mono_trans _ _ _ (mono_run_dtor _) (mono_kill _)).
Qed.

Lemma ext_fold G s s' : ext s s' -> ext s (fold_left dealloc G s').
Proof. apply fold_dealloc_ind. intros s1 g _. apply ext_dealloc. Qed.

Lemma ext_collect s s' G : ext s s' -> ext s (collect s' G).
Proof. intros E. unfold collect. destruct (garbage s' G); [apply ext_fold, E | exact E]. Qed.

Lemma next_compact s : next (compact s) = next s.
Proof. reflexivity. Qed.
Lemma next_collect s G : next (collect s G) = next s.
Proof. unfold collect. destruct (garbage s G); [apply next_fold | reflexivity]. Qed.

Lemma ext_compact s s' : ext s s' -> ext s (compact s').
Proof.
  intros (N & M). split; [exact N|]. intros i L. rewrite compact_get_lt by lia. auto.
Qed.

Lemma ext_hold s s' i : ext s s' -> ext s (hold s' i).
Proof. intros E. apply ext_set; [exact E | apply mono_with_roots]. Qed.

Lemma ext_finalize_at s s' i : ext s s' -> ext s (finalize_at s' i).
Proof.
  intros E. apply ext_set; [exact E|]. apply (mono_trans _ _ _ (mono_run_dtor _) (mono_mark_released _)).
Qed.

Lemma ext_release s i : ext s (release s i).
Proof.
  rewrite release_cases. destruct (k (get s i)); auto using ext_refl, ext_finalize_at.
  - destruct (is_gcp (get s s0)); auto using ext_refl, ext_finalize_at.
  - apply ext_set; [apply ext_release_view, ext_refl | apply mono_mark_released].
Qed.

Lemma ext_if (b : bool) s s1 s2 : ext s s1 -> ext s s2 -> ext s (if b then s1 else s2).
Proof. destruct b; auto. Qed.

(* every operation is built from the updates above, each of which extends the state *)
Lemma step_ext s o : ext s (step s o).
Proof.
  destruct o; cbn [step]; rewrite ?no_leak, ?andb_false_r; try destruct (k (get s _));
    auto 6 using ext_refl, ext_if, ext_alloc, ext_set, ext_collect, ext_compact, ext_hold, ext_release,
                 mono_with_roots, mono_with_k, mono_cancel.
Qed.

Lemma next_step_le s o : next s <= next (step s o).
Proof. apply (step_ext s o). Qed.
Lemma step_mono s o i : i < next s -> mono (get s i) (get (step s o) i).
Proof. apply (step_ext s o). Qed.

Lemma run_ext ops : forall s, ext s (fold_left step ops s).
Proof.
  induction ops as [| o ops IH]; intros s; cbn; [apply ext_refl|].
  apply (ext_trans _ (step s o)); [apply step_ext | apply IH].
Qed.

Lemma run_dtor_twice o : mark_released (run_dtor (mark_released (run_dtor o))) = mark_released (run_dtor o).
Proof.
  rewrite (run_dtor_effect o). destruct (k o) as [| | ? [?|] | | | |] eqn:K;
    rewrite run_dtor_effect; cbn; rewrite ?K; reflexivity.
Qed.

Lemma usable_set s j o' i : alive o' = alive (get s j) -> roots o' = roots (get s j) ->
  usable (set_obj s j o') i = usable s i.
Proof.
  intros A R. unfold usable. rewrite next_set, get_set.
  destruct (Nat.eqb_spec i j); [subst; rewrite A, R; reflexivity | reflexivity].
Qed.

Lemma usable_finalize_at s i j : usable (finalize_at s i) j = usable s j.
Proof. destruct (run_dtor_frame (get s i)) as (A & R & _). apply usable_set; assumption. Qed.

Lemma is_gcp_finalize_at s i : is_gcp (get (finalize_at s i) i) = is_gcp (get s i).
Proof. unfold finalize_at. rewrite get_set_same. apply (run_dtor_frame (get s i)). Qed.

Definition same (s s' : state) : Prop := next s' = next s /\ forall j, get s' j = get s j.

Lemma same_refl s : same s s.
Proof. split; reflexivity. Qed.

Lemma finalize_at_twice s i : same (finalize_at s i) (finalize_at (finalize_at s i) i).
Proof.
  split; [reflexivity|]. intros j. unfold finalize_at. rewrite get_set_same, !get_set.
  destruct (Nat.eqb j i); [apply run_dtor_twice | reflexivity].
Qed.

Lemma usable_release s i j : usable (release s i) j = usable s j.
Proof.
  rewrite release_cases. destruct (k (get s i)); auto using usable_finalize_at.
  - destruct (is_gcp (get s s0)); auto using usable_finalize_at.
  - cbv zeta. rewrite usable_set by reflexivity. unfold usable.
    destruct (release_view_frame s i j) as (-> & -> & _). rewrite release_view_next. reflexivity.
Qed.

Lemma release_twice s i : same (release s i) (release (release s i) i).
Proof.
  rewrite (release_cases s i).
  destruct (k (get s i)) as [| st | orig dtor | | src view | x | refs ex] eqn:K;
    try (rewrite release_cases, K; apply same_refl).
  - destruct (is_gcp (get s st)) eqn:G; [|rewrite release_cases, K, G; apply same_refl].
    assert (K1 : k (get (finalize_at s st) i) = KStructPtr st).
    { unfold finalize_at. rewrite get_set_other; [exact K|]. intros ->. unfold is_gcp in G.
      rewrite K in G. discriminate. }
    rewrite release_cases, K1, is_gcp_finalize_at, G. apply finalize_at_twice.
  - rewrite release_cases. pose proof (is_gcp_finalize_at s i) as G. unfold is_gcp in G. rewrite K in G.
    destruct (k (get (finalize_at s i) i)); try discriminate. apply finalize_at_twice.
  - cbv zeta. set (s1 := release_view s i). set (s2 := set_obj s1 i (mark_released (get s1 i))).
    assert (K2 : k (get s2 i) = KFromBuf src false).
    { unfold s2. rewrite get_set_same. cbn. unfold s1. rewrite release_view_get, Nat.eqb_refl.
      unfold unview. rewrite K. destruct view; [reflexivity | exact K]. }
    assert (RV : release_view s2 i = s2) by (unfold release_view; rewrite K2; reflexivity).
    rewrite release_cases, K2. cbv zeta. rewrite RV. split; [reflexivity|]. intros j. rewrite get_set.
    destruct (Nat.eqb_spec j i); [subst|reflexivity]. unfold s2. rewrite get_set_same. reflexivity.
Qed.

Theorem release_idempotent s i :
  next (step (step s (ORelease i)) (ORelease i)) = next (step s (ORelease i)) /\
  forall j, get (step (step s (ORelease i)) (ORelease i)) j = get (step s (ORelease i)) j.
Proof.
  cbn [step]. destruct (usable s i) eqn:U; [|rewrite U; apply same_refl].
  rewrite usable_release, U. apply release_twice.
Qed.

Lemma run_app ops1 ops2 : run (ops1 ++ ops2) = fold_left step ops2 (run ops1).
Proof. unfold run. apply fold_left_app. Qed.

(* the life of a destructor: nothing has been called, or exactly one call has been made on a wrapper created
   with a destructor, never cancelled, by now released or dead; and such a wrapper has had its call *)
Definition protocol (o : obj) : Prop :=
  (calls o = 0 \/
   calls o = 1 /\ had o = true /\ cancelled o = false /\ (released o = true \/ alive o = false)) /\
  (cancelled o = true -> calls o = 0) /\
  (is_gcp o = true -> had o = true -> cancelled o = false ->
   released o = true \/ alive o = false -> calls o = 1).

Lemma good_protocol o : gcp_good o -> protocol o.
Proof.
  unfold protocol, gcp_good, is_gcp. destruct (k o) as [| | ? [?|] | | ? [|] | |]; intros G.
  3: { destruct G as (Hd & C & Cn & R & A & _). repeat split; auto. intros _ _ _ [E | E]; congruence. }
  3: { destruct G as ([(Hd & C & Cn) | [(Hd & Cn & C) | (Hd & Cn & C & D)]] & _); repeat split; auto; congruence. }
  all: repeat split; try discriminate; try (left; apply G); intros _; apply G.
Qed.

Lemma inv_protocol s i : Inv s -> protocol (get s i).
Proof. intros H. apply good_protocol, (c_good s (inv_core s H)). Qed.

Theorem dtor_at_most_once ops i : calls (get (run ops) i) <= 1.
Proof. destruct (inv_protocol _ i (run_inv ops)) as ([E | (E & _)] & _); lia. Qed.

Theorem dtor_exactly_once ops i :
  is_gcp (get (run ops) i) = true -> had (get (run ops) i) = true ->
  cancelled (get (run ops) i) = false ->
  released (get (run ops) i) = true \/ alive (get (run ops) i) = false ->
  calls (get (run ops) i) = 1.
Proof. apply (inv_protocol _ i (run_inv ops)). Qed.

Theorem dtor_not_early ops i :
  alive (get (run ops) i) = true -> released (get (run ops) i) = false ->
  calls (get (run ops) i) = 0.
Proof.
  intros A R. destruct (inv_protocol _ i (run_inv ops)) as ([E | (_ & _ & _ & [E | E])] & _); congruence.
Qed.

Lemma run_mono ops1 ops2 i : get (run ops1) i <> dead_obj ->
  mono (get (run ops1) i) (get (run (ops1 ++ ops2)) i).
Proof.
  intros N. rewrite run_app. apply run_ext.
  destruct (Inv_WInv _ (run_inv ops1)) as [C _]. apply (created_lt _ i C N).
Qed.

Theorem frombuf_locks_source ops f src :
  let s := run ops in
  k (get s f) = KFromBuf src true ->
  alive (get s f) = true /\ released (get s f) = false /\
  alive (get s src) = true /\ resize_blocked (get s src) = true.
Proof.
  intros s K. pose proof (run_inv ops) as H. fold s in H.
  destruct (k_view s (inv_links s H) f src (proj2 (view_of_spec _ _) K)) as (A & I).
  split; [exact A|]. split; [|split].
  - pose proof (c_good _ (inv_core s H) f) as G. unfold gcp_good in G. rewrite K in G. tauto.
  - apply (target_alive s f src H A). auto.
  - unfold resize_blocked. unfold exports in I. destruct (k (get s src)) as [| | | | | | ? [|]]; auto; destruct I.
Qed.

Theorem live_objects_distinct_addresses ops i j :
  let s := run ops in
  alive (get s i) = true -> alive (get s j) = true -> i <> j -> addr (get s i) <> addr (get s j).
Proof. intros s A B N E. apply N. eapply (c_addr _ (inv_core s (run_inv ops))); eassumption. Qed.

Lemma release_view_id s f : view_of (get s f) = None -> release_view s f = s.
Proof.
  unfold view_of, release_view. destruct (k (get s f)) as [| | | | ? [|] | |]; try reflexivity. discriminate.
Qed.

Lemma dealloc_plain s g : view_of (get s g) = None ->
  dealloc s g = set_obj s g (kill (run_dtor (get s g))).
Proof. intros V. rewrite dealloc_effect, release_view_id by exact V. reflexivity. Qed.

Lemma pair_garbage s a1 a2 hf : Inv s ->
  let n := next s in
  let s2 := alloc (alloc s (fresh KRaw a1 0 false None))
                  (fresh (KGcp (Some n) (dtor_of hf)) a2 0 hf None) in
  garbage s2 [S n; n] = true.
Proof.
  intros H n s2. apply garbage_spec. split; [|split].
  - repeat constructor; cbn; lia.
  - assert (Gs : get s2 (S n) = fresh (KGcp (Some n) (dtor_of hf)) a2 0 hf None) by apply get_alloc_new.
    assert (Gn : get s2 n = fresh KRaw a1 0 false None).
    { unfold s2. rewrite get_alloc_old by (rewrite next_alloc; lia). apply get_alloc_new. }
    intros i [<- | [<- | []]]; [rewrite Gs | rewrite Gn]; cbn; unfold n; auto.
  - intros j r L Ir IG. destruct (Nat.lt_ge_cases j n) as [Lj | Lj]; [exfalso | cbn in *; lia].
    unfold s2 in Ir. rewrite !get_alloc_old in Ir by (rewrite ?next_alloc; lia).
    pose proof (alive_lt s r (inv_core s H) (refs_alive_self s j H r Ir)). cbn in IG. fold n in H0. lia.
Qed.

Theorem failed_alloc_new_frees ops a1 a2 :
  let s := run ops in
  addr_free s a1 = true -> addr_free s a2 = true -> a1 <> a2 ->
  let n := next s in
  let s' := step s (OAllocNewFail a1 a2 true) in
  next s' = S (S n) /\
  alive (get s' n) = false /\ alive (get s' (S n)) = false /\
  calls (get s' (S n)) = 1 /\ had (get s' (S n)) = true /\
  (forall j, j < n -> get s' j = get s j).
Proof.
  intros s F1 F2 N n s'. pose proof (run_inv ops) as H. fold s in H.
  set (s2 := alloc (alloc s (fresh KRaw a1 0 false None))
                   (fresh (KGcp (Some n) (dtor_of true)) a2 0 true None)).
  assert (Gs : get s2 (S n) = fresh (KGcp (Some n) (dtor_of true)) a2 0 true None) by apply get_alloc_new.
  assert (Gn : get s2 n = fresh KRaw a1 0 false None).
  { unfold s2. rewrite get_alloc_old by (rewrite next_alloc; unfold n; lia). apply get_alloc_new. }
  set (s3 := set_obj s2 (S n) (kill (run_dtor (get s2 (S n))))).
  assert (E : s' = set_obj s3 n (kill (run_dtor (get s3 n)))).
  { unfold s'. cbn [step]. change gen_newp_fail_decref with true. cbv iota. rewrite F1, F2.
    destruct (Nat.eqb_spec a1 a2); [contradiction|]. cbn [andb negb]. fold n. fold s2.
    unfold collect. unfold s2, n. rewrite (pair_garbage s a1 a2 true H). fold n. fold s2.
    cbn [fold_left]. rewrite (dealloc_plain s2), (dealloc_plain (set_obj _ _ _)); [reflexivity | |].
    - rewrite get_set_other by lia. rewrite Gn. reflexivity.
    - rewrite Gs. reflexivity. }
  rewrite E. repeat split.
  - rewrite get_set_same. reflexivity.
  - rewrite get_set_other by lia. unfold s3. rewrite get_set_same. reflexivity.
  - rewrite get_set_other by lia. unfold s3. rewrite get_set_same, Gs. reflexivity.
  - rewrite get_set_other by lia. unfold s3. rewrite get_set_same, Gs. reflexivity.
  - intros j L. unfold s3, s2. rewrite !get_set_other by lia.
    rewrite !get_alloc_old by (rewrite ?next_alloc; unfold n in L; lia). reflexivity.
Qed.

