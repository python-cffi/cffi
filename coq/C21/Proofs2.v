(* C21 — the release dispatch as a function of the kind, operation results, re-entrant destructors. *)
From Coq Require Import Arith List Bool Lia.
Import ListNotations.
From Cffi Require Import C21.Gen C21.Model C21.Proofs.

Lemma release_case_kind s i :
  release_case s i =
  match k (get s i) with
  | KOwn => if own_is_struct s i then None else Some 0
  | KRaw | KStructPtr _ => Some 0
  | KFromBuf _ _ => Some 1
  | KGcp _ _ => Some 2
  | KHandle _ | KPy _ _ => None
  end.
Proof.
  unfold release_case, guard_holds. destruct (k (get s i)); cbn; try reflexivity.
  destruct (own_is_struct s i); reflexivity.
Qed.

(* splits the goal and the hypotheses of a result statement into atoms and closes what is then
   immediate; only used once the kind of the object is fixed *)
Ltac fin_res :=
  repeat match goal with
         | |- _ /\ _ => split
         | |- _ <-> _ => split
         | |- _ -> _ => intro
         end;
  repeat match goal with
         | H : _ \/ _ |- _ => destruct H
         | H : _ /\ _ |- _ => destruct H
         | H : exists _, _ |- _ => destruct H
         end;
  try reflexivity; try discriminate; try congruence;
  try (left; eexists; reflexivity); try (right; split; reflexivity).

Lemma release_result s i : usable s i = true ->
  (out s (ORelease i) = RValueError <->
     (exists y, k (get s i) = KHandle y) \/ (k (get s i) = KOwn /\ own_is_struct s i = true)) /\
  (out s (ORelease i) = RTypeError <-> is_py (get s i) = true) /\
  (out s (ORelease i) = ROk \/ step s (ORelease i) = s).
Proof.
  intros U. cbn [step]. rewrite release_cases. unfold out, is_py. rewrite U, release_case_kind.
  destruct (k (get s i)) as [| st | orig dtor | | src view | hx | refs ex] eqn:K; cbn;
    try destruct (own_is_struct s i) eqn:O; fin_res; auto.
Qed.

Lemma finalize_re_same fuel r o :
  mark_released (finalize_re fuel r o) = mark_released (run_dtor o).
Proof.
  destruct o as [kd al ro ad ca ha cn rl ho].
  destruct kd as [| st | orig [y|] | | src view | hx | refs ex]; destruct fuel as [| [| f]]; destruct r;
    reflexivity.
Qed.

Lemma finalize_at_re_same r s i : finalize_at_re r s i = finalize_at s i.
Proof. unfold finalize_at_re, finalize_at. rewrite finalize_re_same. reflexivity. Qed.

Lemma step2_erase s o : step2 s o = step s (erase o).
Proof.
  destruct o as [o | i r]; [reflexivity|]. cbn [step2 erase step]. unfold release.
  destruct (usable s i); [|reflexivity]. destruct (release_case s i); [|reflexivity].
  unfold do_exit_re, do_exit. rewrite !finalize_at_re_same.
  destruct (exit_action_of n); try reflexivity.
  destruct (k (get s i)); try reflexivity. rewrite finalize_at_re_same. reflexivity.
Qed.

Lemma run2_erase_from ops : forall s, fold_left step2 ops s = fold_left step (map erase ops) s.
Proof. induction ops as [| o ops IH]; intros s; cbn; [reflexivity|]. rewrite step2_erase. apply IH. Qed.

Lemma run2_erase ops : run2 ops = run (map erase ops).
Proof. apply run2_erase_from. Qed.

