(* C21 — Ownership, destructors and handles behave correctly over any history.
   The lemmas are in C21/Proofs.v and C21/Proofs2.v.  [run ops] is the state after ANY list of operations
   (C21/Model.v: creation, aliasing, gc, gc(None), release / with, hold, drop, attribute
   references (cycles), from_buffer, handles, and deallocation of ANY garbage set at ANY moment).

   Runtime hypotheses, built into the guards of the model's runtime events (and named in the
   evidence): (R1) CPython deallocates only sets of objects that no variable and no object outside
   the set refers to, each object once ([garbage] guard of OCollect); (R2) an allocation never
   returns the address of a live object ([addr_free] guard); (R3) a destructor does not resurrect
   or touch the objects being freed (OCollect is atomic).
   R3 is weakened by the re-entrancy theorems at the end: a destructor MAY release, or remove the
   destructor of, the wrapper that is being finalised.
   The reference edges, what finalisation clears and calls, and the release dispatch of the model are
   defined from tables regenerated from the C source (C21/Gen.v); C21_model_edges_are_tp_traverse ..
   C21_release_dispatch_is_cdata_exit spell out what the tables must say for the theorems to hold.
   Operations whose guard fails (operand not held by a variable, address in use) leave the state
   unchanged; [get s i] for an index never created is a default dead object with no destructor,
   for which the statements below hold trivially. *)
From Coq Require Import Arith List Bool.
Import ListNotations.
From Coq Require Import Lia.
From Cffi Require Import C21.Gen C21.Model C21.Proofs C21.Proofs2.

(* a destructor (ffi.gc callback or allocator free) runs at most once per wrapper *)
Theorem C21_destructor_at_most_once : forall ops i, calls (get (run ops) i) <= 1.
Proof. exact dtor_at_most_once. Qed.
Print Assumptions C21_destructor_at_most_once.

(* ... exactly once by the time the wrapper is released or dead (unless cancelled) *)
Theorem C21_destructor_exactly_once : forall ops i,
  is_gcp (get (run ops) i) = true -> had (get (run ops) i) = true ->
  cancelled (get (run ops) i) = false ->
  released (get (run ops) i) = true \/ alive (get (run ops) i) = false ->
  calls (get (run ops) i) = 1.
Proof. exact dtor_exactly_once. Qed.
Print Assumptions C21_destructor_exactly_once.

(* ... and not before: while the wrapper is alive and not released nothing has been called *)
Theorem C21_destructor_not_early : forall ops i,
  alive (get (run ops) i) = true -> released (get (run ops) i) = false ->
  calls (get (run ops) i) = 0.
Proof. exact dtor_not_early. Qed.
Print Assumptions C21_destructor_not_early.

(* never after ffi.gc(p, None): once a destructor has been removed, it is not called in any
   continuation of the history *)
Theorem C21_never_after_cancel : forall ops1 ops2 i,
  cancelled (get (run ops1) i) = true -> calls (get (run (ops1 ++ ops2)) i) = 0.
Proof.
  intros ops1 ops2 i C. destruct (run_mono ops1 ops2 i) as (M & _); [intros E; rewrite E in C; discriminate|].
  apply (inv_protocol _ i (run_inv (ops1 ++ ops2))), M, C.
Qed.
Print Assumptions C21_never_after_cancel.

Theorem C21_called_once_stays : forall ops1 ops2 i,
  calls (get (run ops1) i) = 1 -> calls (get (run (ops1 ++ ops2)) i) = 1.
Proof.
  intros ops1 ops2 i C. destruct (run_mono ops1 ops2 i) as (_ & M & _); [intros E; rewrite E in C; discriminate|].
  pose proof (dtor_at_most_once (ops1 ++ ops2) i). lia.
Qed.
Print Assumptions C21_called_once_stays.

(* new_allocator(): the allocation is a KGcp wrapper whose destructor is free, so the four
   theorems above give "free exactly once per allocation"; releasing the POINTER of
   new_allocator()("struct *") frees the allocation behind it *)
Theorem C21_release_struct_ptr_frees : forall ops p st,
  let s := run ops in
  usable s p = true -> k (get s p) = KStructPtr st -> is_gcp (get s st) = true ->
  had (get s st) = true -> cancelled (get s st) = false ->
  calls (get (step s (ORelease p)) st) = 1.
Proof.
  intros ops p st s U K G Hh Hc.
  assert (E : step s (ORelease p) = finalize_at s st) by (cbn [step]; rewrite U, release_cases, K, G; reflexivity).
  destruct (run_dtor_frame (get s st)) as (_ & _ & _ & Fg & Fh & Fc).
  apply (inv_protocol _ st (step_inv s (ORelease p) (run_inv ops))); rewrite E; unfold finalize_at;
    rewrite get_set_same.
  - change (is_gcp (run_dtor (get s st)) = true). congruence.
  - cbn. congruence.
  - cbn. congruence.
  - left. reflexivity.
Qed.
Print Assumptions C21_release_struct_ptr_frees.

(* ffi.release is idempotent: a second release changes nothing at all *)
Theorem C21_release_idempotent : forall ops i,
  let s := run ops in
  next (step (step s (ORelease i)) (ORelease i)) = next (step s (ORelease i)) /\
  forall j, get (step (step s (ORelease i)) (ORelease i)) j = get (step s (ORelease i)) j.
Proof. intros ops i. apply release_idempotent. Qed.
Print Assumptions C21_release_idempotent.

(* from_buffer: while the view is held the cdata is alive and unreleased, the source is alive and
   refuses to be resized; conversely a source that refuses has such a view — i.e. it is
   unlocked as soon as every from_buffer object on it is released or dead *)
Theorem C21_frombuf_locks_source : forall ops f src,
  let s := run ops in
  k (get s f) = KFromBuf src true ->
  alive (get s f) = true /\ released (get s f) = false /\
  alive (get s src) = true /\ resize_blocked (get s src) = true.
Proof. exact frombuf_locks_source. Qed.
Print Assumptions C21_frombuf_locks_source.

Theorem C21_source_unlocked_when_no_view : forall ops src,
  let s := run ops in
  resize_blocked (get s src) = true ->
  exists f, k (get s f) = KFromBuf src true /\ alive (get s f) = true /\ released (get s f) = false.
Proof.
  intros ops src s B. pose proof (run_inv ops) as H. fold s in H. unfold resize_blocked in B.
  destruct (k (get s src)) as [| | | | | | refs [| f ex]] eqn:K; try discriminate.
  assert (KF : view_of (get s f) = Some src).
  { apply (k_exp s (inv_links s H)). unfold exports. rewrite K. left. reflexivity. }
  apply (proj1 (view_of_spec _ _)) in KF. destruct (frombuf_locks_source ops f src KF) as (A & R & _). exists f. auto.
Qed.
Print Assumptions C21_source_unlocked_when_no_view.

(* a from_buffer call that FAILS (buffer too small for a fixed-length array type, not a buffer,
   read-only buffer with require_writable, ...) leaves the object table unchanged: no export, no
   reference, nothing created.  [path_leaks] is computed from the regenerated table of the error
   paths of direct_from_buffer (C21/Gen.v): which `goto errorN` each failure takes, whether it is
   taken after PyObject_GetBuffer succeeded, and whether that label calls PyBuffer_Release.
   The first theorem is the regenerated obligation itself. *)
Theorem C21_frombuf_error_paths_release :
  forallb (fun p => implb (snd (fst p)) (snd p)) gen_frombuf_paths = true.
Proof. exact frombuf_paths_release. Qed.
Print Assumptions C21_frombuf_error_paths_release.

Theorem C21_failed_from_buffer_is_pure : forall s src tag, step s (OFromBufferFail src tag) = s.
Proof. intros s src tag. cbn [step]. rewrite no_leak, andb_false_r. reflexivity. Qed.
Print Assumptions C21_failed_from_buffer_is_pure.

(* ffi.new whose initializer is rejected AFTER the memory was obtained (too many items, wrong
   element type, unknown field, out-of-range integer): direct_newp releases the freshly made cdata
   on that error path (regenerated fact Gen.gen_newp_fail_decref).  Through a custom allocator
   this means: the block's free function runs exactly once, the wrapper and the block obtained
   from alloc() are dead afterwards, and nothing else in the table changes.  With the default
   allocator the table is not touched at all. *)
Theorem C21_failed_alloc_new_frees : forall ops a1 a2,
  let s := run ops in
  addr_free s a1 = true -> addr_free s a2 = true -> a1 <> a2 ->
  let n := next s in
  let s' := step s (OAllocNewFail a1 a2 true) in
  next s' = S (S n) /\
  alive (get s' n) = false /\ alive (get s' (S n)) = false /\
  calls (get s' (S n)) = 1 /\ had (get s' (S n)) = true /\
  (forall j, j < n -> get s' j = get s j).
Proof. exact failed_alloc_new_frees. Qed.
Print Assumptions C21_failed_alloc_new_frees.

Theorem C21_failed_new_is_pure : forall s, step s ONewFail = s.
Proof. intros s. reflexivity. Qed.
Print Assumptions C21_failed_new_is_pure.

(* ffi.new("struct *"): while p is alive or p[0] is held, the struct object is alive (its memory
   is part of it); with a custom allocator, as long as it was not explicitly released, free has
   not been called and the allocation is alive *)
Theorem C21_struct_memory_kept : forall ops p st,
  let s := run ops in
  k (get s p) = KStructPtr st ->
  (alive (get s p) = true \/ 0 < roots (get s st)) ->
  alive (get s st) = true /\
  (is_gcp (get s st) = true -> released (get s st) = false ->
     calls (get s st) = 0 /\
     exists raw d, k (get s st) = KGcp (Some raw) d /\ alive (get s raw) = true).
Proof.
  intros ops p st s K L. pose proof (run_inv ops) as H. fold s in H.
  assert (A : alive (get s st) = true).
  { destruct L as [A | R]; [apply (target_alive s p st H A); auto | apply (c_roots _ (inv_core s H)), R]. }
  split; [exact A|]. intros G R. split; [apply dtor_not_early; assumption|].
  pose proof (c_good _ (inv_core s H) st) as Gd. unfold gcp_good, is_gcp in *.
  destruct (k (get s st)) as [| | [raw|] d | | | |] eqn:Ks; try discriminate.
  - exists raw, d. split; [reflexivity|]. apply (target_alive s st raw H A). eauto 6.
  - destruct d; intuition congruence.
Qed.
Print Assumptions C21_struct_memory_kept.

(* handles: from_handle on the address of a live handle returns the object given to the
   new_handle call that made it, and that object is alive *)
Theorem C21_from_handle_correct : forall ops h x,
  let s := run ops in
  alive (get s h) = true -> k (get s h) = KHandle x ->
  horig (get s h) = Some x /\ alive (get s x) = true /\ from_handle_addr s (addr (get s h)) = Some x.
Proof.
  intros ops h x s A K. pose proof (run_inv ops) as H. fold s in H.
  split; [apply (c_handle _ (inv_core s H)); exact K|]. split; [apply (target_alive s h x H A); auto|].
  unfold from_handle_addr.
  set (P := fun i => alive (get s i) && (addr (get s i) =? addr (get s h))).
  assert (Ih : In h (filter P (ids s))).
  { apply filter_In. split; [apply in_seq; pose proof (alive_lt s h (inv_core s H) A); lia|].
    unfold P. rewrite A, Nat.eqb_refl. reflexivity. }
  destruct (filter P (ids s)) as [| i l] eqn:F; [destruct Ih|].
  assert (Ii : In i (filter P (ids s))) by (rewrite F; left; reflexivity).
  apply filter_In in Ii. destruct Ii as (_ & Pi). unfold P in Pi.
  rewrite andb_true_iff, Nat.eqb_eq in Pi. destruct Pi as (Ai & Ei).
  rewrite (c_addr _ (inv_core s H) i h Ai A Ei), K. reflexivity.
Qed.
Print Assumptions C21_from_handle_correct.

(* "live handles have pairwise distinct addresses".  What cffi contributes is proved from the
   model's own bookkeeping: every new_handle call creates a new handle object (never a shared or
   recycled one), and a handle's address is the address of that object.  That two objects that
   are alive at the same time have different addresses is NOT a fact about cffi but runtime
   hypothesis R2 (the allocator never returns memory in use; the [addr_free] guard); the second
   theorem only carries R2 along the history and is named accordingly. *)
Theorem C21_new_handle_fresh : forall ops x a,
  let s := run ops in
  usable s x = true -> addr_free s a = true ->
  let s' := step s (ONewHandle x a) in
  next s' = S (next s) /\ k (get s' (next s)) = KHandle x /\ alive (get s' (next s)) = true /\
  addr (get s' (next s)) = a /\ (forall j, j < next s -> get s' j = get s j).
Proof.
  intros ops x a s U F. cbn [step]. rewrite U, F. cbn [andb]. rewrite next_alloc, get_alloc_new.
  repeat split; try reflexivity. intros j L. apply get_alloc_old, L.
Qed.
Print Assumptions C21_new_handle_fresh.

Theorem C21_live_handles_distinct_addresses_under_R2 : forall ops h1 h2 x1 x2,
  let s := run ops in
  alive (get s h1) = true -> alive (get s h2) = true ->
  k (get s h1) = KHandle x1 -> k (get s h2) = KHandle x2 -> h1 <> h2 ->
  addr (get s h1) <> addr (get s h2).
Proof. intros ops h1 h2 x1 x2 s A B _ _. apply live_objects_distinct_addresses; assumption. Qed.
Print Assumptions C21_live_handles_distinct_addresses_under_R2.

Theorem C21_references_alive : forall ops i r,
  In r (refs_of (get (run ops) i)) -> alive (get (run ops) r) = true.
Proof. intros ops i r. apply refs_alive_self, run_inv. Qed.
Print Assumptions C21_references_alive.

(* whatever the collector frees is finalised: every member of a garbage set (a set closed under
   the reference edges of Model.refs_of, i.e. the edges tp_traverse reports; for a wrapper:
   destructor AND origobj, independently of each other) is dead afterwards and a remaining
   destructor has run exactly once.  That gc.collect() frees exactly the objects unreachable under
   these edges is runtime hypothesis R1; the correspondence run checks it on every history,
   directed cycle shapes through the origobj edge included. *)
Theorem C21_collect_frees_members : forall ops G i,
  let s := run ops in
  garbage s G = true -> In i G ->
  let s' := step s (OCollect G) in
  alive (get s' i) = false /\
  (is_gcp (get s' i) = true -> had (get s' i) = true -> cancelled (get s' i) = false -> calls (get s' i) = 1).
Proof.
  intros ops G i s Gb I s'.
  assert (D : alive (get s' i) = false).
  { unfold s'. cbn [step]. unfold collect. rewrite Gb. apply fold_kills, I. }
  split; [exact D|]. intros Hg Hh Hc.
  apply (inv_protocol s' i (step_inv s _ (run_inv ops))); auto.
Qed.
Print Assumptions C21_collect_frees_members.

(* The regenerated tables.  [refs_of], [run_dtor], [cancel] and the ORelease case of [step] are
   DEFINED from Gen.gen_traverse / gen_structptr_owns / gen_finalize_cleared / gen_gcp_finalize_calls /
   gen_gcnone_clears / gen_release_case / gen_exit_table (extracted from the C source on every run).
   The next five statements say what those definitions amount to for the current source; they are
   proved by computation on the tables, so an edited Py_VISIT list, a cdatagcp_finalize that clears
   after the call or not at all, a changed case of explicit_release_case or cdata_exit breaks them
   (and with them every theorem above, all of which are proved about the same definitions). *)
Theorem C21_model_edges_are_tp_traverse : forall o,
  refs_of o =
  if alive o then
    match k o with
    | KOwn | KRaw => []
    | KStructPtr s => [s]
    | KGcp orig dtor => opt_list orig ++ match dtor with Some y => opt_list y | None => [] end
    | KFromBuf src view => if view then [src] else []
    | KHandle x => [x]
    | KPy refs _ => refs
    end
  else [].
Proof. exact refs_of_edges. Qed.
Print Assumptions C21_model_edges_are_tp_traverse.

Theorem C21_finalize_clears_both_calls_once : forall o,
  run_dtor o =
  match k o with
  | KGcp _ (Some _) =>
      mkobj (KGcp None None) (alive o) (roots o) (addr o) (S (calls o)) (had o) (cancelled o)
            (released o) (horig o)
  | KGcp _ None => with_k o (KGcp None None)
  | _ => o
  end.
Proof. exact run_dtor_effect. Qed.
Print Assumptions C21_finalize_clears_both_calls_once.

Theorem C21_gc_none_clears_destructor_only : forall o,
  cancel o =
  match k o with
  | KGcp orig (Some _) =>
      mkobj (KGcp orig None) (alive o) (roots o) (addr o) (calls o) (had o) true (released o) (horig o)
  | _ => o
  end.
Proof. exact cancel_effect. Qed.
Print Assumptions C21_gc_none_clears_destructor_only.

Theorem C21_finalize_order_facts :
  gen_finalize_clears_first = true /\ fin_clears FDestructor = true /\ fin_clears FOrigobj = true /\
  gen_gcp_finalize_calls = 1 /\ gen_dealloc_finalizes = true /\ gen_structptr_owns = true.
Proof. repeat split; reflexivity. Qed.
Print Assumptions C21_finalize_order_facts.

Theorem C21_release_dispatch_is_cdata_exit : forall s i,
  step s (ORelease i) =
  if usable s i then
    match k (get s i) with
    | KStructPtr st => if is_gcp (get s st) then finalize_at s st else s
    | KFromBuf _ _ => let s1 := release_view s i in set_obj s1 i (mark_released (get s1 i))
    | KGcp _ _ => finalize_at s i
    | _ => s
    end
  else s.
Proof. intros s i. cbn [step]. rewrite release_cases. reflexivity. Qed.
Print Assumptions C21_release_dispatch_is_cdata_exit.

(* Results of the operations ([out s o]).  ffi.release(x) / with x: on an
   object the program holds raises ValueError exactly for a handle and for the struct object p[0]
   behind ffi.new("struct *") (explicit_release_case falls through), TypeError exactly for a
   non-cdata (b_release), and whenever it does not succeed the state is unchanged.
   ffi.gc(x, None) raises TypeError exactly when x is not an ffi.gc()/allocator wrapper, and then
   changes no object. *)
Theorem C21_release_error_iff_kind : forall ops i,
  let s := run ops in
  usable s i = true ->
  (out s (ORelease i) = RValueError <->
     (exists y, k (get s i) = KHandle y) \/ (k (get s i) = KOwn /\ own_is_struct s i = true)) /\
  (out s (ORelease i) = RTypeError <-> is_py (get s i) = true) /\
  (out s (ORelease i) = ROk \/ step s (ORelease i) = s).
Proof. intros ops i. apply release_result. Qed.
Print Assumptions C21_release_error_iff_kind.

Theorem C21_gcnone_error_iff_kind : forall s w,
  usable s w = true ->
  (out s (OGcNone w) = RTypeError <-> is_gcp (get s w) = false) /\
  (out s (OGcNone w) = ROk <-> is_gcp (get s w) = true) /\
  (out s (OGcNone w) = ROk \/
   (next (step s (OGcNone w)) = next s /\ forall j, get (step s (OGcNone w)) j = get s j)).
Proof.
  intros s w U. cbn [out step]. rewrite U.
  assert (E : is_gcp (get s w) = false -> cancel (get s w) = get s w).
  { unfold is_gcp, cancel. destruct (k (get s w)); try reflexivity. discriminate. }
  destruct (is_gcp (get s w)) eqn:G; fin_res; auto.
  right. split; [reflexivity|]. intros j. rewrite get_set, E by reflexivity.
  destruct (Nat.eqb_spec j w); [subst; reflexivity | reflexivity].
Qed.
Print Assumptions C21_gcnone_error_iff_kind.

(* Re-entrant destructors (weakens R3).  [OReleaseRe i r]: ffi.release(i) / with i: whose
   destructor, while it runs, calls ffi.release(w) (r = RReleaseSelf) or ffi.gc(w, None)
   (r = RGcNoneSelf) on the wrapper w being finalised.  [finalize_re] keeps the statement order of
   cdatagcp_finalize explicit (clear, call with the nested action inside, or call then clear,
   according to Gen.gen_finalize_clears_first).  Because the source clears first, the nested
   cdatagcp_finalize finds no destructor: every history with re-entrant releases reaches the same
   state as the history with plain releases, hence ALL theorems above hold for [run2] too; "at most
   once" is restated. *)
Theorem C21_reentrant_release_same : forall ops, run2 ops = run (map erase ops).
Proof. exact run2_erase. Qed.
Print Assumptions C21_reentrant_release_same.

Theorem C21_at_most_once_reentrant : forall ops i, calls (get (run2 ops) i) <= 1.
Proof. intros ops i. rewrite run2_erase. apply dtor_at_most_once. Qed.
Print Assumptions C21_at_most_once_reentrant.

(* non-vacuity: a wrapper in a reference cycle with its own destructor's closure; a release
   followed by collection; a cancelled destructor; an allocator struct pointer released while
   aliased; two from_buffer views *)
Example C21_example_cycle :
  let s := run [ONewPy 1; ONew 2; OGc 1 3 (Some 0); OSetRef 0 2; ODrop 0; ODrop 1; ODrop 2; OCollectAuto] in
  observe s = [(false, 0, false); (false, 0, false); (false, 1, false)].
Proof. vm_compute. reflexivity. Qed.

Example C21_example_release_cancel :
  let s := run [ONew 1; OGc 0 2 None; OGc 0 3 None; ORelease 1; ORelease 1; OGcNone 2; ODrop 0; ODrop 1;
                ODrop 2; OCollectAuto] in
  observe s = [(false, 0, false); (false, 1, false); (false, 0, false)].
Proof. vm_compute. reflexivity. Qed.

Example C21_example_allocator_frombuf :
  let s := run [OAllocNewStruct 1 2 3 true; OAlias 2; ORelease 2; ODrop 2; OCollectAuto;
                ONewPy 4; OFromBuffer 3 5; OFromBuffer 3 6; ORelease 4; ODrop 5; OCollectAuto] in
  observe s = [(false, 0, false); (true, 1, false); (false, 0, false);
               (true, 0, false); (true, 0, false); (false, 0, false)].
Proof. vm_compute. reflexivity. Qed.

(* a cycle that closes only through the origobj edge of a wrapper whose destructor was removed:
   y -> W -> (origobj) handle -> y; everything is freed *)
Example C21_example_origobj_cycle :
  let s := run [ONewPy 1; ONewHandle 0 2; OGc 1 3 None; OGcNone 2; OSetRef 0 2; ODrop 1; ODrop 2; ODrop 0;
                OCollectAuto] in
  observe s = [(false, 0, false); (false, 0, false); (false, 0, false)].
Proof. vm_compute. reflexivity. Qed.

(* the struct object p[0] and a handle cannot be released (ValueError, nothing changes), a Python
   object gives TypeError; the array, the pointer and the wrapper can *)
Example C21_example_release_results :
  outs init [ONewStruct 1 2; OAlias 1; ORelease 0; ORelease 1; ONewPy 3; ONewHandle 2 4; ORelease 3;
             ORelease 2; OGcNone 1; ONew 5; ORelease 4; OGc 4 6 None; OGcNone 5; ORelease 5; ORelease 9]
  = [0; 0; 1; 0; 0; 0; 1; 2; 2; 0; 0; 0; 0; 0; 0].
Proof. vm_compute. reflexivity. Qed.

(* a re-entrant release: the destructor of wrapper 1 releases wrapper 1 while it runs; called once *)
Example C21_example_reentrant :
  let s := run2 [OBase (ONew 1); OBase (OGc 0 2 None); OReleaseRe 1 RReleaseSelf; OReleaseRe 1 RGcNoneSelf;
                 OBase (ODrop 1); OBase OCollectAuto] in
  observe s = [(true, 0, false); (false, 1, false)].
Proof. vm_compute. reflexivity. Qed.
