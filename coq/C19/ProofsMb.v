(* C19 — the regenerated bodies of minibuffer.h (C19/Gen.v) compute exactly the functions of
   C19/Model.v, hence refine the bytearray specification (proofs; statements in Props.v). *)
From Coq Require Import ZArith List Bool Lia.
Import ListNotations.
From Cffi Require Import C19.Types C19.Gen C19.Model C19.Spec C19.MbSem C19.Proofs.
Open Scope Z_scope.

Lemma exec_assign : forall v x r mem off n other src e,
  exec (SAssign v x :: r) mem off n other src e = exec r mem off n other src (env_set e v (eval n (fst src) e x)).
Proof. reflexivity. Qed.

Lemma exec_fetch : forall r mem off n other src e,
  exec (SFetch :: r) mem off n other src e =
  match fetch other with None => Err TypeError | Some sv => exec r mem off n other sv e end.
Proof. reflexivity. Qed.

Lemma if_env_set : forall (c : bool) e v z,
  (if c then env_set e v z else e) = env_set e v (if c then z else env_get e v).
Proof. intros [] [] []; reflexivity. Qed.

(* `if (left < 0) left = 0; if (right > size) right = size; if (left > right) left = right;`, shared by
   mb_slice and mb_ass_slice, leaves in left and right what the three `let`s of the model compute *)
Lemma exec_clamps : forall r mem off n other src e,
  exec (SIfAssign (TLt (EV Vleft) (EConst 0)) Vleft (EConst 0)
        :: SIfAssign (TGt (EV Vright) (EV Vsize)) Vright (EV Vsize)
        :: SIfAssign (TGt (EV Vleft) (EV Vright)) Vleft (EV Vright) :: r) mem off n other src e =
  let left := if e_left e <? 0 then 0 else e_left e in
  let right := if e_size e <? e_right e then e_size e else e_right e in
  let left := if right <? left then right else left in
  exec r mem off n other src (mk_env (e_idx e) left right (e_size e) (e_count e)).
Proof. intros. cbn [exec]. rewrite !if_env_set. destruct e. reflexivity. Qed.

Lemma gen_mb_item_is_model : forall mem off n idx,
  exec_item gen_mb_item mem off n idx = mb_item mem off n idx.
Proof. reflexivity. Qed.

Lemma gen_mb_slice_is_model : forall mem off n left right,
  exec_slice gen_mb_slice mem off n left right = Ok (mb_slice mem off n left right).
Proof.
  intros. unfold exec_slice, gen_mb_slice. rewrite exec_assign, exec_clamps. reflexivity.
Qed.

Lemma gen_mb_ass_item_is_model : forall mem off n idx other,
  exec_ass_item gen_mb_ass_item mem off n idx other = mb_ass_item mem off n idx other.
Proof. reflexivity. Qed.

(* the tail of mb_ass_slice for a source of known length: past the length test the whole source is copied.
   The left side is what exec leaves of gen_mb_ass_slice after exec_clamps, for a bytes or buffer source *)
Lemma copy_checked : forall mem pos count bs,
  (if (0 <=? zlen bs) && negb (count =? zlen bs) then Err ValueError
   else if zlen bs <? count then Err OutOfModel
   else Ok (write mem pos (firstn (Z.to_nat count) bs)))
  = if negb (count =? zlen bs) then Err ValueError else Ok (write mem pos bs).
Proof.
  intros mem pos count bs. rewrite (proj2 (Z.leb_le 0 (zlen bs)) (zlen_nonneg bs)). cbn [andb].
  destruct (Z.eqb_spec count (zlen bs)) as [-> | ]; [ | reflexivity]. cbn [negb].
  rewrite Z.ltb_irrefl. unfold zlen. rewrite Nat2Z.id, firstn_all. reflexivity.
Qed.

Lemma gen_mb_ass_slice_is_model : forall mem off n left right other,
  exec_ass_slice gen_mb_ass_slice mem off n left right other = mb_ass_slice mem off n left right other.
Proof.
  intros. unfold exec_ass_slice, gen_mb_ass_slice. rewrite exec_assign, exec_fetch.
  destruct other as [bs | bs | bs | ]; cbn [fetch]; [ | | | reflexivity]; rewrite exec_clamps.
  - apply copy_checked.
  - apply copy_checked.
  - reflexivity.
Qed.

(* any four bodies that compute the model's functions give the model's buffer object *)
Definition bodies_ok (P : progs) : Prop :=
  (forall mem off n idx, exec_item (p_item P) mem off n idx = mb_item mem off n idx) /\
  (forall mem off n l r, exec_slice (p_slice P) mem off n l r = Ok (mb_slice mem off n l r)) /\
  (forall mem off n idx v, exec_ass_item (p_ass_item P) mem off n idx v = mb_ass_item mem off n idx v) /\
  (forall mem off n l r v, exec_ass_slice (p_ass_slice P) mem off n l r v = mb_ass_slice mem off n l r v).

Lemma step_g_is_step : forall P, bodies_ok P -> forall off n mem o, step_g P off n mem o = step off n mem o.
Proof.
  intros P (H1 & H2 & H3 & H4) off n mem o. destruct o as [k | k [v | ] | ]; try reflexivity; cbn [step_g step].
  - rewrite mb_subscript_glue.
    change (mb_subscript_g P mem off n k)
      with (subscript n (exec_item (p_item P) mem off n) (exec_slice (p_slice P) mem off n) k).
    rewrite (subscript_ext _ _ _ _ _ _ k (H1 mem off n) (H2 mem off n)). reflexivity.
  - rewrite mb_ass_subscript_glue.
    change (mb_ass_subscript_g P mem off n k (Some v))
      with (subscript n (fun j => exec_ass_item (p_ass_item P) mem off n j v)
                        (fun l r => exec_ass_slice (p_ass_slice P) mem off n l r v) k).
    rewrite (subscript_ext _ _ _ _ _ _ k (fun j => H3 mem off n j v) (fun l r => H4 mem off n l r v)).
    reflexivity.
Qed.

Lemma run_g_is_run : forall P, bodies_ok P -> forall ops off n mem, run_g P off n mem ops = run off n mem ops.
Proof.
  intros P HP. induction ops as [ | o r IH]; intros; cbn; [reflexivity | ].
  rewrite (step_g_is_step P HP). destruct (step off n mem o) as [m1 out]. rewrite IH. reflexivity.
Qed.

Definition gen_progs : progs := mk_progs gen_mb_item gen_mb_slice gen_mb_ass_item gen_mb_ass_slice.

Lemma gen_bodies_ok : bodies_ok gen_progs.
Proof.
  unfold bodies_ok, gen_progs; simpl p_item; simpl p_slice; simpl p_ass_item; simpl p_ass_slice.
  split; [exact gen_mb_item_is_model | ].
  split; [exact gen_mb_slice_is_model | ].
  split; [exact gen_mb_ass_item_is_model | exact gen_mb_ass_slice_is_model].
Qed.

Lemma copy_alias_memmove : forall mem dest src n,
  0 <= dest -> 0 <= src -> 0 <= n -> src + n <= zlen mem -> dest + n <= zlen mem ->
  copy_alias Memmove mem dest src n = Ok (py_memmove mem dest src n).
Proof.
  intros. pose proof (memmove_is_copy_through_temporary mem dest src n) as M.
  destruct M as [M _]; try assumption. unfold memmove in M.
  replace (n <? 0) with false in M by (symmetry; apply Z.ltb_ge; lia). exact M.
Qed.

(* the copy primitive of mb_ass_slice as regenerated: memmove, so an aliasing source is
   copied as if through a temporary for EVERY overlap *)
Definition gen_copy_alias (mem : list Z) (dest src n : Z) : res (list Z) :=
  match copy_of gen_mb_ass_slice with Some f => copy_alias f mem dest src n | None => Err OutOfModel end.

Lemma gen_ass_slice_copy_is_memmove : copy_of gen_mb_ass_slice = Some Memmove.
Proof. reflexivity. Qed.

