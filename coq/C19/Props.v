(* C19 — Buffers, from_buffer and memmove match a byte-array model.
   Statements, each with its proof when nothing else uses it; the lemmas they share are in C19/Proofs.v
   and C19/ProofsMb.v.  Spec.v (bytearray semantics with firstn/skipn) shares with Model.v
   (minibuffer.h + CPython's slice protocol) only the vocabulary of keys, values, operations and outcomes. *)
From Coq Require Import ZArith List Bool Lia.
Import ListNotations.
From Cffi Require Import C19.Types C19.Gen C19.Model C19.Spec C19.MbSem C19.Proofs C19.ProofsMb.
Open Scope Z_scope.

(* Scope of the specification (recorded reading, DESIGN.md Appendix B): C19/Spec.v is the semantics of
   a Python bytearray of length n MINUS extended slices and MINUS length-changing assignments: a
   step other than 1/None is refused with TypeError (step 0 with ValueError, as bytearray does), a
   slice assignment of a different length with ValueError, `del` with TypeError; items are read as
   length-1 bytes and assigned from length-1 bytes objects; right-hand sides must be bytes-like.  A
   refusal changes no byte.  That Spec.v agrees with CPython's bytearray on everything else is
   checked on every run: tools/props/c19.py evaluates spec_run and a real bytearray on the same
   histories (correspondence "C19.Spec.spec_run vs CPython bytearray").

   History theorem.  A buffer over the n bytes at offset off of any memory, any sequence of
   operations (reads by index or slice, item and slice assignments from any Python value, deletions,
   len; any Python ints/None as bounds and steps): the outcomes (values, exception classes) are those
   of the same history on a Python bytearray holding the window, and the memory afterwards is the old
   memory with the window replaced by that bytearray's content. *)
Theorem C19_buffer_history : forall mem off n ops,
  0 <= off -> 0 <= n <= SSIZE_MAX -> off + n <= zlen mem ->
  exists w' outs, spec_run (window mem off n) ops = (w', outs) /\ zlen w' = n /\
                  run off n mem ops = (splice mem off n w', outs).
Proof. exact buffer_history. Qed.
Print Assumptions C19_buffer_history.

(* ... in particular nothing outside the window ever changes and no operation changes a length *)
Theorem C19_buffer_frame : forall mem off n ops mem' outs,
  0 <= off -> 0 <= n <= SSIZE_MAX -> off + n <= zlen mem ->
  run off n mem ops = (mem', outs) ->
  zfirstn off mem' = zfirstn off mem /\ zskipn (off + n) mem' = zskipn (off + n) mem /\
  zlen mem' = zlen mem /\
  spec_run (window mem off n) ops = (window mem' off n, outs).
Proof.
  intros mem off n ops mem' outs Ho Hn H Hrun.
  destruct (buffer_history mem off n ops Ho Hn H) as (w' & outs' & Hs & Hl & Hr).
  rewrite Hr in Hrun. injection Hrun as <- <-.
  destruct (splice_frame mem off n w' Ho ltac:(lia) H Hl) as (H1 & H2 & H3 & H4).
  rewrite H4. auto.
Qed.
Print Assumptions C19_buffer_frame.

(* The four sequence slots of the buffer object as they are in the source.  The bodies of mb_item,
   mb_slice, mb_ass_item and mb_ass_slice (src/c/minibuffer.h) are translated statement by statement
   into C19/Gen.v on every run (gen_mb_item, ..., language C19/Types.v, interpreter C19/MbSem.v: exec);
   each computes, for ALL memories, windows, indices / bounds (any Z: negative, beyond the size,
   left > right) and right-hand sides, exactly the function of C19/Model.v used by the history
   theorem above: the index test, the three clamps, the length test (skipped when src_view.len < 0),
   the exception classes, the address and count of the copy. *)
Theorem C19_gen_mb_item : forall mem off n idx,
  exec_item gen_mb_item mem off n idx = mb_item mem off n idx.
Proof. exact gen_mb_item_is_model. Qed.
Print Assumptions C19_gen_mb_item.

Theorem C19_gen_mb_slice : forall mem off n left right,
  exec_slice gen_mb_slice mem off n left right = Ok (mb_slice mem off n left right).
Proof. exact gen_mb_slice_is_model. Qed.
Print Assumptions C19_gen_mb_slice.

Theorem C19_gen_mb_ass_item : forall mem off n idx other,
  exec_ass_item gen_mb_ass_item mem off n idx other = mb_ass_item mem off n idx other.
Proof. exact gen_mb_ass_item_is_model. Qed.
Print Assumptions C19_gen_mb_ass_item.

Theorem C19_gen_mb_ass_slice : forall mem off n left right other,
  exec_ass_slice gen_mb_ass_slice mem off n left right other = mb_ass_slice mem off n left right other.
Proof. exact gen_mb_ass_slice_is_model. Qed.
Print Assumptions C19_gen_mb_ass_slice.

(* ... so the buffer object built from the REGENERATED bodies (run_g gen_progs: mb_subscript /
   mb_ass_subscript glue + CPython's slice protocol, calling the four translated bodies) refines the
   bytearray specification for every history: a source edit to a bound, a clamp, the length test, an
   exception class or the copy's address/count breaks this proof. *)
Theorem C19_gen_buffer_history : forall mem off n ops,
  0 <= off -> 0 <= n <= SSIZE_MAX -> off + n <= zlen mem ->
  exists w' outs, spec_run (window mem off n) ops = (w', outs) /\ zlen w' = n /\
                  run_g gen_progs off n mem ops = (splice mem off n w', outs).
Proof.
  intros. rewrite (run_g_is_run _ gen_bodies_ok). apply buffer_history; assumption.
Qed.
Print Assumptions C19_gen_buffer_history.

(* Right-hand sides that ALIAS the destination memory (another ffi.buffer / memoryview / cdata over the
   same allocation, `ffi.buffer(p, 8)[0:4] = ffi.buffer(p + 1, 4)`): in the theorems above a source is
   a value, i.e. its bytes are read before any byte is written (what Python's `w[a:b] = bytes(w[c:d])`
   means).  The copy primitive of mb_ass_slice is regenerated (copy_of gen_mb_ass_slice); it is memmove
   (a memcpy here is the finding ass_slice_memcpy_overlap), so for EVERY pair of ranges inside the
   memory, overlapping or not, the destination receives the OLD source bytes and nothing else changes
   (py_memmove, Spec.v; frame and length: C19_memmove).  The first two theorems hold for memmove
   only; memcpy is defined for disjoint ranges only (C11 7.24.2.1: undefined
   otherwise, modelled as OutOfModel = no claim): C19_alias_copy_defined.  The harness runs the
   overlapping stream on the real code natively and under AddressSanitizer. *)
Theorem C19_gen_ass_slice_copy_is_memmove : copy_of gen_mb_ass_slice = Some Memmove.
Proof. exact gen_ass_slice_copy_is_memmove. Qed.
Print Assumptions C19_gen_ass_slice_copy_is_memmove.

Theorem C19_gen_alias_copy_total : forall mem dest src n,
  0 <= dest -> 0 <= src -> 0 <= n -> src + n <= zlen mem -> dest + n <= zlen mem ->
  gen_copy_alias mem dest src n = Ok (py_memmove mem dest src n).
Proof.
  intros. unfold gen_copy_alias. rewrite gen_ass_slice_copy_is_memmove.
  apply copy_alias_memmove; assumption.
Qed.
Print Assumptions C19_gen_alias_copy_total.

Theorem C19_alias_copy_defined : forall f mem dest src n,
  0 <= dest -> 0 <= src -> 0 <= n -> src + n <= zlen mem -> dest + n <= zlen mem ->
  f = Memmove \/ disjoint dest src n = true ->
  copy_alias f mem dest src n = Ok (py_memmove mem dest src n).
Proof.
  intros f mem dest src n H0 H1 H2 H3 H4 Hf.
  destruct f; [destruct Hf as [Hf | Hd]; [discriminate | unfold copy_alias; rewrite Hd] | ];
    apply (copy_alias_memmove mem dest src n); assumption.
Qed.
Print Assumptions C19_alias_copy_defined.

Theorem C19_gen_ass_slice_has_copy : exists f, copy_of gen_mb_ass_slice = Some f.
Proof. eexists. reflexivity. Qed.
Print Assumptions C19_gen_ass_slice_has_copy.

Example C19_alias_memcpy_overlap_undefined :
  copy_alias Memcpy [1; 2; 3; 4; 5] 0 1 3 = Err OutOfModel /\
  copy_alias Memmove [1; 2; 3; 4; 5] 0 1 3 = Ok [2; 3; 4; 4; 5].
Proof. split; reflexivity. Qed.

(* CPython's PySlice_Unpack + PySlice_AdjustIndices compute slice.indices() for step 1 / None, for
   arbitrary Python ints (also beyond Py_ssize_t) *)
Theorem C19_slice_bounds : forall n a b s, 0 <= n <= SSIZE_MAX -> step_ok s = Ok tt ->
  exists a' b', slice_unpack a b s = Ok (a', b', 1) /\
    adjust n a' b' 1 = (py_bound n a 0, py_bound n b n).
Proof. exact unpack_adjust_step1. Qed.
Print Assumptions C19_slice_bounds.

(* ffi.from_buffer("T[]", obj): len(obj) // sizeof(T) items; "T[k]": ValueError when too small.
   The two boolean arguments of from_buffer_length are is_unicode (obj is a str: refused) and
   has_buffer (obj exports a contiguous buffer); the theorems fix them to false / true = a bytes-like
   object.  That the resulting cdata ALIASES obj's memory (same address, writes visible both ways)
   is not a statement about this model; it is checked on the real objects by the harness only. *)
Theorem C19_from_buffer_open_array : forall isz buflen, 0 < isz -> 0 <= buflen ->
  from_buffer_length (FOpenArray isz) false true buflen = Ok (buflen / isz).
Proof. exact from_buffer_open_array. Qed.
Print Assumptions C19_from_buffer_open_array.

(* The open-array branch as it is in the source: its fast-path test is regenerated from
   direct_from_buffer into C19/Gen.v on every run.  Obligation: over the finite list Model.all_items
   (all primitive kinds the backend can build incl. wchar_t/char16_t/char32_t, _Bool, enums, floats,
   long double, complex, pointers; structs/unions/arrays of the 14 sizes 0..8, 12, 16, 24, 32, 64) the
   fast path is taken only when the item size is 1 — so for each item type of that list the code gives
   len(obj) // sizeof(T) items (ZeroDivisionError for size 0) and agrees with the size-only model
   above.  An aggregate of a size outside the list is not examined: a test `ct_size == 9` would pass. *)
Theorem C19_from_buffer_fast_path_only_size1 : fast_only_size1 gen_from_buffer_fast = true.
Proof. exact gen_fast_only_size1. Qed.
Print Assumptions C19_from_buffer_fast_path_only_size1.

Theorem C19_from_buffer_code_is_len_div_size : forall c it buflen,
  fast_only_size1 c = true -> In it all_items -> 0 <= buflen ->
  from_buffer_open_code c it buflen =
  if 0 <? it_size it then Ok (buflen / it_size it) else Err ZeroDivisionError.
Proof. exact from_buffer_code_is_len_div_size. Qed.
Print Assumptions C19_from_buffer_code_is_len_div_size.

Theorem C19_from_buffer_code_matches_model : forall it buflen,
  In it all_items -> 0 < it_size it -> 0 <= buflen ->
  from_buffer_open_code gen_from_buffer_fast it buflen
  = from_buffer_length (FOpenArray (it_size it)) false true buflen.
Proof.
  intros it buflen Hin Hs Hb.
  rewrite (from_buffer_code_is_len_div_size _ _ _ gen_fast_only_size1 Hin Hb), from_buffer_open_array by assumption.
  destruct (Z.ltb_spec 0 (it_size it)); [reflexivity|lia].
Qed.
Print Assumptions C19_from_buffer_code_matches_model.

(* testing the character flag instead would give char32_t[] four times too many items *)
Theorem C19_char_flag_fast_path_refuted : fast_only_size1 (CAtom (AFlag F_CHAR)) = false /\
  from_buffer_open_code (CAtom (AFlag F_CHAR)) (mk_item 4 [F_CHAR]) 16 = Ok 16.
Proof. split; vm_compute; reflexivity. Qed.
Print Assumptions C19_char_flag_fast_path_refuted.

Theorem C19_from_buffer_fixed_array : forall len isz buflen,
  from_buffer_length (FFixedArray len isz) false true buflen =
  if buflen <? len * isz then Err ValueError else Ok len.
Proof. reflexivity. Qed.
Print Assumptions C19_from_buffer_fixed_array.

(* cdata on the right-hand side of a buffer slice assignment (and as memmove operand) goes through
   _fetch_as_buffer, whose computation of view->len is regenerated from the source into C19/Gen.v.
   Obligation (decidable check lenexpr_ok, proved sound for every source): an ARRAY cdata is presented
   with its real byte length get_array_length * itemsize whether its type is a fixed T[n] or an open
   T[] (cdata slices, ffi.new('T[]', n), ffi.from_buffer('T[]', obj)); a POINTER with -1 = unknown. *)
Theorem C19_fetch_len_generated_ok : lenexpr_ok gen_fetch_len = true.
Proof. vm_compute. reflexivity. Qed.
Print Assumptions C19_fetch_len_generated_ok.

Theorem C19_fetch_len_is_real_length : forall e sd, lenexpr_ok e = true -> wf_sd sd ->
  src_len e sd = if sd_is_array sd then sd_length sd * sd_isz sd else -1.
Proof. exact fetch_len_is_real_length. Qed.
Print Assumptions C19_fetch_len_is_real_length.

(* so in the history theorem an array cdata source is the buffer VBuf of its real contents (length
   checked against the slice) and a pointer source is VPtrSrc (slice length trusted) *)
Theorem C19_cdata_source : forall e sd bs, lenexpr_ok e = true -> wf_sd sd ->
  (sd_is_array sd = true -> zlen bs = sd_length sd * sd_isz sd) ->
  cdata_source e sd bs = Some (if sd_is_array sd then VBuf bs else VPtrSrc bs).
Proof.
  intros e sd bs Hok Hwf Hb. unfold cdata_source. rewrite (fetch_len_is_real_length e sd Hok Hwf).
  pose proof Hwf as [Hs [Hl _]].
  destruct (sd_is_array sd).
  - rewrite <- (Hb eq_refl). pose proof (zlen_nonneg bs).
    destruct (Z.ltb_spec (zlen bs) 0); [lia|]. rewrite Z.eqb_refl. reflexivity.
  - reflexivity.
Qed.
Print Assumptions C19_cdata_source.

Theorem C19_ct_size_length_refuted :
  lenexpr_ok (LIf SIsArray LCtSize LUnknown) = false /\
  src_len (LIf SIsArray LCtSize LUnknown) (mk_sd true (-1) 6 1) = -1.
Proof. split; vm_compute; reflexivity. Qed.
Print Assumptions C19_ct_size_length_refuted.

(* ffi.memmove(dst, src, n): dest and src are offsets into ONE flat memory (operands in different
   objects are the non-overlapping special case); which kinds of operands (cdata pointers, array
   views, memoryviews, bytes) reach the same memmove call is covered by the harness.  Any overlap: the n destination bytes become the OLD n
   source bytes, everything else is unchanged *)
Theorem C19_memmove : forall mem dest src n,
  0 <= dest -> 0 <= src -> 0 <= n -> src + n <= zlen mem -> dest + n <= zlen mem ->
  memmove mem dest src n = Ok (py_memmove mem dest src n) /\
  zlen (py_memmove mem dest src n) = zlen mem /\
  window (py_memmove mem dest src n) dest n = window mem src n /\
  zfirstn dest (py_memmove mem dest src n) = zfirstn dest mem /\
  zskipn (dest + n) (py_memmove mem dest src n) = zskipn (dest + n) mem.
Proof. exact memmove_is_copy_through_temporary. Qed.
Print Assumptions C19_memmove.

(* a forward byte-by-byte copy would not do *)
Theorem C19_forward_copy_refuted : exists mem dest src n,
  Ok (forward_copy mem dest src (Z.to_nat n)) <> memmove mem dest src n.
Proof. exists [1; 2; 3; 4; 5], 1, 0, 3. vm_compute. discriminate. Qed.
Print Assumptions C19_forward_copy_refuted.

(* ffi.buffer(p, n): the window has exactly n bytes; ffi.buffer(array): len * itemsize *)
Theorem C19_buffer_size_explicit : forall k isz vs n, k <> CNeither -> 0 <= n ->
  buffer_size k isz vs (Some n) = Ok n.
Proof.
  intros k isz vs n Hk Hn. apply Z.ltb_ge in Hn. unfold buffer_size.
  destruct k; [ | | contradiction]; cbn zeta; rewrite !Hn; cbn iota; rewrite ?Hn; reflexivity.
Qed.
Print Assumptions C19_buffer_size_explicit.

Theorem C19_buffer_size_default_array : forall len isz, 0 <= len -> 0 <= isz ->
  buffer_size (CArray len) isz (-1) None = Ok (len * isz).
Proof.
  intros len isz Hl Hs. unfold buffer_size. cbn. destruct (Z.ltb_spec (len * isz) 0); [nia|reflexivity].
Qed.
Print Assumptions C19_buffer_size_default_array.

(* non-vacuity: a 4-byte window at offset 2 of a 8-byte memory *)
Example C19_example :
  let mem := [10; 11; 12; 13; 14; 15; 16; 17] in
  run 2 4 mem [OGet (KInt (-1)); OGet (KSlice (Some (-3)) None None); OSet (KSlice (Some 1) (Some 3) None) (Some (VBuf [1; 2]));
               OSet (KSlice (Some 1) (Some 3) None) (Some (VBytes [1])); OGet (KSlice None None (Some 2));
               OSet (KInt 4) (Some (VBytes [9])); OSet (KInt (-4)) (Some (VBytes [9])); OGet (KSlice (Some 3) (Some 1) None);
               OSet (KSlice (Some 3) (Some 1) None) (Some (VBytes [])); OGet (KSlice None None (Some 0))]
  = ([10; 11; 9; 1; 2; 15; 16; 17],
     [RBytes [15]; RBytes [13; 14; 15]; RDone; RErr ValueError; RErr TypeError; RErr IndexError; RDone; RBytes [];
      RDone; RErr ValueError]).
Proof. vm_compute. reflexivity. Qed.
