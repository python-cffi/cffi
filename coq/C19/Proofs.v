(* C19 — proofs: the minibuffer model refines the bytearray specification on its window and
   changes nothing outside it; the size rule of from_buffer and the length _fetch_as_buffer reports, on
   their regenerated parts; memmove. *)
From Coq Require Import ZArith List Bool Lia.
Import ListNotations.
From Cffi Require Import Base.ListFacts C19.Types C19.Gen C19.Model C19.Spec.
Open Scope Z_scope.

(* Base.ListFacts at list Z, the two with the lists as first arguments *)
Lemma firstn_app_le : forall (X C : list Z) k, (k <= length X)%nat -> firstn k (X ++ C) = firstn k X.
Proof. intros X C k. apply ListFacts.firstn_app_le. Qed.

Lemma skipn_app_le : forall (X C : list Z) k, (k <= length X)%nat -> skipn k (X ++ C) = skipn k X ++ C.
Proof. intros X C k. apply ListFacts.skipn_app_le. Qed.

Lemma firstn_len_app : forall (A X : list Z), firstn (length A) (A ++ X) = A.
Proof. exact firstn_length_app. Qed.

Lemma skipn_len_app : forall (A X : list Z), skipn (length A) (A ++ X) = X.
Proof. exact skipn_length_app. Qed.

Lemma skipn_app_len : forall (A X : list Z) j, skipn (length A + j) (A ++ X) = skipn j X.
Proof. intros A X j. rewrite skipn_add. f_equal. apply skipn_length_app. Qed.

Lemma zlen_nonneg : forall l, 0 <= zlen l.
Proof. intros. unfold zlen. lia. Qed.

Lemma zlen_app : forall a b, zlen (a ++ b) = zlen a + zlen b.
Proof. intros. unfold zlen. rewrite app_length. lia. Qed.

Lemma zlen_zfirstn : forall k l, 0 <= k <= zlen l -> zlen (zfirstn k l) = k.
Proof. intros k l H. unfold zfirstn, zlen in *. rewrite firstn_length. lia. Qed.

Lemma zlen_zskipn : forall k l, 0 <= k <= zlen l -> zlen (zskipn k l) = zlen l - k.
Proof. intros k l H. unfold zskipn, zlen in *. rewrite skipn_length. lia. Qed.

Lemma read_mid : forall A W C p k, 0 <= p -> 0 <= k -> p + k <= zlen W ->
  read (A ++ W ++ C) (zlen A + p) k = zfirstn k (zskipn p W).
Proof.
  intros A W C p k Hp Hk H. unfold read, zfirstn, zskipn, zlen in *.
  rewrite Z2Nat.inj_add, Nat2Z.id by lia. rewrite skipn_app_len.
  rewrite skipn_app_le by lia. apply firstn_app_le. rewrite skipn_length. lia.
Qed.

Lemma write_mid : forall A W C p bs, 0 <= p -> p + zlen bs <= zlen W ->
  write (A ++ W ++ C) (zlen A + p) bs = A ++ (zfirstn p W ++ bs ++ zskipn (p + zlen bs) W) ++ C.
Proof.
  intros A W C p bs Hp H. unfold write, zfirstn, zskipn, zlen in *.
  rewrite Z2Nat.inj_add, Nat2Z.id by lia.
  rewrite firstn_app_2. rewrite firstn_app_le by lia.
  rewrite <- Nat.add_assoc. rewrite skipn_app_len. rewrite skipn_app_le by lia.
  rewrite Z2Nat.inj_add, Nat2Z.id by lia.
  rewrite <- !app_assoc. reflexivity.
Qed.

Lemma zlen_write_mid : forall W p bs, 0 <= p -> p + zlen bs <= zlen W ->
  zlen (zfirstn p W ++ bs ++ zskipn (p + zlen bs) W) = zlen W.
Proof.
  intros W p bs Hp H. pose proof (zlen_nonneg bs).
  rewrite !zlen_app, zlen_zfirstn, zlen_zskipn by lia. lia.
Qed.

Lemma firstn_skipn_id : forall p (W : list Z), zfirstn p W ++ zskipn p W = W.
Proof. intros. apply firstn_skipn. Qed.

Lemma zfirstn_parts : forall A X, zfirstn (zlen A) (A ++ X) = A.
Proof. intros. unfold zfirstn, zlen. rewrite Nat2Z.id. apply firstn_length_app. Qed.

Lemma zskipn_parts : forall A W X, zskipn (zlen A + zlen W) (A ++ W ++ X) = X.
Proof.
  intros. unfold zskipn, zlen. rewrite <- Nat2Z.inj_add, Nat2Z.id, <- app_length, app_assoc.
  apply skipn_length_app.
Qed.

Lemma window_of_parts : forall A W C, window (A ++ W ++ C) (zlen A) (zlen W) = W.
Proof.
  intros. unfold window, zskipn. unfold zlen at 2. rewrite Nat2Z.id, skipn_length_app.
  apply zfirstn_parts.
Qed.

Lemma splice_of_parts : forall A W C w', splice (A ++ W ++ C) (zlen A) (zlen W) w' = A ++ w' ++ C.
Proof. intros. unfold splice. rewrite zfirstn_parts, zskipn_parts. reflexivity. Qed.

Lemma decompose : forall mem off n, 0 <= off -> 0 <= n -> off + n <= zlen mem ->
  mem = zfirstn off mem ++ window mem off n ++ zskipn (off + n) mem /\
  zlen (zfirstn off mem) = off /\ zlen (window mem off n) = n.
Proof.
  intros mem off n Ho Hn H. split; [|split].
  - unfold window, zfirstn, zskipn. rewrite Z2Nat.inj_add, skipn_add by lia. rewrite !firstn_skipn. reflexivity.
  - apply zlen_zfirstn. lia.
  - apply zlen_zfirstn. rewrite zlen_zskipn; lia.
Qed.

(* all that is used of the two ends of Py_ssize_t; they stay folded, so that no proof carries 2^63 *)
Lemma ssize_ends : SSIZE_MIN + SSIZE_MAX = -1 /\ 1 < SSIZE_MAX.
Proof. split; reflexivity. Qed.

Lemma clamp_cases : forall v,
  v < SSIZE_MIN /\ clamp v = SSIZE_MIN \/ SSIZE_MIN <= v <= SSIZE_MAX /\ clamp v = v \/
  SSIZE_MAX < v /\ clamp v = SSIZE_MAX.
Proof.
  intros v. pose proof ssize_ends. unfold clamp.
  destruct (Z_lt_le_dec v SSIZE_MIN); [ | destruct (Z_le_gt_dec v SSIZE_MAX)].
  - left. rewrite Z.min_l, Z.max_l by lia. split; [assumption | reflexivity].
  - right. left. rewrite Z.min_l, Z.max_r by lia. split; [split; assumption | reflexivity].
  - right. right. rewrite Z.min_r, Z.max_r by lia. split; [lia | reflexivity].
Qed.

Lemma clamp_ne : forall s c, SSIZE_MIN < c < SSIZE_MAX -> s <> c -> clamp s <> c.
Proof. intros s c Hc Hs. destruct (clamp_cases s) as [[? ->] | [[? ->] | [? ->]]]; lia. Qed.

Lemma py_bound_range : forall n x d, 0 <= n -> 0 <= d <= n -> 0 <= py_bound n x d <= n.
Proof.
  intros n x d Hn Hd. unfold py_bound. destruct x as [v|]; [|lia].
  destruct (Z.ltb_spec v 0); lia.
Qed.

Lemma py_bounds_range : forall W a b,
  0 <= py_bound (zlen W) a 0 <= zlen W /\ 0 <= py_bound (zlen W) b (zlen W) <= zlen W.
Proof.
  intros W a b. pose proof (zlen_nonneg W) as Hp.
  exact (conj (py_bound_range _ a 0 Hp (conj (Z.le_refl 0) Hp)) (py_bound_range _ b _ Hp (conj Hp (Z.le_refl _)))).
Qed.

(* PySlice_AdjustIndices with step 1 is slice.indices on any Z, clamped or not *)
Lemma adjust1_py : forall n v, 0 <= n -> adjust1 n v 1 = py_bound n (Some v) 0.
Proof.
  intros n v Hn. unfold adjust1, py_bound. change (1 <? 0) with false. cbn iota.
  destruct (Z.ltb_spec v 0).
  - destruct (Z.ltb_spec (v + n) 0); lia.
  - destruct (Z.leb_spec n v); lia.
Qed.

Lemma py_bound_clamp : forall n v, 0 <= n <= SSIZE_MAX -> py_bound n (Some (clamp v)) 0 = py_bound n (Some v) 0.
Proof.
  intros n v Hn. pose proof ssize_ends. unfold py_bound.
  destruct (clamp_cases v) as [[Hv ->] | [[Hv ->] | [Hv ->]]]; [ | reflexivity | ].
  - destruct (Z.ltb_spec SSIZE_MIN 0); [ | lia]. destruct (Z.ltb_spec v 0); [ | lia].
    rewrite !Z.max_l by lia. reflexivity.
  - destruct (Z.ltb_spec SSIZE_MAX 0); [lia | ]. destruct (Z.ltb_spec v 0); [lia | ].
    rewrite !Z.min_r by lia. reflexivity.
Qed.

Lemma adjust1_bound : forall n v, 0 <= n <= SSIZE_MAX ->
  adjust1 n (clamp v) 1 = py_bound n (Some v) 0.
Proof. intros n v Hn. rewrite adjust1_py by lia. apply py_bound_clamp, Hn. Qed.

Lemma adjust1_range : forall n v, 0 <= n -> 0 <= adjust1 n v 1 <= n.
Proof. intros n v Hn. rewrite adjust1_py by assumption. apply py_bound_range; lia. Qed.

Lemma adjust1_none_start : forall n, 0 <= n -> adjust1 n 0 1 = 0.
Proof. intros n Hn. rewrite adjust1_py by assumption. cbn. lia. Qed.

Lemma adjust1_none_stop : forall n, 0 <= n <= SSIZE_MAX -> adjust1 n SSIZE_MAX 1 = n.
Proof. intros n Hn. rewrite adjust1_py by lia. unfold py_bound. destruct (Z.ltb_spec SSIZE_MAX 0); lia. Qed.

(* PySlice_Unpack + PySlice_AdjustIndices agree with slice.indices for step 1 / None *)
Lemma unpack_adjust_step1 : forall n a b s, 0 <= n <= SSIZE_MAX -> step_ok s = Ok tt ->
  exists a' b', slice_unpack a b s = Ok (a', b', 1) /\
    adjust n a' b' 1 = (py_bound n a 0, py_bound n b n).
Proof.
  intros n a b s Hn Hs.
  assert (slice_unpack a b s =
          Ok (match a with None => 0 | Some v => clamp v end,
              match b with None => SSIZE_MAX | Some v => clamp v end, 1)) as Hu.
  { destruct s as [s|]; [|reflexivity]. unfold step_ok in Hs.
    destruct (Z.eqb_spec s 0); [discriminate|]. destruct (Z.eqb_spec s 1) as [->|]; [reflexivity|discriminate]. }
  do 2 eexists. split; [exact Hu|]. unfold adjust. f_equal.
  - destruct a as [v|]; [exact (adjust1_bound n v Hn) | apply adjust1_none_start; lia].
  - destruct b as [v|]; [exact (adjust1_bound n v Hn) | exact (adjust1_none_stop n Hn)].
Qed.

(* a refused step is refused by the model with the same exception, whatever the bounds *)
Lemma unpack_step_refused : forall a b s e, step_ok s = Err e ->
  (slice_unpack a b s = Err e /\ e = ValueError) \/
  (e = TypeError /\ exists a' b' s', slice_unpack a b s = Ok (a', b', s') /\ (s' =? 1) = false).
Proof.
  intros a b s e H. destruct s as [s|]; [|discriminate]. unfold step_ok in H.
  destruct (Z.eqb_spec s 0) as [->|H0].
  - inversion H; subst. left. split; reflexivity.
  - destruct (Z.eqb_spec s 1) as [->|H1]; [discriminate|]. inversion H; subst. right. split; [reflexivity|].
    pose proof ssize_ends. pose proof (clamp_ne s 0 ltac:(lia) H0). pose proof (clamp_ne s 1 ltac:(lia) H1).
    unfold slice_unpack. destruct (Z.eqb_spec (clamp s) 0); [contradiction|].
    do 3 eexists. split; [reflexivity|]. apply Z.eqb_neq. lia.
Qed.

(* mb_subscript and mb_ass_subscript (and their twins over the regenerated bodies, MbSem.v) are one
   piece of glue around an item slot and a slice slot *)
Definition subscript {R : Type} (n : Z) (item : Z -> res R) (slice : Z -> Z -> res R) (k : key) : res R :=
  match k with
  | KInt i => if negb (ssize_ok i) then Err IndexError else item (if i <? 0 then i + n else i)
  | KSlice a b s =>
      match slice_unpack a b s with
      | Err e => Err e
      | Ok (a', b', s') => if s' =? 1 then slice (adjust1 n a' s') (adjust1 n b' s') else Err TypeError
      end
  | KOther => Err TypeError
  end.

Lemma mb_subscript_glue : forall mem off n k,
  mb_subscript mem off n k = subscript n (mb_item mem off n) (fun l r => Ok (mb_slice mem off n l r)) k.
Proof. reflexivity. Qed.

Lemma mb_ass_subscript_glue : forall mem off n k v,
  mb_ass_subscript mem off n k (Some v)
  = subscript n (fun j => mb_ass_item mem off n j v) (fun l r => mb_ass_slice mem off n l r v) k.
Proof. reflexivity. Qed.

Lemma subscript_ext : forall R n (item item' : Z -> res R) slice slice' k,
  (forall j, item j = item' j) -> (forall l r, slice l r = slice' l r) ->
  subscript n item slice k = subscript n item' slice' k.
Proof.
  intros R n item item' slice slice' k Hi Hs. destruct k as [i | a b s | ]; unfold subscript.
  - rewrite Hi. reflexivity.
  - destruct (slice_unpack a b s) as [[[a' b'] s'] | e]; [rewrite Hs | ]; reflexivity.
  - reflexivity.
Qed.

Lemma py_index_model : forall W i, zlen W <= SSIZE_MAX ->
  match py_index W i with
  | Some j => ssize_ok i = true /\ j = (if i <? 0 then i + zlen W else i) /\ 0 <= j < zlen W
  | None => ssize_ok i = false \/
            (let j := if i <? 0 then i + zlen W else i in ((j <? 0) || (zlen W <=? j)) = true)
  end.
Proof.
  intros W i Hn. unfold py_index. pose proof (zlen_nonneg W) as Hp.
  destruct (Z.leb_spec (- zlen W) i); destruct (Z.ltb_spec i (zlen W)); cbn [andb].
  - split; [pose proof ssize_ends; apply andb_true_intro; split; apply Z.leb_le; lia|].
    split; [reflexivity|]. destruct (Z.ltb_spec i 0); lia.
  - right. cbn zeta. destruct (Z.ltb_spec i 0); [lia|].
    apply orb_true_intro. right. apply Z.leb_le. lia.
  - right. cbn zeta. destruct (Z.ltb_spec i 0); [|lia].
    apply orb_true_intro. left. apply Z.ltb_lt. lia.
  - lia.
Qed.

(* the protocol in Python's terms, for slots that refuse an index outside [0, n) as mb_item and
   mb_ass_item do: w[i] and w[a:b:s] with s in {None, 1} reach the slots with the bounds of Spec.v *)
Lemma subscript_py : forall R W (item : Z -> res R) slice k, zlen W <= SSIZE_MAX ->
  (forall j, (j <? 0) || (zlen W <=? j) = true -> item j = Err IndexError) ->
  subscript (zlen W) item slice k =
  match k with
  | KInt i => match py_index W i with Some j => item j | None => Err IndexError end
  | KSlice a b s =>
      match step_ok s with
      | Ok _ => slice (py_bound (zlen W) a 0) (py_bound (zlen W) b (zlen W))
      | Err e => Err e
      end
  | KOther => Err TypeError
  end.
Proof.
  intros R W item slice k Hn Hitem. pose proof (zlen_nonneg W) as Hp.
  destruct k as [i | a b s | ]; unfold subscript; [ | | reflexivity].
  - pose proof (py_index_model W i Hn) as H. destruct (py_index W i) as [j | ].
    + destruct H as (-> & -> & _). reflexivity.
    + destruct H as [-> | H]; [reflexivity | ]. destruct (ssize_ok i); [apply Hitem, H | reflexivity].
  - destruct (step_ok s) as [[] | e] eqn:Es.
    + destruct (unpack_adjust_step1 (zlen W) a b s ltac:(lia) Es) as (a' & b' & -> & Ha).
      injection Ha as -> ->. reflexivity.
    + destruct (unpack_step_refused a b s e Es) as [[-> _] | (-> & a' & b' & s' & -> & ->)]; reflexivity.
Qed.

(* each slot of a buffer over the middle part W of A ++ W ++ C, called as the protocol calls it, is the
   bytearray operation of Spec.v on W *)
Lemma mb_item_window : forall A W C j, 0 <= j < zlen W ->
  mb_item (A ++ W ++ C) (zlen A) (zlen W) j = Ok (znth W j).
Proof.
  intros A W C j Hj. unfold mb_item.
  destruct (Z.ltb_spec j 0); [lia | ]. destruct (Z.leb_spec (zlen W) j); [lia | ].
  cbn [orb]. rewrite read_mid by lia. reflexivity.
Qed.

Lemma mb_ass_item_window : forall A W C j v, 0 <= j < zlen W ->
  mb_ass_item (A ++ W ++ C) (zlen A) (zlen W) j v =
  match v with
  | VBytes [b] => Ok (A ++ (zfirstn j W ++ [b] ++ zskipn (j + 1) W) ++ C)
  | _ => Err TypeError
  end.
Proof.
  intros A W C j v Hj. unfold mb_ass_item.
  destruct (Z.ltb_spec j 0); [lia | ]. destruct (Z.leb_spec (zlen W) j); [lia | ].
  cbn [orb]. destruct v as [[ | b [ | b' r]] | bs | bs | ]; try reflexivity.
  rewrite write_mid by (change (zlen [b]) with 1; lia). reflexivity.
Qed.

Lemma mb_slice_window : forall A W C a b,
  mb_slice (A ++ W ++ C) (zlen A) (zlen W) (py_bound (zlen W) a 0) (py_bound (zlen W) b (zlen W))
  = py_getslice W a b.
Proof.
  intros A W C a b. unfold mb_slice, py_getslice. pose proof (py_bounds_range W a b) as [Hlo Hhi].
  set (lo := py_bound (zlen W) a 0) in *. set (hi := py_bound (zlen W) b (zlen W)) in *.
  destruct (Z.ltb_spec lo 0); [lia | ]. destruct (Z.ltb_spec (zlen W) hi); [lia | ].
  destruct (Z.ltb_spec hi lo); rewrite read_mid by lia; [ | reflexivity].
  (* an empty slice: nothing is read, wherever *)
  unfold zfirstn. replace (Z.to_nat (hi - hi)) with 0%nat by lia.
  replace (Z.to_nat (hi - lo)) with 0%nat by lia. reflexivity.
Qed.

(* the copy of mb_ass_slice: bs at the clamped left bound, when bs has the clamped length *)
Lemma write_clamped : forall A W C lo hi bs, 0 <= lo <= zlen W -> 0 <= hi <= zlen W ->
  zlen bs = Z.max lo hi - lo ->
  write (A ++ W ++ C) (zlen A + (if hi <? lo then hi else lo)) bs
  = A ++ (zfirstn lo W ++ bs ++ zskipn (Z.max lo hi) W) ++ C.
Proof.
  intros A W C lo hi bs Hlo Hhi Hbs. destruct (Z.ltb_spec hi lo).
  - (* an empty slice: nothing is written, wherever *)
    rewrite Z.max_l in Hbs |- * by lia. destruct bs; [ | unfold zlen in Hbs; cbn [length] in Hbs; lia].
    rewrite write_mid by (change (zlen []) with 0; lia). change (zlen []) with 0.
    rewrite Z.add_0_r. cbn [app]. rewrite !firstn_skipn_id. reflexivity.
  - rewrite Z.max_r in Hbs |- * by lia. rewrite write_mid by lia.
    replace (lo + zlen bs) with hi by lia. reflexivity.
Qed.

Lemma clamped_count : forall lo hi, hi - (if hi <? lo then hi else lo) = Z.max lo hi - lo.
Proof. intros. destruct (Z.ltb_spec hi lo); lia. Qed.

Lemma mb_ass_slice_window : forall A W C a b v,
  mb_ass_slice (A ++ W ++ C) (zlen A) (zlen W) (py_bound (zlen W) a 0) (py_bound (zlen W) b (zlen W)) v =
  match v with
  | VOther => Err TypeError
  | VBytes bs | VBuf bs =>
      match py_setslice W a b bs with Some w' => Ok (A ++ w' ++ C) | None => Err ValueError end
  | VPtrSrc bs =>
      match py_setslice_ptr W a b bs with Some w' => Ok (A ++ w' ++ C) | None => Err OutOfModel end
  end.
Proof.
  intros A W C a b v. unfold mb_ass_slice, py_setslice, py_setslice_ptr.
  pose proof (py_bounds_range W a b) as [Hlo Hhi].
  set (lo := py_bound (zlen W) a 0) in *. set (hi := py_bound (zlen W) b (zlen W)) in *. cbn zeta.
  destruct (Z.ltb_spec lo 0); [lia | ]. destruct (Z.ltb_spec (zlen W) hi); [lia | ].
  rewrite clamped_count.
  destruct v as [bs | bs | bs | ]; [ | | | reflexivity].
  1, 2: rewrite Z.eqb_sym; destruct (Z.eqb_spec (zlen bs) (Z.max lo hi - lo)); cbn [negb];
        [rewrite write_clamped by assumption | ]; reflexivity.
  destruct (Z.ltb_spec (zlen bs) (Z.max lo hi - lo)); [reflexivity | ].
  rewrite write_clamped; [reflexivity | assumption | assumption | apply zlen_zfirstn; lia].
Qed.

(* the counterpart of write_clamped for the results of Spec.v *)
Lemma zlen_clamped : forall W lo hi bs, 0 <= lo <= zlen W -> 0 <= hi <= zlen W ->
  zlen bs = Z.max lo hi - lo -> zlen (zfirstn lo W ++ bs ++ zskipn (Z.max lo hi) W) = zlen W.
Proof.
  intros W lo hi bs Hlo Hhi E. replace (Z.max lo hi) with (lo + zlen bs) by lia. apply zlen_write_mid; lia.
Qed.

Lemma py_setslice_len : forall W a b bs w', py_setslice W a b bs = Some w' -> zlen w' = zlen W.
Proof.
  intros W a b bs w'. unfold py_setslice. pose proof (py_bounds_range W a b) as [Hlo Hhi].
  set (lo := py_bound (zlen W) a 0) in *. set (hi := py_bound (zlen W) b (zlen W)) in *. cbn zeta.
  destruct (Z.eqb_spec (zlen bs) (Z.max lo hi - lo)) as [E | ]; [ | discriminate].
  intros [= <-]. apply zlen_clamped; assumption.
Qed.

Lemma py_setslice_ptr_len : forall W a b bs w', py_setslice_ptr W a b bs = Some w' -> zlen w' = zlen W.
Proof.
  intros W a b bs w'. unfold py_setslice_ptr. pose proof (py_bounds_range W a b) as [Hlo Hhi].
  set (lo := py_bound (zlen W) a 0) in *. set (hi := py_bound (zlen W) b (zlen W)) in *. cbn zeta.
  destruct (Z.ltb_spec (zlen bs) (Z.max lo hi - lo)); [discriminate | ].
  intros [= <-]. apply zlen_clamped; [assumption | assumption | apply zlen_zfirstn; lia].
Qed.

Lemma step_refines : forall A W C o, zlen W <= SSIZE_MAX ->
  exists w' out, spec_step W o = (w', out) /\ zlen w' = zlen W /\
                 step (zlen A) (zlen W) (A ++ W ++ C) o = (A ++ w' ++ C, out).
Proof.
  intros A W C o Hn. destruct o as [k | k [v | ] | ]; cbn [step].
  - rewrite mb_subscript_glue, (subscript_py _ W) by (assumption || (unfold mb_item; intros j ->; reflexivity)).
    destruct k as [i | a b s | ]; cbn [spec_step].
    + pose proof (py_index_model W i Hn) as Hj. destruct (py_index W i) as [j | ]; [ | do 2 eexists; repeat split].
      rewrite mb_item_window by apply Hj. do 2 eexists. repeat split.
    + destruct (step_ok s) as [[] | e]; [rewrite mb_slice_window | ]; do 2 eexists; repeat split.
    + do 2 eexists. repeat split.
  - rewrite mb_ass_subscript_glue, (subscript_py _ W)
      by (assumption || (unfold mb_ass_item; intros j ->; reflexivity)).
    destruct k as [i | a b s | ]; cbn [spec_step].
    + pose proof (py_index_model W i Hn) as Hj. destruct (py_index W i) as [j | ]; [ | do 2 eexists; repeat split].
      destruct Hj as (_ & _ & Hj). rewrite mb_ass_item_window by exact Hj.
      destruct v as [[ | b0 [ | b1 r]] | bs | bs | ]; do 2 eexists; repeat split.
      apply (zlen_write_mid W j [b0]); change (zlen [b0]) with 1; lia.
    + destruct (step_ok s) as [[] | e]; [rewrite mb_ass_slice_window | do 2 eexists; repeat split].
      destruct v as [bs | bs | bs | ].
      1, 2: destruct (py_setslice W a b bs) as [w' | ] eqn:E; do 2 eexists; repeat split;
            exact (py_setslice_len W a b bs w' E).
      * destruct (py_setslice_ptr W a b bs) as [w' | ] eqn:E; do 2 eexists; repeat split.
        exact (py_setslice_ptr_len W a b bs w' E).
      * do 2 eexists. repeat split.
    + do 2 eexists. repeat split.
  - destruct k; do 2 eexists; repeat split.
  - do 2 eexists. repeat split.
Qed.

Lemma run_refines : forall ops A W C, zlen W <= SSIZE_MAX ->
  exists w' outs, spec_run W ops = (w', outs) /\ zlen w' = zlen W /\
                  run (zlen A) (zlen W) (A ++ W ++ C) ops = (A ++ w' ++ C, outs).
Proof.
  induction ops as [|o r IH]; intros A W C Hn.
  - exists W, []. repeat split.
  - destruct (step_refines A W C o Hn) as [w1 [out [Hs [Hl Hm]]]].
    destruct (IH A w1 C ltac:(lia)) as [w2 [outs [Hs2 [Hl2 Hm2]]]].
    rewrite Hl in Hm2.
    exists w2, (out :: outs). cbn [spec_run run]. rewrite Hs, Hs2, Hm, Hm2.
    split; [reflexivity|]. split; [lia|reflexivity].
Qed.

Lemma splice_frame : forall mem off n w, 0 <= off -> 0 <= n -> off + n <= zlen mem -> zlen w = n ->
  zfirstn off (splice mem off n w) = zfirstn off mem /\
  zskipn (off + n) (splice mem off n w) = zskipn (off + n) mem /\
  zlen (splice mem off n w) = zlen mem /\
  window (splice mem off n w) off n = w.
Proof.
  intros mem off n w Ho Hn H Hw.
  destruct (decompose mem off n Ho Hn H) as (Hd & HA & HW). unfold splice.
  set (A := zfirstn off mem) in *. set (C := zskipn (off + n) mem) in *. clearbody A C. subst off n.
  split; [apply zfirstn_parts|]. split; [apply zskipn_parts|]. split; [|apply window_of_parts].
  rewrite Hd, !zlen_app, HW. reflexivity.
Qed.

(* main theorem: any history through a buffer over [off, off+n) of a memory behaves as the same
   history on a bytearray holding the window, and rewrites the memory only inside the window *)
Theorem buffer_history : forall mem off n ops,
  0 <= off -> 0 <= n <= SSIZE_MAX -> off + n <= zlen mem ->
  exists w' outs, spec_run (window mem off n) ops = (w', outs) /\ zlen w' = n /\
                  run off n mem ops = (splice mem off n w', outs).
Proof.
  intros mem off n ops Ho Hn H.
  destruct (decompose mem off n Ho ltac:(lia) H) as (Hd & HA & HW).
  destruct (run_refines ops (zfirstn off mem) (window mem off n) (zskipn (off + n) mem) ltac:(lia))
    as (w' & outs & Hs & Hl & Hr).
  rewrite <- Hd, HA, HW in Hr. exists w', outs. split; [exact Hs|]. split; [lia|].
  rewrite Hr. unfold splice. reflexivity.
Qed.

Theorem from_buffer_open_array : forall isz buflen, 0 < isz -> 0 <= buflen ->
  from_buffer_length (FOpenArray isz) false true buflen = Ok (buflen / isz).
Proof.
  intros isz buflen Hs Hb. unfold from_buffer_length. cbn [negb].
  destruct (Z.eqb_spec isz 1) as [->|H1]; [rewrite Z.div_1_r; reflexivity|].
  destruct (Z.ltb_spec 0 isz); [|lia]. rewrite Z.quot_div_nonneg by lia. reflexivity.
Qed.

(* the regenerated fast-path test is taken only for items of size 1 (decided over the finite list all_items:
   the primitive kinds, and aggregates of 14 sizes, none above 64) *)
Definition fast_only_size1 (c : cond) : bool :=
  forallb (fun it => implb (cond_holds c it) (it_size it =? 1)) all_items.

Lemma gen_fast_only_size1 : fast_only_size1 gen_from_buffer_fast = true.
Proof. vm_compute. reflexivity. Qed.

Theorem from_buffer_code_is_len_div_size : forall c it buflen,
  fast_only_size1 c = true -> In it all_items -> 0 <= buflen ->
  from_buffer_open_code c it buflen =
  if 0 <? it_size it then Ok (buflen / it_size it) else Err ZeroDivisionError.
Proof.
  intros c it buflen Hc Hin Hb. unfold fast_only_size1 in Hc. rewrite forallb_forall in Hc.
  specialize (Hc it Hin). unfold from_buffer_open_code.
  destruct (cond_holds c it); cbn [implb] in Hc.
  - apply Z.eqb_eq in Hc. rewrite Hc. cbn. rewrite Z.div_1_r. reflexivity.
  - destruct (Z.ltb_spec 0 (it_size it)); [|reflexivity]. rewrite Z.quot_div_nonneg by lia. reflexivity.
Qed.

(* what a cdata source can be: item size known, and for an array the ctype records either its total size
   (fixed T[n]) or -1 (open T[]: slices p[a:b], ffi.new('T[]', n), from_buffer('T[]', obj)) *)
Definition wf_sd (sd : srcdesc) : Prop :=
  0 <= sd_isz sd /\ 0 <= sd_length sd /\
  (sd_is_array sd = true -> sd_ct_size sd = sd_length sd * sd_isz sd \/ sd_ct_size sd = -1).

(* the branch of a length expression selected for an array / a pointer source (item size known) *)
Fixpoint scond_static (c : scond) (is_array : bool) : bool :=
  match c with
  | SIsArray => is_array
  | SItemSizeKnown => true
  | SAnd a b => scond_static a is_array && scond_static b is_array
  end.
Fixpoint resolve (e : lenexpr) (is_array : bool) : lenexpr :=
  match e with
  | LIf c a b => if scond_static c is_array then resolve a is_array else resolve b is_array
  | leaf => leaf
  end.
(* decidable check of the regenerated expression: arrays get get_array_length * itemsize, pointers -1 *)
Definition lenexpr_ok (e : lenexpr) : bool :=
  match resolve e true, resolve e false with
  | LLenTimesItem, LUnknown => true
  | _, _ => false
  end.

Lemma scond_static_ok : forall c sd, 0 <= sd_isz sd ->
  scond_holds c sd = scond_static c (sd_is_array sd).
Proof.
  induction c as [| |a IHa b IHb]; intros sd H; cbn.
  - reflexivity.
  - apply Z.leb_le. exact H.
  - rewrite IHa, IHb by assumption. reflexivity.
Qed.

Lemma resolve_ok : forall e sd, 0 <= sd_isz sd ->
  src_len e sd = src_len (resolve e (sd_is_array sd)) sd.
Proof.
  induction e as [| | |c a IHa b IHb]; intros sd H; cbn [src_len resolve]; try reflexivity.
  rewrite scond_static_ok by assumption.
  destruct (scond_static c (sd_is_array sd)); auto.
Qed.

(* the length handed to mb_ass_slice / memmove for an ARRAY cdata is its real byte length, whether the
   array type is fixed or open; for a POINTER it is -1 (unknown) *)
Theorem fetch_len_is_real_length : forall e sd, lenexpr_ok e = true -> wf_sd sd ->
  src_len e sd = if sd_is_array sd then sd_length sd * sd_isz sd else -1.
Proof.
  intros e sd Hok [Hs [Hl Hc]]. rewrite resolve_ok by assumption. unfold lenexpr_ok in Hok.
  destruct (sd_is_array sd).
  - destruct (resolve e true); try discriminate. reflexivity.
  - destruct (resolve e true); try discriminate. destruct (resolve e false); try discriminate. reflexivity.
Qed.

Theorem memmove_is_copy_through_temporary : forall mem dest src n,
  0 <= dest -> 0 <= src -> 0 <= n -> src + n <= zlen mem -> dest + n <= zlen mem ->
  memmove mem dest src n = Ok (py_memmove mem dest src n) /\
  zlen (py_memmove mem dest src n) = zlen mem /\
  window (py_memmove mem dest src n) dest n = window mem src n /\
  zfirstn dest (py_memmove mem dest src n) = zfirstn dest mem /\
  zskipn (dest + n) (py_memmove mem dest src n) = zskipn (dest + n) mem.
Proof.
  intros mem dest src n Hd Hs Hn H1 H2.
  assert (zlen (window mem src n) = n) as Hl by (apply decompose; assumption).
  split.
  - unfold memmove. destruct (Z.ltb_spec n 0); [lia|]. f_equal. unfold write. fold (zfirstn dest mem).
    change (read mem src n) with (window mem src n). unfold py_memmove. fold (window mem src n).
    do 2 f_equal. unfold zskipn. f_equal. unfold zlen in Hl. lia.
  - change (py_memmove mem dest src n) with (splice mem dest n (window mem src n)).
    destruct (splice_frame mem dest n (window mem src n) Hd Hn H2 Hl) as (F1 & F2 & F3 & F4). auto.
Qed.

