(* C05 — executing the regenerated statements (C05/Gen.v through C05/Interp.v) equals the hand models
   C05/XModel.v and C05/Model.v, for every target, source, offset and memory. *)
From Coq Require Import String ZArith List Bool Lia.
From Cffi Require Import C03.Mem C03.MemProofs C05.Model C05.Proofs C05.XModel C05.IR C05.Gen C05.Interp.
Import ListNotations.
Open Scope list_scope.
Open Scope Z_scope.

(* nothing below may compute inside the IEEE conversions *)
Local Opaque narrow_bits widen_bits double_to_ld ld_to_double ld_to_float int_to_double double_of_ordinal
      Model.encode_le Model.decode_le splice.

(* raw data: the macros instantiated as in the source are the hand functions of Model.v *)
Lemma gen_write_raw_float_ok : forall k src off mem,
  gen_write_raw_float_data (fsize k) src off mem = Some (splice off (write_raw_float_data k src) mem).
Proof. intros [|] src off mem; reflexivity. Qed.

Lemma gen_write_raw_longdouble_ok : forall v pad off mem,
  gen_write_raw_longdouble_data v pad off mem = Some (splice off (write_raw_longdouble_data v pad) mem).
Proof. intros; reflexivity. Qed.

Lemma gen_write_raw_complex_ok : forall k re im off mem,
  (off + fsize k <= length mem)%nat ->
  gen_write_raw_complex_data (2 * fsize k) (re, im) off mem
  = Some (splice off (write_raw_complex_data k re im) mem).
Proof.
  intros k re im off mem H. unfold write_raw_complex_data.
  rewrite <- splice_adjacent by (rewrite write_raw_float_length; exact H).
  rewrite write_raw_float_length.
  destruct k; reflexivity.
Qed.

Lemma gen_read_raw_float_ok : forall k target,
  gen_read_raw_float_data (fsize k) target = Some (read_raw_float_data k target).
Proof. intros [|] target; reflexivity. Qed.

Lemma gen_read_raw_longdouble_ok : forall target,
  gen_read_raw_longdouble_data target = Some (read_raw_longdouble_data target).
Proof. intros; reflexivity. Qed.

Lemma gen_read_raw_complex_ok : forall k target,
  gen_read_raw_complex_data (2 * fsize k) target = Some (read_raw_complex_data k target).
Proof. intros [|] target; reflexivity. Qed.

(* the layout facts, stated on the regenerated macro itself *)
Lemma complex_layout_fact :
  wm_body write_raw_complex_data_macro
  = [WDecl "r" SrcReal; WDecl "i" SrcImag; WCopy OffZero "r"; WCopy OffSizeof "i"; WReturn]
  /\ wm_mult write_raw_complex_data_macro = 2%nat
  /\ write_raw_complex_insts = [CFloat; CDouble] /\ write_raw_float_insts = [CFloat; CDouble]
  /\ read_raw_float_insts = [CFloat; CDouble].
Proof. repeat split. Qed.

Definition cb_code (r : option (option Z)) : Z * Z :=
  match r with None => (-1, 0) | Some None => (0, 0) | Some (Some x) => (1, x) end.

Lemma gen_check_bytes_ok : forall io, gen_check_bytes io = cb_code (x_check_bytes io).
Proof.
  intros [p|c]; [|reflexivity].
  destruct p as [b|b|n|re im|re im|bs|cps|]; try reflexivity.
  - destruct bs as [|b [|b' bs]]; reflexivity.
  - destruct cps as [|c [|c' cps]]; reflexivity.
Qed.

Local Opaque gen_check_bytes gen_write_raw_float_data gen_write_raw_longdouble_data gen_write_raw_complex_data
      gen_read_raw_longdouble_data x_as_double x_as_complex x_to_object x_check_bytes.

Ltac unfold_gen :=
  unfold gen_store_float_at, gen_store_complex_at, gen_cast_float_at, gen_cast_complex_at,
         store_float_prog, store_complex_prog, cast_float_prog, cast_complex_prog, store_state, cast_state.

(* one step of the statement interpreter *)
Ltac run_f := cbn [exec_f guard_on negb f_io f_res target_is_ld is_ld_copy set_val set_io set_res set_alloc
                   f_val f_err f_alloc fst snd xsize ok_or_stuck cconv cb_code Z.eqb Pos.eqb Z.opp].

(* One cbn over a whole program, while a test in it is undecided, copies the rest of the program into every
   branch.  So the outcome of each statement that the state does not decide (it consults the source object) is
   stated here once, in XModel's terms; the scripts below rewrite with these equations in program order, before
   run_f reaches the statement, and run_f only runs tails that the state decides.  exec_ld_copy tells the eight
   shapes of a source apart once, in its proof, behind XModel.is_ld_copy. *)
Lemma exec_cast_pre t pad ob off f r mem : f <> SrcImag ->
  exec_f t pad ob off ((GAlways, SSource) :: (GAlways, SCheckBytes f) :: (GAlways, SCannotCastIf (-1)) :: r) cast_state mem =
  match x_to_object ob with
  | None => Some (Err TypeError, mem)
  | Some io =>
      match x_check_bytes io with
      | None => Some (Err TypeError, mem)
      | Some o => exec_f t pad ob off r (mk_fstate (Some io) (fst (cb_code (Some o))) (snd (cb_code (Some o)), 0) None false) mem
      end
  end.
Proof.
  intros F. cbn [exec_f guard_on negb cast_state]. destruct (x_to_object ob) as [io|]; [|reflexivity].
  cbn [set_io f_io f_res f_val f_err f_alloc]. rewrite gen_check_bytes_ok.
  destruct f; try contradiction; destruct (x_check_bytes io) as [[x|]|]; reflexivity.
Qed.

Lemma exec_ld_copy ft pad ob off g r io res v e a mem :
  guard_on (mk_fstate (Some io) res v e a) g = true ->
  exec_f (XF ft) pad ob off ((g, SLongDoubleCopy CLongDouble) :: r) (mk_fstate (Some io) res v e a) mem =
  match is_ld_copy ft io with
  | Some bs => Some (Ok tt, splice off (longdouble_copy bs pad) mem)
  | None => exec_f (XF ft) pad ob off r (mk_fstate (Some io) res v e a) mem
  end.
Proof. intros G. cbn [exec_f]. rewrite G. destruct ft; [reflexivity|]. destruct io as [|[]]; reflexivity. Qed.

Lemma exec_as_double ft pad ob off g r io res v e a mem : guard_on (mk_fstate (Some io) res v e a) g = true ->
  exec_f (XF ft) pad ob off ((g, SConv ConvFloat) :: r) (mk_fstate (Some io) res v e a) mem =
  match x_as_double io with
  | Ok x => exec_f (XF ft) pad ob off r (mk_fstate (Some io) res (x, snd v) None a) mem
  | Err x => exec_f (XF ft) pad ob off r (mk_fstate (Some io) res (minus_one, snd v) (Some x) a) mem
  end.
Proof. intros G. cbn [exec_f]. rewrite G. reflexivity. Qed.

Lemma gen_store_float_at_ok : forall t pad init off mem,
  gen_store_float_at t pad init off mem = Some (xstore_float_at t pad init off mem).
Proof.
  intros t pad init off mem. unfold_gen. unfold xstore_float_at. rewrite exec_ld_copy by reflexivity.
  destruct (is_ld_copy t init); [reflexivity|]. rewrite exec_as_double by reflexivity.
  destruct (x_as_double init) as [v|e]; run_f; [|reflexivity].
  destruct t; run_f; [rewrite gen_write_raw_float_ok | rewrite gen_write_raw_longdouble_ok]; reflexivity.
Qed.

Lemma gen_store_complex_at_ok : forall k init off mem,
  (off + fsize k <= length mem)%nat ->
  gen_store_complex_at k init off mem = Some (xstore_complex_at k init off mem).
Proof.
  intros k init off mem H. unfold_gen. unfold xstore_complex_at. run_f.
  destruct (x_as_complex init) as [[re im]|e]; run_f; [|reflexivity].
  rewrite gen_write_raw_complex_ok by exact H. reflexivity.
Qed.

Lemma gen_cast_float_at_ok : forall t pad ob off mem,
  gen_cast_float_at t pad ob off mem = Some (xcast_float_at t pad ob off mem).
Proof.
  intros t pad ob off mem. unfold_gen. unfold xcast_float_at. rewrite exec_cast_pre by discriminate.
  destruct (x_to_object ob) as [io|]; [|reflexivity].
  destruct (x_check_bytes io) as [[value|]|]; [| |reflexivity]; cbn [cb_code fst snd].
  - (* the value came from a 1-character bytes/str *)
    destruct t; run_f; [rewrite gen_write_raw_float_ok | rewrite gen_write_raw_longdouble_ok]; reflexivity.
  - rewrite exec_ld_copy by reflexivity.
    destruct (is_ld_copy t io); [reflexivity|]. rewrite exec_as_double by reflexivity.
    destruct (x_as_double io) as [v|e]; run_f; [|reflexivity].
    destruct t; run_f; [rewrite gen_write_raw_float_ok | rewrite gen_write_raw_longdouble_ok]; reflexivity.
Qed.

Lemma gen_cast_complex_at_ok : forall k ob off mem,
  (off + fsize k <= length mem)%nat ->
  gen_cast_complex_at k ob off mem = Some (xcast_complex_at k ob off mem).
Proof.
  intros k ob off mem H. unfold_gen. unfold xcast_complex_at. rewrite exec_cast_pre by discriminate.
  destruct (x_to_object ob) as [io|]; [|reflexivity].
  destruct (x_check_bytes io) as [[re|]|]; [| |reflexivity]; run_f.
  - rewrite gen_write_raw_complex_ok by exact H. reflexivity.
  - destruct (x_as_complex io) as [[re im]|e]; run_f; [|reflexivity].
    rewrite gen_write_raw_complex_ok by exact H. reflexivity.
Qed.

(* the extended model on Python-object sources and float/double targets is Model.v placed in memory *)
Local Transparent x_as_double x_as_complex x_to_object x_check_bytes.

Lemma xstore_float_at_model : forall k pad v off mem,
  xstore_float_at (TK k) pad (XPy v) off mem = place (store_float k v) off mem.
Proof.
  intros. unfold xstore_float_at, store_float, place. cbn [is_ld_copy x_as_double xwrite_float].
  destruct (PyFloat_AsDouble v); reflexivity.
Qed.

Lemma xstore_complex_at_model : forall k v off mem,
  xstore_complex_at k (XPy v) off mem = place (store_complex k v) off mem.
Proof.
  intros. unfold xstore_complex_at, store_complex, place. cbn [x_as_complex].
  destruct (PyComplex_AsCComplex v) as [[re im]|e]; reflexivity.
Qed.

Lemma xcast_float_at_model : forall k pad v off mem,
  xcast_float_at (TK k) pad (XPy v) off mem = place (cast_float k v) off mem.
Proof.
  intros. unfold xcast_float_at, cast_float, place. cbn [x_to_object x_check_bytes is_ld_copy x_as_double xwrite_float].
  destruct (check_bytes_for_float_compatible v) as [[x|]|]; try reflexivity.
  destruct (PyFloat_AsDouble v); reflexivity.
Qed.

Lemma xcast_complex_at_model : forall k v off mem,
  xcast_complex_at k (XPy v) off mem = place (cast_complex k v) off mem.
Proof.
  intros. unfold xcast_complex_at, cast_complex, place. cbn [x_to_object x_check_bytes x_as_complex].
  destruct (check_bytes_for_float_compatible v) as [[x|]|]; try reflexivity.
  destruct (PyComplex_AsCComplex v) as [[re im]|e]; reflexivity.
Qed.

Lemma bytes_of_place : forall n r, (match r with Ok bs => length bs = n | Err _ => True end) ->
  bytes_of n (Some (place r 0 (repeat 0 n))) = Some r.
Proof.
  intros n [bs|e] H; cbn [place bytes_of]; [|reflexivity].
  rewrite splice_whole by (rewrite repeat_length; exact H). reflexivity.
Qed.

(* the regenerated code IS the Model.v function *)
Lemma gen_store_float_refines : forall k v, gen_store_float k v = Some (store_float k v).
Proof.
  intros. unfold gen_store_float. rewrite gen_store_float_at_ok, xstore_float_at_model.
  apply bytes_of_place. unfold store_float. destruct (PyFloat_AsDouble v); [apply write_raw_float_length|exact I].
Qed.

Lemma gen_store_complex_refines : forall k v, gen_store_complex k v = Some (store_complex k v).
Proof.
  intros. unfold gen_store_complex.
  rewrite gen_store_complex_at_ok by (rewrite repeat_length; lia).
  rewrite xstore_complex_at_model.
  apply bytes_of_place. unfold store_complex.
  destruct (PyComplex_AsCComplex v) as [[re im]|e]; [apply write_raw_complex_length|exact I].
Qed.

Lemma gen_cast_float_refines : forall k v, gen_cast_float k v = Some (cast_float k v).
Proof.
  intros. unfold gen_cast_float. rewrite gen_cast_float_at_ok, xcast_float_at_model.
  apply bytes_of_place. unfold cast_float.
  destruct (check_bytes_for_float_compatible v) as [[x|]|]; [apply write_raw_float_length| |exact I].
  destruct (PyFloat_AsDouble v); [apply write_raw_float_length|exact I].
Qed.

Lemma gen_cast_complex_refines : forall k v, gen_cast_complex k v = Some (cast_complex k v).
Proof.
  intros. unfold gen_cast_complex.
  rewrite gen_cast_complex_at_ok by (rewrite repeat_length; lia).
  rewrite xcast_complex_at_model.
  apply bytes_of_place. unfold cast_complex.
  destruct (check_bytes_for_float_compatible v) as [[x|]|]; [apply write_raw_complex_length| |exact I].
  destruct (PyComplex_AsCComplex v) as [[re im]|e]; [apply write_raw_complex_length|exact I].
Qed.
