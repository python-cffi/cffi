(* C05 — Floating-point and complex stores round-trip with C conversion semantics.
   The general lemmas are in C05/Proofs.v, XProofs.v and GenProofs.v.

   Reading: "the IEEE-754 value C obtains by converting that double to the target type" is the
   IEEE-754 conversion binary64 -> binary32 in round-to-nearest-even (Flocq's `round radix2
   (FLT_exp (-149) 24) ZnearestE`), overflow to infinity, NaN to NaN, zeros and infinities kept
   with their sign.  The model functions (C05/Model.v: narrow, widen, write_raw_float_data ...)
   are the ones evaluated by the correspondence check against the implementation and against gcc.
   Print Assumptions lists the stdlib real-number axioms (through Flocq) — expected. *)
From Coq Require Import String ZArith List Bool Reals.
From Coq Require Import Lia.
From Flocq Require Import Core.Core IEEE754.BinarySingleNaN IEEE754.Binary IEEE754.Bits.
From Cffi Require Import C03.Mem C05.Model C05.Proofs C05.XModel C05.XProofs C05.IR C05.Gen C05.Interp C05.GenProofs.
Import ListNotations.
Open Scope list_scope.
Open Scope Z_scope.

(* (float)x is round-to-nearest-even of the real value of x, for EVERY finite binary64 x
   (zeros and subnormals included); when the rounded value does not fit, infinity of the sign *)
Theorem C05_narrow_is_round_to_nearest_even : forall x : binary64,
  Binary.is_finite 53 1024 x = true ->
  let r := round radix2 (FLT_exp (-149) 24) ZnearestE (Binary.B2R 53 1024 x) in
  if Rlt_bool (Rabs r) (bpow radix2 128) then
    Binary.B2R 24 128 (narrow x) = r /\
    Binary.is_finite 24 128 (narrow x) = true /\
    Binary.Bsign 24 128 (narrow x) = Binary.Bsign 53 1024 x
  else
    narrow x = B754_infinity 24 128 (Binary.Bsign 53 1024 x).
Proof. exact narrow_finite_correct. Qed.
Print Assumptions C05_narrow_is_round_to_nearest_even.

(* where the overflow happens: from 2^128 - 2^103 (the tie between FLT_MAX and 2^128, which is the double
   0x47effffff0000000) upwards — and only there — the result is infinity; up to the preceding double (0x47efffffefffffff, proved to be
   its binary64 predecessor) it is finite and correctly rounded *)
Theorem C05_overflow_threshold :
  (* iff: a finite double overflows exactly from the threshold upwards ... *)
  (forall x : binary64,
   Binary.is_finite 53 1024 x = true ->
   (Binary.is_finite 24 128 (narrow x) = false <->
    (Binary.B2R 53 1024 (b64_of_bits 0x47effffff0000000) <= Rabs (Binary.B2R 53 1024 x))%R)) /\
  (* ... where the result is the infinity of its sign ... *)
  (forall x : binary64,
   Binary.is_finite 53 1024 x = true ->
   (Binary.B2R 53 1024 (b64_of_bits 0x47effffff0000000) <= Rabs (Binary.B2R 53 1024 x))%R ->
   narrow x = B754_infinity 24 128 (Binary.Bsign 53 1024 x)) /\
  (* ... below it the result is finite and correctly rounded ... *)
  (forall x : binary64,
   Binary.is_finite 53 1024 x = true ->
   (Rabs (Binary.B2R 53 1024 x) <= Binary.B2R 53 1024 (b64_of_bits 0x47efffffefffffff))%R ->
   Binary.is_finite 24 128 (narrow x) = true /\
   Binary.B2R 24 128 (narrow x) =
     round radix2 (FLT_exp (-149) 24) ZnearestE (Binary.B2R 53 1024 x)) /\
  (* ... and the two cases are exhaustive: 0x47efffffefffffff is the binary64 predecessor of the threshold
     (Flocq's pred), so no double lies strictly between them *)
  (Binary.B2R 53 1024 (b64_of_bits 0x47efffffefffffff) =
     pred radix2 (FLT_exp (-1074) 53) (Binary.B2R 53 1024 (b64_of_bits 0x47effffff0000000)) /\
   forall x : binary64,
     (Rabs (Binary.B2R 53 1024 x) < Binary.B2R 53 1024 (b64_of_bits 0x47effffff0000000))%R ->
     (Rabs (Binary.B2R 53 1024 x) <= Binary.B2R 53 1024 (b64_of_bits 0x47efffffefffffff))%R).
Proof.
  rewrite thr_hi_eq, thr_lo_eq.
  exact (conj narrow_overflow_iff (conj narrow_overflow (conj narrow_no_overflow
          (conj B2R_thr_lo_is_pred below_thr_hi_le_thr_lo)))).
Qed.
Print Assumptions C05_overflow_threshold.

(* classes: signed zeros and infinities are kept, NaN stays NaN and nothing else becomes NaN,
   in both directions (store: double -> float, read: float -> double) *)
Theorem C05_classes_preserved :
  ((forall s, narrow (B754_zero 53 1024 s) = B754_zero 24 128 s) /\
   (forall s, narrow (B754_infinity 53 1024 s) = B754_infinity 24 128 s) /\
   (forall x, Binary.is_nan 24 128 (narrow x) = Binary.is_nan 53 1024 x)) /\
  ((forall s, widen (B754_zero 24 128 s) = B754_zero 53 1024 s) /\
   (forall s, widen (B754_infinity 24 128 s) = B754_infinity 53 1024 s) /\
   (forall x, Binary.is_nan 53 1024 (widen x) = Binary.is_nan 24 128 x)).
Proof. exact (conj narrow_classes widen_classes). Qed.
Print Assumptions C05_classes_preserved.

(* reading a float (float -> double) is exact; "and reading returns it" is stable: storing what was read gives
   back the same float for every non-NaN binary32 (subnormals, zeros, infinities included), also on the
   2^32 - 2^24 + 2 non-NaN bit patterns *)
Theorem C05_read_is_exact_and_stable :
  (forall x : binary32,
   Binary.is_finite 24 128 x = true ->
   Binary.B2R 53 1024 (widen x) = Binary.B2R 24 128 x /\
   Binary.is_finite 53 1024 (widen x) = true /\
   Binary.Bsign 53 1024 (widen x) = Binary.Bsign 24 128 x) /\
  (forall x : binary32,
   Binary.is_nan 24 128 x = false -> narrow (widen x) = x) /\
  (forall f : Z,
   0 <= f < 2 ^ 32 -> is_nan32_bits f = false -> narrow_bits (widen_bits f) = f).
Proof. exact (conj widen_finite_correct (conj narrow_widen narrow_widen_bits_nan_test)). Qed.
Print Assumptions C05_read_is_exact_and_stable.

(* a double that already holds a binary32 value is stored unchanged *)
Theorem C05_representable_unchanged : forall x : binary64,
  Binary.is_finite 53 1024 x = true ->
  generic_format radix2 (FLT_exp (-149) 24) (Binary.B2R 53 1024 x) ->
  (Rabs (Binary.B2R 53 1024 x) < bpow radix2 128)%R ->
  Binary.B2R 24 128 (narrow x) = Binary.B2R 53 1024 x /\
  Binary.is_finite 24 128 (narrow x) = true /\
  Binary.Bsign 24 128 (narrow x) = Binary.Bsign 53 1024 x.
Proof. exact narrow_representable. Qed.
Print Assumptions C05_representable_unchanged.

(* the bytes: after write_raw_float_data(float) the 4 bytes hold (float)d, and read_raw_float_data
   returns exactly that float as a double; for double the 8 bytes are the pattern itself *)
Theorem C05_store_then_read : forall d rest, 0 <= d < 2 ^ 64 ->
  (let mem := write_raw_float_data F32 d ++ rest in
   b32_of_bits (decode_le (firstn 4 mem)) = narrow (b64_of_bits d) /\
   b64_of_bits (read_raw_float_data F32 mem) = widen (narrow (b64_of_bits d))) /\
  (let mem := write_raw_float_data F64 d ++ rest in
   decode_le (firstn 8 mem) = d /\ read_raw_float_data F64 mem = d).
Proof. exact (fun d rest H => conj (float_store_read d rest H) (double_store_read d rest H)). Qed.
Print Assumptions C05_store_then_read.

(* complex: real part at offset 0, imaginary part at offset sizeof(type), each stored exactly as a float store
   of that component (store and cast paths), and both parts read back as the float read would *)
Theorem C05_complex_componentwise :
  (forall k v mem,
   store_complex k v = Ok mem ->
   exists re im, PyComplex_AsCComplex v = Ok (re, im) /\
     firstn (fsize k) mem = write_raw_float_data k re /\
     skipn (fsize k) mem = write_raw_float_data k im /\
     store_float k (PyFloat re) = Ok (firstn (fsize k) mem) /\
     store_float k (PyFloat im) = Ok (skipn (fsize k) mem)) /\
  (forall k v mem,
   cast_complex k v = Ok mem ->
   exists re im,
     firstn (fsize k) mem = write_raw_float_data k re /\
     skipn (fsize k) mem = write_raw_float_data k im /\
     match check_bytes_for_float_compatible v with
     | Some (Some d) => re = d /\ im = pos_zero
     | _ => PyComplex_AsCComplex v = Ok (re, im)
     end) /\
  (forall k re im, 0 <= re < 2 ^ 64 -> 0 <= im < 2 ^ 64 ->
   read_raw_complex_data k (write_raw_complex_data k re im) =
   (read_raw_float_data k (write_raw_float_data k re), read_raw_float_data k (write_raw_float_data k im))).
Proof. exact (conj store_complex_componentwise (conj cast_complex_componentwise read_write_raw_complex)). Qed.
Print Assumptions C05_complex_componentwise.

(* ffi.cast and a store agree on floats, objects with __float__ and ints; a 1-char bytes/str is accepted by the
   cast only and contributes its ordinal exactly; a Python int is correctly rounded (OverflowError exactly when
   the rounded value is out of range) *)
Theorem C05_python_value_conversions :
  (forall k v,
   match v with
   | PyBytes _ | PyStr _ => store_float k v = Err TypeError
   | _ => cast_float k v = store_float k v
   end) /\
  (forall n : Z, 0 <= n < 2 ^ 24 ->
   cast_float F64 (PyStr [n]) = Ok (write_raw_float_data F64 (double_of_ordinal n)) /\
   cast_float F32 (PyStr [n]) = Ok (write_raw_float_data F32 (double_of_ordinal n)) /\
   Binary.B2R 53 1024 (b64_of_bits (double_of_ordinal n)) = IZR n /\
   Binary.B2R 24 128 (narrow (b64_of_bits (double_of_ordinal n))) = IZR n) /\
  (forall n : Z,
   let r := round radix2 (FLT_exp (-1074) 53) ZnearestE (IZR n) in
   if Rlt_bool (Rabs r) (bpow radix2 1024) then
     exists d, int_to_double n = Some d /\ 0 <= d < 2 ^ 64 /\
               Binary.B2R 53 1024 (b64_of_bits d) = r /\ Binary.is_finite 53 1024 (b64_of_bits d) = true
   else int_to_double n = None).
Proof. exact (conj cast_float_vs_store (conj char_ordinal_exact int_to_double_correct)). Qed.
Print Assumptions C05_python_value_conversions.

(* long double: read then write (convert_to_object, convert_from_object from a long double cdata,
   do_cast long double -> long double) keeps the 10 value bytes, whatever the 6 padding bytes *)
Theorem C05_longdouble_copy_keeps_value_bytes : forall src pad,
  Forall is_byte src -> (10 <= length src)%nat ->
  firstn 10 (longdouble_copy src pad) = firstn 10 src.
Proof.
intros src pad Hb Hl. unfold longdouble_copy, write_raw_longdouble_data, read_raw_longdouble_data, ld_value_bytes.
rewrite firstn_encode_app.
assert (L : length (firstn 10 src) = 10%nat) by (rewrite firstn_length; lia).
rewrite <- L at 1. apply encode_decode.
clear -Hb. revert src Hb. generalize 10%nat. induction n; intros [|b src] Hb; cbn [firstn]; auto.
inversion Hb; subst. constructor; auto.
Qed.
Print Assumptions C05_longdouble_copy_keeps_value_bytes.

(* the regenerated code.  C05/Gen.v holds, regenerated from src/c/_cffi_backend.c on every run, the statement
   lists of the macros _write_raw_data / _write_raw_complex_data / _read_raw_data, the types they are
   instantiated with in read/write_raw_{float,longdouble,complex}_data, the branch order and return codes of
   check_bytes_for_float_compatible, and the statements of the float and complex branches of convert_from_object
   and do_cast.  C05/Interp.v executes them (Some = every statement had a meaning).  Executed on a fresh object,
   they ARE the Model.v functions all theorems above speak about: *)
Theorem C05_gen_store_refines :
  (forall k v, gen_store_float k v = Some (store_float k v)) /\
  (forall k v, gen_store_complex k v = Some (store_complex k v)) /\
  (forall k v, gen_cast_float k v = Some (cast_float k v)) /\
  (forall k v, gen_cast_complex k v = Some (cast_complex k v)).
Proof.
  exact (conj gen_store_float_refines (conj gen_store_complex_refines
          (conj gen_cast_float_refines gen_cast_complex_refines))).
Qed.
Print Assumptions C05_gen_store_refines.

(* ... and at any offset of any memory, for every target (float, double, long double), every source (Python
   object or primitive cdata: the long double -> long double special case, cdata_float, do_cast's
   convert_to_object prologue) and any long double padding, they are the extended hand model C05/XModel.v,
   which on Python-object sources and float/double targets is Model.v's result placed at that offset *)
Theorem C05_gen_at_refines :
  (forall t pad init off mem, gen_store_float_at t pad init off mem = Some (xstore_float_at t pad init off mem)) /\
  (forall k init off mem, (off + fsize k <= length mem)%nat ->
     gen_store_complex_at k init off mem = Some (xstore_complex_at k init off mem)) /\
  (forall t pad ob off mem, gen_cast_float_at t pad ob off mem = Some (xcast_float_at t pad ob off mem)) /\
  (forall k ob off mem, (off + fsize k <= length mem)%nat ->
     gen_cast_complex_at k ob off mem = Some (xcast_complex_at k ob off mem)) /\
  (forall k pad v off mem,
     xstore_float_at (TK k) pad (XPy v) off mem = place (store_float k v) off mem /\
     xstore_complex_at k (XPy v) off mem = place (store_complex k v) off mem /\
     xcast_float_at (TK k) pad (XPy v) off mem = place (cast_float k v) off mem /\
     xcast_complex_at k (XPy v) off mem = place (cast_complex k v) off mem).
Proof.
  exact (conj gen_store_float_at_ok (conj gen_store_complex_at_ok (conj gen_cast_float_at_ok
          (conj gen_cast_complex_at_ok
            (fun k pad v off mem => conj (xstore_float_at_model k pad v off mem)
               (conj (xstore_complex_at_model k v off mem)
                 (conj (xcast_float_at_model k pad v off mem) (xcast_complex_at_model k v off mem)))))))).
Qed.
Print Assumptions C05_gen_at_refines.

(* the raw-data layer: the macros, instantiated with the types and in the order found in the source, are the
   hand functions write_raw_float_data / read_raw_float_data / ..._complex_data / ..._longdouble_data of Model.v;
   in particular the real part is copied to target + 0 and the imaginary part to target + sizeof(type)
   (stated on the regenerated macro body itself), and check_bytes_for_float_compatible returns -1 / 0 / 1 as
   Model.v's None / Some None / Some (Some ordinal) *)
Theorem C05_gen_raw_data_refines :
  (forall k src off mem,
     gen_write_raw_float_data (fsize k) src off mem = Some (splice off (write_raw_float_data k src) mem)) /\
  (forall v pad off mem,
     gen_write_raw_longdouble_data v pad off mem = Some (splice off (write_raw_longdouble_data v pad) mem)) /\
  (forall k re im off mem, (off + fsize k <= length mem)%nat ->
     gen_write_raw_complex_data (2 * fsize k) (re, im) off mem
     = Some (splice off (write_raw_float_data k re ++ write_raw_float_data k im) mem)) /\
  (forall k target, gen_read_raw_float_data (fsize k) target = Some (read_raw_float_data k target)) /\
  (forall target, gen_read_raw_longdouble_data target = Some (read_raw_longdouble_data target)) /\
  (forall k target, gen_read_raw_complex_data (2 * fsize k) target = Some (read_raw_complex_data k target)) /\
  (forall io, gen_check_bytes io = cb_code (x_check_bytes io)) /\
  (wm_body write_raw_complex_data_macro
     = [WDecl "r" SrcReal; WDecl "i" SrcImag; WCopy OffZero "r"; WCopy OffSizeof "i"; WReturn]
   /\ wm_mult write_raw_complex_data_macro = 2%nat
   /\ write_raw_complex_insts = [CFloat; CDouble] /\ write_raw_float_insts = [CFloat; CDouble]
   /\ read_raw_float_insts = [CFloat; CDouble])%string.
Proof.
  exact (conj gen_write_raw_float_ok (conj gen_write_raw_longdouble_ok (conj gen_write_raw_complex_ok
          (conj gen_read_raw_float_ok (conj gen_read_raw_longdouble_ok (conj gen_read_raw_complex_ok
            (conj gen_check_bytes_ok complex_layout_fact))))))).
Qed.
Print Assumptions C05_gen_raw_data_refines.

(* frame: a float store at byte offset off of a larger object (array item, struct field) keeps the length,
   changes no byte outside [off, off + size), leaves the memory unchanged when it fails, and when it succeeds
   the object holds exactly the bytes of the conversion (read back by read_raw_float_data as the stored float);
   the complex store has its two components at off and off + sizeof(type) *)
Theorem C05_store_frame :
  (forall t pad init off mem,
     length pad = 6%nat -> (off + xsize t <= length mem)%nat ->
     let r := xstore_float_at t pad init off mem in
     frame_ok off (xsize t) mem (snd r) /\
     match xstore_float_bytes t pad init with
     | Ok bs => fst r = Ok tt /\ length bs = xsize t /\ unit_at off (xsize t) (snd r) = bs
     | Err e => fst r = Err e /\ snd r = mem
     end) /\
  (forall k init off mem,
     (off + 2 * fsize k <= length mem)%nat ->
     let r := xstore_complex_at k init off mem in
     frame_ok off (2 * fsize k) mem (snd r) /\
     match x_as_complex init with
     | Ok (re, im) => fst r = Ok tt /\
         unit_at off (fsize k) (snd r) = write_raw_float_data k re /\
         unit_at (off + fsize k) (fsize k) (snd r) = write_raw_float_data k im
     | Err e => fst r = Err e /\ snd r = mem
     end) /\
  (forall k pad d off mem,
     0 <= d < 2 ^ 64 -> (off + fsize k <= length mem)%nat ->
     let r := xstore_float_at (TK k) pad (XPy (PyFloat d)) off mem in
     read_raw_float_data k (unit_at off (fsize k) (snd r))
     = match k with F32 => widen_bits (narrow_bits d) | F64 => d end).
Proof. exact (conj xstore_float_frame (conj xstore_complex_frame xstore_float_read_back)). Qed.
Print Assumptions C05_store_frame.

(* (long double)d is exact for every finite binary64 d (x87 double-extended = Flocq precision 64, emax 16384),
   keeps zeros and infinities with their sign, NaN stays NaN *)
Theorem C05_double_to_longdouble_exact :
  (forall x : binary64,
   Binary.is_finite 53 1024 x = true ->
   Binary.B2R 64 16384 (widen_ld x) = Binary.B2R 53 1024 x /\
   Binary.is_finite 64 16384 (widen_ld x) = true /\
   Binary.Bsign 64 16384 (widen_ld x) = Binary.Bsign 53 1024 x) /\
  ((forall s, widen_ld (B754_zero 53 1024 s) = B754_zero 64 16384 s) /\
   (forall s, widen_ld (B754_infinity 53 1024 s) = B754_infinity 64 16384 s) /\
   (forall x, Binary.is_nan 64 16384 (widen_ld x) = Binary.is_nan 53 1024 x)).
Proof. exact (conj widen_ld_finite_correct widen_ld_classes). Qed.
Print Assumptions C05_double_to_longdouble_exact.

(* non-vacuity / concrete values (struct.pack('<d', x) patterns in, struct.pack('<f') patterns out) *)
Example C05_examples :
  map narrow_bits
    [ 0x3ff0000000000000        (* 1.0 *)
    ; 0x3ff0000010000000        (* 1 + 2^-24 : tie, to even (down) *)
    ; 0x3ff0000030000000        (* 1 + 3*2^-24 : tie, to even (up) *)
    ; 0x3ff0000010000001        (* just above the tie *)
    ; 0x47efffffefffffff        (* largest double that rounds to FLT_MAX *)
    ; 0x47effffff0000000        (* smallest double that overflows *)
    ; 0xc7effffff0000000
    ; 0x36a0000000000000        (* 2^-149 : smallest float subnormal *)
    ; 0x3690000000000000        (* 2^-150 : tie with 0, to even = 0 *)
    ; 0x3690000000000001        (* just above: rounds to 2^-149 *)
    ; 0x380fffffffffffff        (* just below FLT_MIN: rounds up to the normal range *)
    ; 0x0000000000000001        (* smallest double subnormal *)
    ; 0x8000000000000000        (* -0.0 *)
    ; 0x7ff0000000000000; 0xfff0000000000000
    ; 0x7ff0000000000001; 0xfff8000000000000 ]  (* NaNs: signalling, quiet negative *)
  = [ 0x3f800000; 0x3f800000; 0x3f800002; 0x3f800001; 0x7f7fffff; 0x7f800000; 0xff800000;
      0x00000001; 0x00000000; 0x00000001; 0x00800000; 0x00000000; 0x80000000;
      0x7f800000; 0xff800000; 0x7fc00000; 0x7fc00000 ].
Proof. vm_compute. reflexivity. Qed.

Example C05_example_paths :
  observe TFloat Store (PyFloat 0x3ff0000010000001) = Ok ([0x3f800001], [0x3ff0000020000000]) /\
  observe TFloatComplex Store (PyFloat 0xbff0000000000000) = Ok ([0xbf800000; 0], [0xbff0000000000000; 0]) /\
  observe TDoubleComplex Cast (PyComplex 0x7ff0000000000000 0x8000000000000000)
     = Ok ([0x7ff0000000000000; 0x8000000000000000], [0x7ff0000000000000; 0x8000000000000000]) /\
  observe TFloat Cast (PyStr [0x10FFFF]) = Ok ([0x4987fff8], [0x4130ffff00000000]) /\
  observe TFloat Store (PyStr [65]) = Err TypeError /\
  observe TDouble Cast (PyBytes [65; 66]) = Err TypeError /\
  observe TDouble Store (PyInt (2 ^ 1024)) = Err OverflowError /\
  observe TDouble Store (PyInt (2 ^ 53 + 1)) = Ok ([0x4340000000000000], [0x4340000000000000]) /\
  observe TFloat Store (PyComplex 0 0) = Err TypeError.
Proof. vm_compute. repeat split. Qed.

Example C05_example_longdouble :
  firstn 10 (longdouble_copy [0;0;0;0;0;0;0;128;255;63; 1;2;3;4;5;6] [9;9;9;9;9;9])
  = [0;0;0;0;0;0;0;128;255;63].
Proof. vm_compute. reflexivity. Qed.

(* cdata sources and the long double target (x87 patterns: 1.0L = 0x3fff8000000000000000) *)
Example C05_example_xpaths :
  xobserve (XF TLD) Cast (XCData (CDFloat F32 0x3f800000)) = Ok [0x3fff8000000000000000] /\
  xobserve (XF TLD) Store (XPy (PyFloat 0xc00921fb54442d18)) = Ok [0xc000c90fdaa22168c000] /\
  xobserve (XF (TK F32)) Cast (XCData (CDWChar 65)) = Ok [0x42820000] /\
  xobserve (XF (TK F32)) Store (XCData (CDInt 65)) = Err TypeError /\
  xobserve (XF (TK F64)) Cast (XCData CDOther) = Err TypeError /\
  xobserve (XC F32) Cast (XCData (CDComplex F64 0x3ff0000000000000 0x4000000000000000)) = Ok [0x3f800000; 0x40000000] /\
  map ld_to_double [0x3fff8000000000000401; 0x3fff8000000000000400; 0x3fff8000000000000c00]
    = [0x3ff0000000000001; 0x3ff0000000000000; 0x3ff0000000000002].
Proof. vm_compute. repeat split. Qed.

(* the proofs above depend on what is in Gen.v: with `double lvalue` instead of `long double lvalue` in the long
   double -> long double block the executed program stores other bytes for 1 + 2^-63 *)
Example C05_gen_lvalue_type_matters :
  let src := XCData (CDLongDouble [1;0;0;0;0;0;0;128;255;63; 0;0;0;0;0;0]) in
  let bad := map (fun gs => match gs with (g, SLongDoubleCopy _) => (g, SLongDoubleCopy CDouble) | _ => gs end)
                 store_float_prog in
  exec_f (XF TLD) [0;0;0;0;0;0] src 0 bad (store_state src) (repeat 0 16)
    = Some (Ok tt, [0;0;0;0;0;0;0;128;255;63; 0;0;0;0;0;0]) /\
  gen_store_float_at TLD [0;0;0;0;0;0] src 0 (repeat 0 16)
    = Some (Ok tt, [1;0;0;0;0;0;0;128;255;63; 0;0;0;0;0;0]).
Proof. vm_compute. split; reflexivity. Qed.
