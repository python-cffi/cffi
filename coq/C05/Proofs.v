(* C05 — proofs about C05/Model.v.  C's conversion between two binary formats is proved once (Section Conv: fconv, which
   narrow, widen and XModel.widen_ld are by conversion); then the overflow threshold of (float) (thr_hi, thr_lo: two
   adjacent doubles), the Python int and ordinal sources, the bytes in memory read back, the complex stores part by part.
   Real-number reasoning uses Flocq 4.1 (hence the stdlib real-number axioms appear under Print Assumptions). *)
From Coq Require Import ZArith List Bool Reals Lia Psatz.
From Flocq Require Import Core.Core IEEE754.BinarySingleNaN IEEE754.Binary IEEE754.Bits.
From Cffi Require Import Base.ListFacts C03.Mem C03.MemProofs C05.Model.
Import ListNotations.
Open Scope Z_scope.

Notation fexp32 := (FLT_exp (-149) 24).
Notation fexp64 := (FLT_exp (-1074) 53).
Notation rne32 := (round radix2 fexp32 ZnearestE).
Notation rne64 := (round radix2 fexp64 ZnearestE).

(* the sign bookkeeping in the conclusion of binary_normalize_correct *)
Lemma Rlt_bool_F2R_sign : forall s m e,
  Rlt_bool (F2R (Float radix2 (cond_Zopp s (Zpos m)) e)) 0 = s.
Proof.
intros [|] m e; simpl.
- apply Rlt_bool_true. now apply F2R_lt_0.
- apply Rlt_bool_false. now apply F2R_ge_0.
Qed.

Lemma Rcompare_F2R_sign : forall (s sz : bool) m e,
  match Rcompare (F2R (Float radix2 (cond_Zopp s (Zpos m)) e)) 0 with
  | Eq => sz | Lt => true | Gt => false end = s.
Proof.
intros [|] sz m e; simpl.
- rewrite Rcompare_Lt; auto. now apply F2R_lt_0.
- rewrite Rcompare_Gt; auto. now apply F2R_gt_0.
Qed.

Lemma format_wider : forall emin1 p1 emin2 p2 (x : R), Prec_gt_0 p1 -> emin2 <= emin1 -> p1 <= p2 ->
  generic_format radix2 (FLT_exp emin1 p1) x -> generic_format radix2 (FLT_exp emin2 p2) x.
Proof.
intros emin1 p1 emin2 p2 x Hp He Hpp Hx.
apply generic_format_FLT.
apply FLT_format_generic in Hx; [|exact Hp].
destruct Hx as [f H1 H2 H3].
exists f; auto.
- eapply Z.lt_le_trans. apply H2. now apply (Zpower_le radix2).
- lia.
Qed.

Lemma format32_format64 : forall x : R,
  generic_format radix2 fexp32 x -> generic_format radix2 fexp64 x.
Proof. intros x. apply format_wider; [reflexivity|lia|lia]. Qed.

(* C's conversion between two binary formats, as Model.narrow, Model.widen and XModel.widen_ld write it: they are
   this function at three pairs of formats (by conversion), and each of their theorems is one of the three below *)
Section Conv.
Variables p1 e1 p2 e2 : Z.
Context (Hp1 : Prec_gt_0 p1) (Hp : Prec_gt_0 p2) (Hm : Prec_lt_emax p2 e2).
Variable qnan : binary_float p2 e2.

Definition fconv (x : binary_float p1 e1) : binary_float p2 e2 :=
  match x with
  | B754_zero _ _ s => B754_zero p2 e2 s
  | B754_infinity _ _ s => B754_infinity p2 e2 s
  | B754_nan _ _ _ _ _ => qnan
  | B754_finite _ _ s m e _ => Binary.binary_normalize p2 e2 Hp Hm mode_NE (cond_Zopp s (Zpos m)) e s
  end.

Lemma fconv_classes : Binary.is_nan p2 e2 qnan = true ->
  (forall s, fconv (B754_zero p1 e1 s) = B754_zero p2 e2 s) /\
  (forall s, fconv (B754_infinity p1 e1 s) = B754_infinity p2 e2 s) /\
  (forall x, Binary.is_nan p2 e2 (fconv x) = Binary.is_nan p1 e1 x).
Proof.
intros Q. repeat split. intros [s|s|s pl H|s m e H]; try reflexivity; [exact Q|].
cbn [fconv Binary.is_nan]. apply Binary.is_nan_BSN2B'.
Qed.

Lemma fconv_correct : forall x, Binary.is_finite p1 e1 x = true ->
  let r := round radix2 (SpecFloat.fexp p2 e2) ZnearestE (Binary.B2R p1 e1 x) in
  if Rlt_bool (Rabs r) (bpow radix2 e2) then
    Binary.B2R p2 e2 (fconv x) = r /\ Binary.is_finite p2 e2 (fconv x) = true /\
    Binary.Bsign p2 e2 (fconv x) = Binary.Bsign p1 e1 x
  else fconv x = B754_infinity p2 e2 (Binary.Bsign p1 e1 x).
Proof.
intros [s|s|s pl H|s m e H] Hf; try discriminate Hf; cbn [fconv Binary.B2R Binary.Bsign].
- rewrite round_0 by auto with typeclass_instances.
  rewrite Rabs_R0, Rlt_bool_true by apply bpow_gt_0.
  now repeat split.
- generalize (Binary.binary_normalize_correct p2 e2 Hp Hm mode_NE (cond_Zopp s (Zpos m)) e s).
  cbn [round_mode].
  destruct Rlt_bool.
  + rewrite Rcompare_F2R_sign. auto.
  + rewrite Rlt_bool_F2R_sign. intros HH.
    apply Binary.B2FF_inj. rewrite HH. reflexivity.
Qed.

Lemma fconv_exact : p1 <= p2 -> e1 <= e2 -> e1 + p1 <= e2 + p2 ->
  forall x, Binary.is_finite p1 e1 x = true ->
  Binary.B2R p2 e2 (fconv x) = Binary.B2R p1 e1 x /\ Binary.is_finite p2 e2 (fconv x) = true /\
  Binary.Bsign p2 e2 (fconv x) = Binary.Bsign p1 e1 x.
Proof.
intros Hpp He Hmin x Hf. generalize (fconv_correct x Hf). cbv zeta.
rewrite round_generic; [|auto with typeclass_instances|].
- rewrite Rlt_bool_true; [auto|].
  eapply Rlt_le_trans; [apply Binary.abs_B2R_lt_emax | now apply bpow_le].
- apply (format_wider (SpecFloat.emin p1 e1) p1); [exact Hp1|unfold SpecFloat.emin; lia|exact Hpp|].
  apply Binary.generic_format_B2R.
Qed.
End Conv.

Lemma narrow_finite_correct : forall x : binary64,
  Binary.is_finite 53 1024 x = true ->
  let r := rne32 (Binary.B2R 53 1024 x) in
  if Rlt_bool (Rabs r) (bpow radix2 128) then
    Binary.B2R 24 128 (narrow x) = r /\
    Binary.is_finite 24 128 (narrow x) = true /\
    Binary.Bsign 24 128 (narrow x) = Binary.Bsign 53 1024 x
  else
    narrow x = B754_infinity 24 128 (Binary.Bsign 53 1024 x).
Proof. exact (fconv_correct 53 1024 24 128 Hprec32 Hmax32 qnan32). Qed.

Lemma widen_finite_correct : forall x : binary32,
  Binary.is_finite 24 128 x = true ->
  Binary.B2R 53 1024 (widen x) = Binary.B2R 24 128 x /\
  Binary.is_finite 53 1024 (widen x) = true /\
  Binary.Bsign 53 1024 (widen x) = Binary.Bsign 24 128 x.
Proof. intros x. apply (fconv_exact 24 128 53 1024 Hprec32); lia. Qed.

Lemma narrow_widen : forall x : binary32,
  Binary.is_nan 24 128 x = false -> narrow (widen x) = x.
Proof.
intros x Hn.
destruct (Binary.is_finite 24 128 x) eqn:Hf.
2: { destruct x; try discriminate; reflexivity. }
destruct (widen_finite_correct x Hf) as (R1 & F1 & S1).
generalize (narrow_finite_correct (widen x) F1). cbn zeta.
rewrite R1.
rewrite round_generic; [|auto with typeclass_instances|apply (Binary.generic_format_B2R 24 128 x)].
rewrite Rlt_bool_true by apply (Binary.abs_B2R_lt_emax 24 128 x).
intros (R2 & F2 & S2).
apply Binary.B2R_Bsign_inj; auto. congruence.
Qed.

Lemma narrow_classes :
  (forall s, narrow (B754_zero 53 1024 s) = B754_zero 24 128 s) /\
  (forall s, narrow (B754_infinity 53 1024 s) = B754_infinity 24 128 s) /\
  (forall x, Binary.is_nan 24 128 (narrow x) = Binary.is_nan 53 1024 x).
Proof. exact (fconv_classes 53 1024 24 128 Hprec32 Hmax32 qnan32 eq_refl). Qed.

Lemma widen_classes :
  (forall s, widen (B754_zero 24 128 s) = B754_zero 53 1024 s) /\
  (forall s, widen (B754_infinity 24 128 s) = B754_infinity 53 1024 s) /\
  (forall x, Binary.is_nan 53 1024 (widen x) = Binary.is_nan 24 128 x).
Proof. exact (fconv_classes 24 128 53 1024 Hprec64 Hmax64 qnan64 eq_refl). Qed.

Lemma narrow_representable : forall x : binary64,
  Binary.is_finite 53 1024 x = true ->
  generic_format radix2 fexp32 (Binary.B2R 53 1024 x) ->
  (Rabs (Binary.B2R 53 1024 x) < bpow radix2 128)%R ->
  Binary.B2R 24 128 (narrow x) = Binary.B2R 53 1024 x /\
  Binary.is_finite 24 128 (narrow x) = true /\
  Binary.Bsign 24 128 (narrow x) = Binary.Bsign 53 1024 x.
Proof.
intros x Hf G Hlt.
generalize (narrow_finite_correct x Hf). cbn zeta.
rewrite round_generic by (auto with typeclass_instances).
now rewrite Rlt_bool_true.
Qed.

Lemma widen_narrow_value : forall x : binary64,
  Binary.is_finite 24 128 (narrow x) = true ->
  Binary.B2R 53 1024 (widen (narrow x)) = Binary.B2R 24 128 (narrow x) /\
  Binary.Bsign 53 1024 (widen (narrow x)) = Binary.Bsign 24 128 (narrow x).
Proof.
intros x Hf. destruct (widen_finite_correct _ Hf) as (A & B & C). auto.
Qed.

Lemma narrow_widen_narrow : forall x : binary64,
  Binary.is_nan 53 1024 x = false -> narrow (widen (narrow x)) = narrow x.
Proof.
intros x Hn. apply narrow_widen.
destruct narrow_classes as (_ & _ & H). now rewrite H.
Qed.

Lemma narrow_widen_bits : forall f : Z,
  0 <= f < 2 ^ 32 ->
  Binary.is_nan 24 128 (b32_of_bits f) = false ->
  narrow_bits (widen_bits f) = f.
Proof.
intros f Hr Hn. unfold narrow_bits, widen_bits, b64_of_bits, bits_of_b64.
rewrite binary_float_of_bits_of_binary_float.
rewrite narrow_widen by exact Hn.
apply bits_of_binary_float_of_bits. exact Hr.
Qed.

Lemma narrow_bits_range : forall d, 0 <= narrow_bits d < 2 ^ 32.
Proof. intros. apply (bits_of_binary_float_range 23 8); reflexivity. Qed.

Lemma widen_bits_range : forall f, 0 <= widen_bits f < 2 ^ 64.
Proof. intros. apply (bits_of_binary_float_range 52 11); reflexivity. Qed.

(* Model.encode_le and Model.decode_le are C03.Mem's, written again: C03.MemProofs applies as it stands *)
Lemma decode_encode : forall n z, 0 <= z < 256 ^ Z.of_nat n -> decode_le (encode_le n z) = z.
Proof.
  intros n z Hz. rewrite (decode_encode_le n z : decode_le (encode_le n z) = _). apply Z.mod_small.
  change 256 with (2 ^ 8) in Hz. rewrite <- Z.pow_mul_r in Hz by lia. exact Hz.
Qed.

Lemma encode_decode : forall bs, Forall is_byte bs -> encode_le (length bs) (decode_le bs) = bs.
Proof. exact encode_decode_le. Qed.

Lemma encode_length : forall n z, length (encode_le n z) = n.
Proof. exact length_encode_le. Qed.

Lemma firstn_encode_app : forall n z l, firstn n (encode_le n z ++ l) = encode_le n z.
Proof. intros. rewrite <- (encode_length n z) at 1. apply firstn_length_app. Qed.

Lemma skipn_encode_app : forall n z l, skipn n (encode_le n z ++ l) = l.
Proof. intros. rewrite <- (encode_length n z) at 1. apply skipn_length_app. Qed.

Lemma read_write_raw_float : forall k d rest, 0 <= d < 2 ^ 64 ->
  read_raw_float_data k (write_raw_float_data k d ++ rest) =
  match k with F32 => widen_bits (narrow_bits d) | F64 => d end.
Proof.
intros [|] d rest Hd; unfold read_raw_float_data, write_raw_float_data.
- rewrite firstn_encode_app, decode_encode; auto. apply narrow_bits_range.
- rewrite firstn_encode_app, decode_encode; auto.
Qed.

Lemma read_write_raw_complex : forall k re im, 0 <= re < 2 ^ 64 -> 0 <= im < 2 ^ 64 ->
  read_raw_complex_data k (write_raw_complex_data k re im) =
  (read_raw_float_data k (write_raw_float_data k re), read_raw_float_data k (write_raw_float_data k im)).
Proof.
intros k re im Hre Him. unfold read_raw_complex_data, write_raw_complex_data.
f_equal.
- rewrite read_write_raw_float by auto. rewrite <- (app_nil_r (write_raw_float_data k re)).
  now rewrite read_write_raw_float.
- destruct k; unfold write_raw_float_data, fsize; now rewrite skipn_encode_app.
Qed.

Lemma F2R_exp0 : forall n : Z, F2R (Float radix2 n 0) = IZR n.
Proof. intros. unfold F2R. cbn. ring. Qed.

Lemma int_to_double_correct : forall n : Z,
  let r := rne64 (IZR n) in
  if Rlt_bool (Rabs r) (bpow radix2 1024) then
    exists d, int_to_double n = Some d /\ 0 <= d < 2 ^ 64 /\
              Binary.B2R 53 1024 (b64_of_bits d) = r /\ Binary.is_finite 53 1024 (b64_of_bits d) = true
  else int_to_double n = None.
Proof.
intros n. cbn zeta. unfold int_to_double.
generalize (Binary.binary_normalize_correct 53 1024 Hprec64 Hmax64 mode_NE n 0 false).
cbn [round_mode]. change (SpecFloat.fexp 53 1024) with fexp64. rewrite F2R_exp0.
destruct Rlt_bool.
- intros (R1 & F1 & _). rewrite F1. eexists; split; [reflexivity|].
  split. apply (bits_of_binary_float_range 52 11); reflexivity.
  unfold b64_of_bits, bits_of_b64. rewrite binary_float_of_bits_of_binary_float. auto.
- intros HH.
  replace (Binary.is_finite 53 1024 _) with false; auto.
  rewrite <- Binary.is_finite_B2FF, HH. reflexivity.
Qed.

Lemma integer_format : forall emin p (n : Z), emin <= 0 -> Z.abs n < 2 ^ p ->
  generic_format radix2 (FLT_exp emin p) (IZR n).
Proof.
intros emin p n He Hn. apply generic_format_FLT. exists (Float radix2 n 0).
- now rewrite F2R_exp0.
- exact Hn.
- exact He.
Qed.

Lemma integer_format64 : forall n : Z, Z.abs n < 2 ^ 53 -> generic_format radix2 fexp64 (IZR n).
Proof. intros n. apply integer_format. lia. Qed.

Lemma integer_format32 : forall n : Z, Z.abs n < 2 ^ 24 -> generic_format radix2 fexp32 (IZR n).
Proof. intros n. apply integer_format. lia. Qed.

Lemma double_of_ordinal_exact : forall n : Z, 0 <= n < 2 ^ 53 ->
  Binary.B2R 53 1024 (b64_of_bits (double_of_ordinal n)) = IZR n /\
  Binary.is_finite 53 1024 (b64_of_bits (double_of_ordinal n)) = true /\
  0 <= double_of_ordinal n < 2 ^ 64.
Proof.
intros n Hn. unfold double_of_ordinal.
unfold b64_of_bits, bits_of_b64. rewrite binary_float_of_bits_of_binary_float.
generalize (Binary.binary_normalize_correct 53 1024 Hprec64 Hmax64 mode_NE n 0 false).
cbn [round_mode]. change (SpecFloat.fexp 53 1024) with fexp64. rewrite F2R_exp0.
rewrite round_generic; [|auto with typeclass_instances|apply integer_format; lia].
rewrite Rlt_bool_true.
- intros (A & B & _). repeat split; auto; apply (bits_of_binary_float_range 52 11); reflexivity.
- rewrite <- abs_IZR. change (bpow radix2 1024) with (IZR (2 ^ 1024)). apply IZR_lt.
  apply Z.lt_trans with (2 ^ 53); [lia|reflexivity].
Qed.

(* a float cast of an ordinal is still exact when it fits 24 bits (all code points do) *)
Lemma float_of_ordinal_exact : forall n : Z, 0 <= n < 2 ^ 24 ->
  Binary.B2R 24 128 (narrow (b64_of_bits (double_of_ordinal n))) = IZR n.
Proof.
intros n Hn.
destruct (double_of_ordinal_exact n) as (A & B & _); [lia|].
destruct (narrow_representable _ B) as (C & _).
- rewrite A. apply integer_format; lia.
- rewrite A, <- abs_IZR. change (bpow radix2 128) with (IZR (2 ^ 128)). apply IZR_lt.
  apply Z.lt_trans with (2 ^ 24); [lia|reflexivity].
- now rewrite C.
Qed.

Local Instance P24 : Prec_gt_0 24 := Hprec32.
Local Instance V32 : Valid_exp fexp32 := FLT_exp_valid (-149) 24.

(* the two adjacent doubles around the overflow threshold of (float) *)
Definition thr_hi : binary64 := b64_of_bits 0x47effffff0000000.   (* 2^128 - 2^103 : the midpoint, a tie *)
Definition thr_lo : binary64 := b64_of_bits 0x47efffffefffffff.   (* its predecessor in binary64 *)

(* for folding the literals of a statement into the two names.  The constant stands on the right on purpose: the
   kernel unfolds the right-hand constant first and then compares two equal terms; with the constant on the left
   (or with the conversion left to the theorem that uses the names) it evaluates b64_of_bits, which is slow to check,
   here and again in Props.C05_overflow_threshold *)
Lemma thr_hi_eq : b64_of_bits 0x47effffff0000000 = thr_hi.
Proof. exact (eq_refl (b64_of_bits 0x47effffff0000000)). Qed.
Lemma thr_lo_eq : b64_of_bits 0x47efffffefffffff = thr_lo.
Proof. exact (eq_refl (b64_of_bits 0x47efffffefffffff)). Qed.

Lemma rne32_abs : forall x : R, rne32 (Rabs x) = Rabs (rne32 x).
Proof.
intros. apply round_NE_abs. exact V32.
Qed.

Lemma thr_hi_pos : (0 < Binary.B2R 53 1024 thr_hi)%R.
Proof.
assert (G : forall x : binary64, Binary.is_finite_strict 53 1024 x = true ->
            Binary.Bsign 53 1024 x = false -> (0 < Binary.B2R 53 1024 x)%R).
{ intros [s|s|s pl H|s m e H] A B; try discriminate A. cbn in B. subst s.
  cbn [Binary.B2R cond_Zopp]. now apply F2R_gt_0. }
apply G; vm_compute; reflexivity.
Qed.

Lemma narrow_thr_hi_inf : Binary.is_finite 24 128 (narrow thr_hi) = false.
Proof. vm_compute. reflexivity. Qed.
Lemma narrow_thr_lo_fin : Binary.is_finite 24 128 (narrow thr_lo) = true.
Proof. vm_compute. reflexivity. Qed.
Lemma thr_hi_finite : Binary.is_finite 53 1024 thr_hi = true.
Proof. vm_compute. reflexivity. Qed.
Lemma thr_lo_finite : Binary.is_finite 53 1024 thr_lo = true.
Proof. vm_compute. reflexivity. Qed.

Lemma round_thr_hi : (bpow radix2 128 <= rne32 (Binary.B2R 53 1024 thr_hi))%R.
Proof.
generalize (narrow_finite_correct thr_hi thr_hi_finite). cbn zeta.
(* narrow thr_hi is computed to be infinite: that excludes the first branch of narrow_finite_correct *)
case Rlt_bool_spec.
- intros _ (_ & F & _). rewrite narrow_thr_hi_inf in F. discriminate F.
- intros H _. rewrite Rabs_pos_eq in H; auto.
  rewrite <- (round_0 radix2 fexp32 ZnearestE).
  apply round_le; auto with typeclass_instances. apply Rlt_le, thr_hi_pos.
Qed.

Lemma round_thr_lo : (rne32 (Binary.B2R 53 1024 thr_lo) < bpow radix2 128)%R.
Proof.
generalize (narrow_finite_correct thr_lo thr_lo_finite). cbn zeta.
(* narrow thr_lo is computed to be finite: that excludes the second branch *)
case Rlt_bool_spec.
- intros H _. eapply Rle_lt_trans; [apply RRle_abs|exact H].
- intros _ F. apply (f_equal (Binary.is_finite 24 128)) in F. rewrite narrow_thr_lo_fin in F. discriminate F.
Qed.

Lemma narrow_overflow : forall x : binary64,
  Binary.is_finite 53 1024 x = true ->
  (Binary.B2R 53 1024 thr_hi <= Rabs (Binary.B2R 53 1024 x))%R ->
  narrow x = B754_infinity 24 128 (Binary.Bsign 53 1024 x).
Proof.
intros x Hf Hx.
generalize (narrow_finite_correct x Hf). cbn zeta.
rewrite Rlt_bool_false; auto.
rewrite <- rne32_abs.
eapply Rle_trans. apply round_thr_hi.
apply round_le; auto with typeclass_instances.
Qed.

Lemma narrow_no_overflow : forall x : binary64,
  Binary.is_finite 53 1024 x = true ->
  (Rabs (Binary.B2R 53 1024 x) <= Binary.B2R 53 1024 thr_lo)%R ->
  Binary.is_finite 24 128 (narrow x) = true /\
  Binary.B2R 24 128 (narrow x) = rne32 (Binary.B2R 53 1024 x).
Proof.
intros x Hf Hx.
generalize (narrow_finite_correct x Hf). cbn zeta.
rewrite Rlt_bool_true. tauto.
rewrite <- rne32_abs.
eapply Rle_lt_trans. 2: apply round_thr_lo.
apply round_le; auto with typeclass_instances.
Qed.

Lemma thr_adjacent : bits_of_b64 thr_hi = bits_of_b64 thr_lo + 1.
Proof. vm_compute. reflexivity. Qed.

Lemma pred_thr_hi : Binary.Bpred 53 1024 Hprec64 Hmax64 thr_hi = thr_lo.
Proof.
(* both sides are closed: their bit patterns are compared, by computation *)
rewrite <- (binary_float_of_bits_of_binary_float 52 11 eq_refl eq_refl eq_refl (Binary.Bpred 53 1024 Hprec64 Hmax64 thr_hi)).
rewrite <- (binary_float_of_bits_of_binary_float 52 11 eq_refl eq_refl eq_refl thr_lo).
apply f_equal. vm_compute. reflexivity.
Qed.

Local Instance P53 : Prec_gt_0 53 := Hprec64.
Local Instance V64 : Valid_exp fexp64 := FLT_exp_valid (-1074) 53.

Lemma B2R_thr_lo_is_pred : Binary.B2R 53 1024 thr_lo = pred radix2 fexp64 (Binary.B2R 53 1024 thr_hi).
Proof.
rewrite <- pred_thr_hi.
generalize (Binary.Bpred_correct 53 1024 Hprec64 Hmax64 thr_hi thr_hi_finite).
change (SpecFloat.fexp 53 1024) with fexp64.
rewrite Rlt_bool_true; [tauto|].
apply Rlt_le_trans with 0%R.
- rewrite <- Ropp_0. apply Ropp_lt_contravar, bpow_gt_0.
- apply (@pred_ge_0 radix2 fexp64 V64).
  + apply thr_hi_pos.
  + apply (Binary.generic_format_B2R 53 1024 thr_hi).
Qed.

Lemma below_thr_hi_le_thr_lo : forall x : binary64,
  (Rabs (Binary.B2R 53 1024 x) < Binary.B2R 53 1024 thr_hi)%R ->
  (Rabs (Binary.B2R 53 1024 x) <= Binary.B2R 53 1024 thr_lo)%R.
Proof.
intros x H. rewrite B2R_thr_lo_is_pred.
apply (@pred_ge_gt radix2 fexp64 V64); auto.
- apply generic_format_abs. apply (Binary.generic_format_B2R 53 1024 x).
- apply (Binary.generic_format_B2R 53 1024 thr_hi).
Qed.

Lemma narrow_overflow_iff : forall x : binary64,
  Binary.is_finite 53 1024 x = true ->
  (Binary.is_finite 24 128 (narrow x) = false <->
   (Binary.B2R 53 1024 thr_hi <= Rabs (Binary.B2R 53 1024 x))%R).
Proof.
intros x Hf. split.
- intros Hinf. destruct (Rle_or_lt (Binary.B2R 53 1024 thr_hi) (Rabs (Binary.B2R 53 1024 x))) as [H|H]; auto.
  exfalso. apply below_thr_hi_le_thr_lo in H.
  destruct (narrow_no_overflow x Hf H) as [F _]. congruence.
- intros H. rewrite (narrow_overflow x Hf H). reflexivity.
Qed.

Lemma Zeq_bool_eqb : forall a b, Zeq_bool a b = (a =? b).
Proof. intros. unfold Zeq_bool. rewrite Z.eqb_compare. now destruct (a ?= b). Qed.

Lemma is_nan_of_bits_gen : forall mw ew (Hmw : 0 < mw) (Hew : 0 < ew) Hmax x,
  Binary.is_nan _ _ (binary_float_of_bits mw ew Hmw Hew Hmax x) =
  ((x / 2 ^ mw) mod 2 ^ ew =? 2 ^ ew - 1) && negb (x mod 2 ^ mw =? 0).
Proof.
intros mw ew Hmw Hew Hmax x.
unfold binary_float_of_bits. rewrite Binary.is_nan_FF2B.
unfold binary_float_of_bits_aux, split_bits.
assert (0 < 2 ^ mw) by (apply Z.pow_pos_nonneg; lia).
assert (0 < 2 ^ ew) by (apply Z.pow_pos_nonneg; lia).
assert (1 < 2 ^ ew) by (apply Z.pow_gt_1; lia).
pose proof (Z.mod_pos_bound x (2 ^ mw) ltac:(lia)) as Hm.
set (m := x mod 2 ^ mw) in *.
set (e := (x / 2 ^ mw) mod 2 ^ ew) in *.
rewrite !Zeq_bool_eqb.
destruct (e =? 0) eqn:E0.
- apply Z.eqb_eq in E0. replace (e =? 2 ^ ew - 1) with false by (symmetry; apply Z.eqb_neq; lia).
  destruct m; try reflexivity. exfalso; lia.
- destruct (e =? 2 ^ ew - 1) eqn:E1.
  + destruct m; reflexivity.
  + destruct (m + 2 ^ mw) eqn:E2; try reflexivity; exfalso; lia.
Qed.

Lemma is_nan32_bits_correct : forall f, Binary.is_nan 24 128 (b32_of_bits f) = is_nan32_bits f.
Proof. intros. unfold b32_of_bits. apply (is_nan_of_bits_gen 23 8). Qed.

Lemma is_nan64_bits_correct : forall d, Binary.is_nan 53 1024 (b64_of_bits d) = is_nan64_bits d.
Proof. intros. unfold b64_of_bits. apply (is_nan_of_bits_gen 52 11). Qed.

Lemma float_store_read : forall d rest, 0 <= d < 2 ^ 64 ->
  let mem := write_raw_float_data F32 d ++ rest in
  b32_of_bits (decode_le (firstn 4 mem)) = narrow (b64_of_bits d) /\
  b64_of_bits (read_raw_float_data F32 mem) = widen (narrow (b64_of_bits d)).
Proof.
intros d rest Hd mem. unfold mem, read_raw_float_data, write_raw_float_data.
rewrite firstn_encode_app, decode_encode by apply narrow_bits_range.
unfold widen_bits, narrow_bits, b32_of_bits, bits_of_b32, b64_of_bits, bits_of_b64.
rewrite !binary_float_of_bits_of_binary_float. auto.
Qed.

Lemma double_store_read : forall d rest, 0 <= d < 2 ^ 64 ->
  let mem := write_raw_float_data F64 d ++ rest in
  decode_le (firstn 8 mem) = d /\ read_raw_float_data F64 mem = d.
Proof.
intros d rest Hd mem. unfold mem, read_raw_float_data, write_raw_float_data.
rewrite firstn_encode_app, decode_encode; auto.
Qed.

Lemma write_raw_float_length : forall k d, length (write_raw_float_data k d) = fsize k.
Proof. intros [|] d; apply encode_length. Qed.

Lemma write_raw_complex_length : forall k re im, length (write_raw_complex_data k re im) = (2 * fsize k)%nat.
Proof. intros. unfold write_raw_complex_data. rewrite app_length, !write_raw_float_length. lia. Qed.

Lemma complex_parts : forall k re im,
  firstn (fsize k) (write_raw_complex_data k re im) = write_raw_float_data k re /\
  skipn (fsize k) (write_raw_complex_data k re im) = write_raw_float_data k im.
Proof.
intros. unfold write_raw_complex_data. rewrite <- (write_raw_float_length k re).
split; [apply firstn_length_app|apply skipn_length_app].
Qed.

Lemma store_complex_componentwise : forall k v mem,
  store_complex k v = Ok mem ->
  exists re im, PyComplex_AsCComplex v = Ok (re, im) /\
    firstn (fsize k) mem = write_raw_float_data k re /\
    skipn (fsize k) mem = write_raw_float_data k im /\
    store_float k (PyFloat re) = Ok (firstn (fsize k) mem) /\
    store_float k (PyFloat im) = Ok (skipn (fsize k) mem).
Proof.
intros k v mem. unfold store_complex.
destruct (PyComplex_AsCComplex v) as [[re im]|e]; [|discriminate].
intros H. injection H as <-. exists re, im. destruct (complex_parts k re im) as (-> & ->).
unfold store_float. cbn. auto.
Qed.

Lemma cast_complex_componentwise : forall k v mem,
  cast_complex k v = Ok mem ->
  exists re im,
    firstn (fsize k) mem = write_raw_float_data k re /\
    skipn (fsize k) mem = write_raw_float_data k im /\
    match check_bytes_for_float_compatible v with
    | Some (Some d) => re = d /\ im = pos_zero
    | _ => PyComplex_AsCComplex v = Ok (re, im)
    end.
Proof.
intros k v mem. unfold cast_complex.
destruct (check_bytes_for_float_compatible v) as [[d|]|]; try discriminate.
- intros H. injection H as <-. exists d, pos_zero. destruct (complex_parts k d pos_zero). auto.
- destruct (PyComplex_AsCComplex v) as [[re im]|e]; [|discriminate].
  intros H. injection H as <-. exists re, im. destruct (complex_parts k re im). auto.
Qed.

Lemma cast_float_vs_store : forall k v,
  match v with
  | PyBytes _ | PyStr _ => store_float k v = Err TypeError
  | _ => cast_float k v = store_float k v
  end.
Proof. intros k [b|b|n|re im|re im|bs|cps|]; reflexivity. Qed.

Lemma cast_float_char : forall k c,
  cast_float k (PyBytes [c]) = Ok (write_raw_float_data k (double_of_ordinal c)) /\
  cast_float k (PyStr [c]) = Ok (write_raw_float_data k (double_of_ordinal c)).
Proof. intros; split; reflexivity. Qed.

Lemma narrow_widen_bits_nan_test : forall f : Z,
  0 <= f < 2 ^ 32 -> is_nan32_bits f = false -> narrow_bits (widen_bits f) = f.
Proof. intros f Hf Hn. apply narrow_widen_bits; auto. now rewrite is_nan32_bits_correct. Qed.

Lemma char_ordinal_exact : forall n : Z, 0 <= n < 2 ^ 24 ->
  cast_float F64 (PyStr [n]) = Ok (write_raw_float_data F64 (double_of_ordinal n)) /\
  cast_float F32 (PyStr [n]) = Ok (write_raw_float_data F32 (double_of_ordinal n)) /\
  Binary.B2R 53 1024 (b64_of_bits (double_of_ordinal n)) = IZR n /\
  Binary.B2R 24 128 (narrow (b64_of_bits (double_of_ordinal n))) = IZR n.
Proof.
intros n Hn. repeat split; try reflexivity.
- apply double_of_ordinal_exact. split; [apply Hn|]. apply Z.lt_trans with (2 ^ 24); [apply Hn|reflexivity].
- now apply float_of_ordinal_exact.
Qed.
