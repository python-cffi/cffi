(* C05 — proofs about the extended hand model C05/XModel.v: the frame of a store at an offset of a
   larger memory, and exactness of (long double)d. *)
From Coq Require Import ZArith List Bool Reals Lia.
From Flocq Require Import Core.Core IEEE754.BinarySingleNaN IEEE754.Binary IEEE754.Bits.
From Cffi Require Import Base.ListFacts C03.Mem C03.MemProofs C05.Model C05.Proofs C05.XModel.
Import ListNotations.
Open Scope Z_scope.

Lemma widen_ld_finite_correct : forall x : binary64,
  Binary.is_finite 53 1024 x = true ->
  Binary.B2R 64 16384 (widen_ld x) = Binary.B2R 53 1024 x /\
  Binary.is_finite 64 16384 (widen_ld x) = true /\
  Binary.Bsign 64 16384 (widen_ld x) = Binary.Bsign 53 1024 x.
Proof. intros x. apply (fconv_exact 53 1024 64 16384 Hprec64); lia. Qed.

Lemma widen_ld_classes :
  (forall s, widen_ld (B754_zero 53 1024 s) = B754_zero 64 16384 s) /\
  (forall s, widen_ld (B754_infinity 53 1024 s) = B754_infinity 64 16384 s) /\
  (forall x, Binary.is_nan 64 16384 (widen_ld x) = Binary.is_nan 53 1024 x).
Proof. exact (fconv_classes 53 1024 64 16384 Hprec_x87 Hmax_x87 qnan_x87 eq_refl). Qed.

Lemma model_encode_is_mem : forall n z, Model.encode_le n z = Mem.encode_le n z.
Proof. reflexivity. Qed.

Lemma xwrite_float_len : forall t v pad, length pad = 6%nat -> length (xwrite_float t v pad) = xsize t.
Proof.
intros [k|] v pad Hp; cbn [xwrite_float xsize].
- apply write_raw_float_length.
- unfold write_raw_longdouble_data. rewrite app_length, encode_length, Hp. reflexivity.
Qed.

Lemma longdouble_copy_len : forall bs pad, length pad = 6%nat -> length (longdouble_copy bs pad) = 16%nat.
Proof.
intros. unfold longdouble_copy, write_raw_longdouble_data. rewrite app_length, encode_length, H. reflexivity.
Qed.

Definition frame_ok (off size : nat) (mem mem' : list Z) : Prop :=
  length mem' = length mem /\
  forall j d, (j < off \/ off + size <= j)%nat -> nth j mem' d = nth j mem d.

Lemma splice_frame : forall off bs n mem, length bs = n -> (off + n <= length mem)%nat ->
  frame_ok off n mem (splice off bs mem) /\ unit_at off n (splice off bs mem) = bs.
Proof.
intros off bs n mem <- H. repeat split.
- now apply splice_length.
- intros j d Hj. now apply nth_splice_outside.
- now apply unit_at_splice.
Qed.

Lemma frame_refl : forall off size mem, frame_ok off size mem mem.
Proof. intros; split; auto. Qed.

(* what the float store leaves at data[0 .. size) when it succeeds *)
Definition xstore_float_bytes (t : ftarget) (pad : list Z) (init : xval) : result (list Z) :=
  match is_ld_copy t init with
  | Some bs => Ok (longdouble_copy bs pad)
  | None => match x_as_double init with Ok value => Ok (xwrite_float t value pad) | Err e => Err e end
  end.

Lemma xstore_float_frame : forall t pad init off mem,
  length pad = 6%nat -> (off + xsize t <= length mem)%nat ->
  let r := xstore_float_at t pad init off mem in
  frame_ok off (xsize t) mem (snd r) /\
  match xstore_float_bytes t pad init with
  | Ok bs => fst r = Ok tt /\ length bs = xsize t /\ unit_at off (xsize t) (snd r) = bs
  | Err e => fst r = Err e /\ snd r = mem
  end.
Proof.
intros t pad init off mem Hp H. unfold xstore_float_at, xstore_float_bytes.
destruct (is_ld_copy t init) as [bs|] eqn:E.
- assert (t = TLD) as -> by (destruct t; [discriminate|reflexivity]).
  cbn [fst snd xsize] in *.
  pose proof (longdouble_copy_len bs pad Hp) as L.
  destruct (splice_frame off _ 16 mem L H) as [F U]. auto.
- destruct (x_as_double init) as [v|e]; cbn [fst snd].
  + pose proof (xwrite_float_len t v pad Hp) as L.
    destruct (splice_frame off _ (xsize t) mem L H) as [F U]. auto.
  + split; [apply frame_refl|auto].
Qed.

Lemma xstore_complex_frame : forall k init off mem,
  (off + 2 * fsize k <= length mem)%nat ->
  let r := xstore_complex_at k init off mem in
  frame_ok off (2 * fsize k) mem (snd r) /\
  match x_as_complex init with
  | Ok (re, im) => fst r = Ok tt /\
      unit_at off (fsize k) (snd r) = write_raw_float_data k re /\
      unit_at (off + fsize k) (fsize k) (snd r) = write_raw_float_data k im
  | Err e => fst r = Err e /\ snd r = mem
  end.
Proof.
intros k init off mem H. unfold xstore_complex_at.
destruct (x_as_complex init) as [[re im]|e]; cbn [fst snd].
- destruct (splice_frame off _ _ mem (write_raw_complex_length k re im) H) as [F U].
  split; [exact F|]. split; [reflexivity|].
  unfold unit_at in *. split.
  + apply (f_equal (firstn (fsize k))) in U. rewrite firstn_firstn in U.
    replace (Nat.min (fsize k) (2 * fsize k)) with (fsize k) in U by lia.
    rewrite U. apply complex_parts.
  + apply (f_equal (skipn (fsize k))) in U.
    rewrite skipn_add. rewrite skipn_firstn_comm in U.
    replace (2 * fsize k - fsize k)%nat with (fsize k) in U by lia.
    rewrite U. apply complex_parts.
- split; [apply frame_refl|auto].
Qed.

Lemma xstore_float_read_back : forall k pad d off mem,
  0 <= d < 2 ^ 64 -> (off + fsize k <= length mem)%nat ->
  let r := xstore_float_at (TK k) pad (XPy (PyFloat d)) off mem in
  read_raw_float_data k (unit_at off (fsize k) (snd r))
  = match k with F32 => widen_bits (narrow_bits d) | F64 => d end.
Proof.
intros k pad d off mem Hd H. cbn [xstore_float_at is_ld_copy x_as_double PyFloat_AsDouble xwrite_float snd].
pose proof (write_raw_float_length k d) as L.
rewrite <- L at 1. rewrite unit_at_splice by (rewrite L; exact H).
rewrite <- (app_nil_r (write_raw_float_data k d)). now apply read_write_raw_float.
Qed.
